(* IndexLtsProofs.v — theorems about IndexLts.v (index vs cache agreement of the HTTP middleware). *)
From KV Require Import Base IndexLts.

Lemma get_rem_same k m : get k (rem k m) = None.
Proof.
  unfold rem. induction m as [|[k' v] m IH]; cbn; [reflexivity|].
  destruct (k' =? k) eqn:E; cbn; [exact IH|]. rewrite E. exact IH.
Qed.

Lemma get_rem_other k k' m : k <> k' -> get k (rem k' m) = get k m.
Proof.
  intros Hne. unfold rem. induction m as [|[k2 v] m IH]; cbn; [reflexivity|].
  destruct (k2 =? k') eqn:E; cbn.
  - rewrite IH. destruct (k2 =? k) eqn:E2; [lia|reflexivity].
  - rewrite IH. reflexivity.
Qed.

Lemma get_rem_some k v id m : get k (rem v m) = Some id -> get k m = Some id /\ k <> v.
Proof.
  intros Hg. destruct (Z.eq_dec k v) as [->|Hne]; [rewrite get_rem_same in Hg; discriminate|].
  rewrite get_rem_other in Hg by exact Hne. auto.
Qed.

Lemma get_set_same k v m : get k (set k v m) = Some v.
Proof. unfold set; cbn. rewrite Z.eqb_refl. reflexivity. Qed.

Lemma get_set_other k k' v m : k <> k' -> get k (set k' v m) = get k m.
Proof.
  intros Hne. unfold set; cbn. destruct (k' =? k) eqn:E; [lia|]. apply get_rem_other; exact Hne.
Qed.

Lemma rem_rem_same k m : rem k (rem k m) = rem k m.
Proof.
  unfold rem. induction m as [|[k' v] m IH]; cbn; [reflexivity|].
  destruct (k' =? k) eqn:E; cbn; [exact IH|]. rewrite E; cbn. rewrite IH. reflexivity.
Qed.

Lemma rem_set_same k v m : rem k (set k v m) = rem k m.
Proof. unfold set, rem at 1. cbn. rewrite Z.eqb_refl. apply rem_rem_same. Qed.

Lemma rem_id_hit k id m : get k m = Some id -> rem_id k id m = rem k m.
Proof. intros Hg. unfold rem_id. rewrite Hg, Z.eqb_refl. reflexivity. Qed.

Lemma rem_id_miss k id m : get k m <> Some id -> rem_id k id m = m.
Proof.
  intros Hg. unfold rem_id. destruct (get k m) as [v|] eqn:E; [|reflexivity].
  destruct (v =? id) eqn:E2; [|reflexivity]. exfalso; apply Hg. f_equal; lia.
Qed.

Lemma option_eq_dec_Z (a b : option Z) : {a = b} + {a <> b}.
Proof. decide equality. apply Z.eq_dec. Qed.

Lemma get_rem_id_iff k0 v k id m :
  get k0 (rem_id k id m) = Some v <-> get k0 m = Some v /\ (k0, v) <> (k, id).
Proof.
  destruct (option_eq_dec_Z (get k m) (Some id)) as [He|Hn].
  - rewrite (rem_id_hit _ _ _ He). destruct (Z.eq_dec k0 k) as [->|Hne].
    + rewrite get_rem_same, He. split; [discriminate|]. intros [[= ->] Hx]. destruct (Hx eq_refl).
    + rewrite (get_rem_other _ _ _ Hne). split; [|tauto]. intros Hg. split; [exact Hg|].
      intros [= Hk _]. exact (Hne Hk).
  - rewrite (rem_id_miss _ _ _ Hn). split; [|tauto]. intros Hg. split; [exact Hg|].
    intros [= -> ->]. exact (Hn Hg).
Qed.

Lemma in_snoc {A} (x y : A) l : In x (l ++ [y]) <-> In x l \/ y = x.
Proof. rewrite in_app_iff. cbn. tauto. Qed.

Lemma nth_error_upd_same {A} (l : list A) i x t :
  nth_error l i = Some t -> nth_error (upd i x l) i = Some x.
Proof.
  revert i; induction l as [|y l IH]; intros [|i] Hn; cbn in *; try discriminate; [reflexivity|].
  apply IH; exact Hn.
Qed.

Lemma nth_error_upd_other {A} (l : list A) i j x :
  j <> i -> nth_error (upd i x l) j = nth_error l j.
Proof.
  revert i j; induction l as [|y l IH]; intros [|i] [|j] Hne; cbn; try reflexivity; try lia.
  apply IH; lia.
Qed.

Lemma length_upd {A} (l : list A) i x : length (upd i x l) = length l.
Proof. revert i; induction l as [|y l IH]; intros [|i]; cbn; auto. Qed.

Definition anyT (P : pc -> Prop) (ths : list thread) : Prop :=
  exists j tj, nth_error ths j = Some tj /\ P (t_pc tj).
Definition others (P : pc -> Prop) (i : nat) (ths : list thread) : Prop :=
  exists j tj, j <> i /\ nth_error ths j = Some tj /\ P (t_pc tj).

Lemma anyT_split P ths i t :
  nth_error ths i = Some t -> (anyT P ths <-> P (t_pc t) \/ others P i ths).
Proof.
  intros Hn; split.
  - intros (j & tj & Hj & HP). destruct (Nat.eq_dec j i) as [->|Hne].
    + left. rewrite Hn in Hj. inversion Hj; subst. exact HP.
    + right. exists j, tj. auto.
  - intros [HP|(j & tj & _ & Hj & HP)]; [exists i, t|exists j, tj]; auto.
Qed.

Lemma anyT_upd P ths i t t1 :
  nth_error ths i = Some t -> (anyT P (upd i t1 ths) <-> P (t_pc t1) \/ others P i ths).
Proof.
  intros Hn. rewrite (anyT_split P _ i t1 (nth_error_upd_same _ _ _ _ Hn)).
  assert (E : others P i (upd i t1 ths) <-> others P i ths); [|tauto].
  split; intros (j & tj & Hne & Hj & HP); exists j, tj;
    [rewrite nth_error_upd_other in Hj by exact Hne|rewrite nth_error_upd_other by exact Hne]; auto.
Qed.

Definition pendingT (ths : list thread) : list Z := flat_map (fun t => script_ids (t_script t)) ths.

Lemma pending_upd ths i t :
  nth_error ths i = Some t ->
  exists a b, pendingT ths = a ++ script_ids (t_script t) ++ b /\
              forall t1, pendingT (upd i t1 ths) = a ++ script_ids (t_script t1) ++ b.
Proof.
  revert i; induction ths as [|y l IH]; intros [|i] Hn; cbn in *; try discriminate.
  - inversion Hn; subst. exists [], (pendingT l). split; [reflexivity|]. intros t1. reflexivity.
  - destruct (IH _ Hn) as (a & b & E1 & E2).
    exists (script_ids (t_script y) ++ a), b. split.
    + unfold pendingT in *. rewrite E1. rewrite app_assoc. reflexivity.
    + intros t1. unfold pendingT in *. rewrite E2. rewrite app_assoc. reflexivity.
Qed.

(* hypothesis H on a bare thread list: `IndexLts.H s` unfolds to `HT (threads s)`, and the two are used
   interchangeably below *)
Definition HT (ths : list thread) : Prop :=
  forall i j ti tj, i <> j -> nth_error ths i = Some ti -> nth_error ths j = Some tj ->
    conflict (t_pc ti) (t_pc tj) = false.

Lemma HT_others ths i t (P : pc -> Prop) :
  HT ths -> nth_error ths i = Some t ->
  (forall q, P q -> conflict (t_pc t) q = true \/ conflict q (t_pc t) = true) -> ~ others P i ths.
Proof.
  intros HH Hn HP (j & tj & Hne & Hj & Hp).
  assert (Hij : i <> j) by (intros ->; exact (Hne eq_refl)).
  destruct (HP _ Hp) as [Hc|Hc].
  - rewrite (HH i j t tj Hij Hn Hj) in Hc. discriminate.
  - rewrite (HH j i tj t Hne Hj Hn) in Hc. discriminate.
Qed.

Definition inflightT (k id : Z) ths := anyT (fun p => p = PStoreB k id) ths.
Definition inflight_keyT (k : Z) ths := anyT (fun p => exists id, p = PStoreB k id) ths.
Definition clearingT ths := anyT (fun p => p = PClear2) ths.
Definition erringT ths := anyT (fun p => exists k id, p = PStoreB' k id) ths.

Definition inflight k id s := inflightT k id (threads s).
Definition inflight_key k s := inflight_keyT k (threads s).
Definition clearing s := clearingT (threads s).

Lemma inflight_keyT_ex k ths : inflight_keyT k ths <-> exists id, inflightT k id ths.
Proof.
  split.
  - intros (j & tj & Hj & id & Hp). exists id, j, tj. auto.
  - intros (id & j & tj & Hj & Hp). exists j, tj. eauto.
Qed.

Definition unusedC (k id : Z) (ca : amap) (no : list (Z * Z)) : Prop :=
  get k ca <> Some id /\ ~ In (k, id) no.

(* The invariant reads the thread list only through four summaries: fl k id "a store of (k,id) is between its steps
   A and B", cl "a Clear is between its two steps", er "a store is at B'", pe the identities still waiting in scripts.
   It is stated over the summaries, so that a step lemma names the new summaries outright and the clauses a step
   does not touch are the old ones verbatim. *)
Record InvA (ix ca : amap) (no : list (Z * Z)) (fl : Z -> Z -> Prop) (cl er : Prop) (pe : list Z) : Prop := {
  (* the two directions of "index = cache up to what is in flight" *)
  cached_indexed : forall k id, get k ca = Some id -> get k ix = Some id \/ exists id', fl k id';
  indexed_cached : forall k id, get k ix = Some id -> get k ca = Some id \/ In (k, id) no \/ fl k id \/ cl;
  (* a store between A and B has written the index, and its identity has not yet reached the cache or the queue *)
  inflight_unused : forall k id, fl k id -> get k ix = Some id /\ unusedC k id ca no;
  (* what is announced as removed is no longer cached (needed when the announcement is delivered) *)
  cached_not_noted : forall k id, get k ca = Some id -> ~ In (k, id) no;
  (* between a Clear's steps the cache is empty (needed when the index is cleared) *)
  clearing_empty : cl -> ca = [];
  (* B' is reached only on a closed cache *)
  not_erring : ~ er;
  (* identities still in scripts are pairwise distinct, and none has been used yet: this is where wf_scripts goes *)
  pending_nodup : NoDup pe;
  pending_unused : forall id, In id pe -> forall k, unusedC k id ca no /\ ~ fl k id
}.
Arguments cached_indexed {ix ca no fl cl er pe} _.
Arguments indexed_cached {ix ca no fl cl er pe} _.
Arguments inflight_unused {ix ca no fl cl er pe} _.
Arguments cached_not_noted {ix ca no fl cl er pe} _.
Arguments clearing_empty {ix ca no fl cl er pe} _.
Arguments not_erring {ix ca no fl cl er pe} _.
Arguments pending_unused {ix ca no fl cl er pe} _.

Definition InvC (ix ca : amap) (no : list (Z * Z)) (ths : list thread) : Prop :=
  InvA ix ca no (fun k id => inflightT k id ths) (clearingT ths) (erringT ths) (pendingT ths).

Definition Inv (s : state) : Prop := InvC (idx s) (cache s) (notes s) (threads s).

Lemma invA_ext ix ca no (fl fl' : Z -> Z -> Prop) (cl cl' er er' : Prop) pe :
  (forall k id, fl' k id <-> fl k id) -> (cl' <-> cl) -> (er' <-> er) ->
  InvA ix ca no fl cl er pe -> InvA ix ca no fl' cl' er' pe.
Proof.
  intros Ef Ec Ee [J1 J2 J3 J4 J5 J6 G1 G2]. constructor.
  - intros k id Hg. destruct (J1 _ _ Hg) as [Hi|[id' Hf]]; [left; exact Hi|right; exists id'; apply Ef; exact Hf].
  - intros k id Hg. rewrite Ef, Ec. exact (J2 _ _ Hg).
  - intros k id Hf. apply J3, Ef, Hf.
  - exact J4.
  - rewrite Ec. exact J5.
  - rewrite Ee. exact J6.
  - exact G1.
  - intros id Hin k. rewrite Ef. exact (G2 _ Hin k).
Qed.

(* a resident entry leaves the cache with a notification (Evict, Delete, displacement, rejection) *)
Lemma unused_remove k id ca no v idv :
  get v ca = Some idv -> unusedC k id ca no -> unusedC k id (rem v ca) (no ++ [(v, idv)]).
Proof.
  intros Hv [Hc Hn]. split.
  - intros Hg. apply get_rem_some in Hg. tauto.
  - rewrite in_snoc. intros [Hin|[= -> ->]]; tauto.
Qed.

Lemma invA_remove ix ca no fl cl er pe v idv :
  get v ca = Some idv -> InvA ix ca no fl cl er pe -> InvA ix (rem v ca) (no ++ [(v, idv)]) fl cl er pe.
Proof.
  intros Hv [J1 J2 J3 J4 J5 J6 G1 G2]. constructor.
  - intros k id Hg. apply get_rem_some in Hg. exact (J1 _ _ (proj1 Hg)).
  - intros k id Hg. rewrite in_snoc. destruct (J2 _ _ Hg) as [Hc|Hr]; [|tauto].
    destruct (Z.eq_dec k v) as [->|Hne]; [right; left; right; congruence|].
    left. rewrite get_rem_other by exact Hne. exact Hc.
  - intros k id Hf. destruct (J3 _ _ Hf) as [Hi Hu]. split; [exact Hi|apply unused_remove; assumption].
  - intros k id Hg. apply get_rem_some in Hg. destruct Hg as [Hg Hne]. rewrite in_snoc.
    intros [Hin|[= Hk _]]; [exact (J4 _ _ Hg Hin)|exact (Hne (eq_sym Hk))].
  - intros Hc. rewrite (J5 Hc). reflexivity.
  - exact J6.
  - exact G1.
  - intros id Hin k. destruct (G2 _ Hin k) as [Hu Hnf]. split; [apply unused_remove; assumption|exact Hnf].
Qed.

(* store step A; by H no other store of k is in flight *)
Lemma invA_storeA ix ca no (fl : Z -> Z -> Prop) cl er a b k id :
  InvA ix ca no fl cl er (a ++ id :: b) -> (forall id0, ~ fl k id0) ->
  InvA (set k id ix) ca no (fun k0 id0 => PStoreB k id = PStoreB k0 id0 \/ fl k0 id0) cl er (a ++ b).
Proof.
  intros [J1 J2 J3 J4 J5 J6 G1 G2] HF.
  assert (Hsub : forall x, In x (a ++ b) -> In x (a ++ id :: b)) by (intros x; rewrite !in_app_iff; cbn; tauto).
  constructor.
  - intros k0 id0 Hg. destruct (J1 _ _ Hg) as [Hi|[id' Hf]]; [|right; exists id'; right; exact Hf].
    destruct (Z.eq_dec k0 k) as [->|Hne]; [right; exists id; left; reflexivity|].
    left. rewrite get_set_other by exact Hne. exact Hi.
  - intros k0 id0 Hg. destruct (Z.eq_dec k0 k) as [->|Hne].
    + rewrite get_set_same in Hg. injection Hg as <-. right; right; left; left; reflexivity.
    + rewrite get_set_other in Hg by exact Hne. pose proof (J2 _ _ Hg). tauto.
  - intros k0 id0 [[= <- <-]|Hf].
    + split; [apply get_set_same|apply (G2 id (in_elt _ _ _))].
    + destruct (J3 _ _ Hf) as [Hi Hu]. split; [|exact Hu].
      rewrite get_set_other; [exact Hi|]. intros ->. exact (HF _ Hf).
  - exact J4.
  - exact J5.
  - exact J6.
  - exact (NoDup_remove_1 _ _ _ G1).
  - intros id0 Hin k0. destruct (G2 _ (Hsub _ Hin) k0) as [Hu Hnf]. split; [exact Hu|].
    intros [[= <- <-]|Hf]; [exact (NoDup_remove_2 _ _ _ G1 Hin)|exact (Hnf Hf)].
Qed.

(* store step B, accepted (after displacement): cache[k] := id; by H no other store of k and no Clear *)
Lemma invA_set ix ca no (fl : Z -> Z -> Prop) cl er pe k id :
  InvA ix ca no (fun k0 id0 => PStoreB k id = PStoreB k0 id0 \/ fl k0 id0) cl er pe ->
  (forall id0, ~ fl k id0) -> ~ cl ->
  InvA ix (set k id ca) no fl cl er pe.
Proof.
  intros [J1 J2 J3 J4 J5 J6 G1 G2] HF Hcl.
  destruct (J3 k id (or_introl eq_refl)) as [Hix [Hcu Hnu]]. constructor.
  - intros k0 id0 Hg. destruct (Z.eq_dec k0 k) as [->|Hne].
    + rewrite get_set_same in Hg. injection Hg as <-. left; exact Hix.
    + rewrite get_set_other in Hg by exact Hne.
      destruct (J1 _ _ Hg) as [Hi|[id' [[= Hk _]|Hf]]]; [left; exact Hi|destruct (Hne (eq_sym Hk))|right; exists id'; exact Hf].
  - intros k0 id0 Hg. destruct (Z.eq_dec k0 k) as [->|Hne].
    + rewrite Hix in Hg. injection Hg as <-. left. apply get_set_same.
    + rewrite get_set_other by exact Hne.
      destruct (J2 _ _ Hg) as [Hc|[Hn|[[[= Hk _]|Hf]|Hc]]]; [tauto|tauto|destruct (Hne (eq_sym Hk))|tauto|tauto].
  - intros k0 id0 Hf. destruct (J3 k0 id0 (or_intror Hf)) as [Hi [Hc Hu]].
    split; [exact Hi|split; [|exact Hu]]. rewrite get_set_other; [exact Hc|]. intros ->. exact (HF _ Hf).
  - intros k0 id0 Hg. destruct (Z.eq_dec k0 k) as [->|Hne].
    + rewrite get_set_same in Hg. injection Hg as <-. exact Hnu.
    + rewrite get_set_other in Hg by exact Hne. exact (J4 _ _ Hg).
  - intros Hc. destruct (Hcl Hc).
  - exact J6.
  - exact G1.
  - intros id0 Hin k0. destruct (G2 _ Hin k0) as [[Hc Hu] Hnf]. split; [split; [|exact Hu]|tauto].
    destruct (Z.eq_dec k0 k) as [->|Hne]; [|rewrite get_set_other by exact Hne; exact Hc].
    rewrite get_set_same. intros [= ->]. apply Hnf. left; reflexivity.
Qed.

Lemma invA_clear1 ix ca no fl cl er pe : InvA ix ca no fl cl er pe -> InvA ix [] no fl True er pe.
Proof.
  intros [J1 J2 J3 J4 J5 J6 G1 G2]. constructor.
  - intros k id [=].
  - tauto.
  - intros k id Hf. destruct (J3 _ _ Hf) as [Hi [_ Hu]]. split; [exact Hi|split; [discriminate|exact Hu]].
  - intros k id [=].
  - reflexivity.
  - exact J6.
  - exact G1.
  - intros id Hin k. destruct (G2 _ Hin k) as [[_ Hu] Hnf]. split; [split; [discriminate|exact Hu]|exact Hnf].
Qed.

(* Clear step 2; by H no store is in flight, but another Clear may be: hence any cl in the conclusion *)
Lemma invA_clear2 ix ca no (fl : Z -> Z -> Prop) (cl : Prop) er pe :
  InvA ix ca no fl True er pe -> (forall k id, ~ fl k id) -> InvA [] ca no fl cl er pe.
Proof.
  intros [J1 J2 J3 J4 J5 J6 G1 G2] HF. pose proof (J5 Logic.I) as Hca. constructor.
  - intros k id Hg. rewrite Hca in Hg. discriminate.
  - intros k id [=].
  - intros k id Hf. destruct (HF _ _ Hf).
  - exact J4.
  - intros _. exact Hca.
  - exact J6.
  - exact G1.
  - exact G2.
Qed.

Lemma invA_deliver ix ca no fl cl er pe k id :
  InvA ix ca ((k, id) :: no) fl cl er pe -> InvA (rem_id k id ix) ca no fl cl er pe.
Proof.
  intros [J1 J2 J3 J4 J5 J6 G1 G2]. constructor.
  - intros k0 id0 Hg. destruct (J1 _ _ Hg) as [Hi|Hf]; [|right; exact Hf].
    left. apply get_rem_id_iff. split; [exact Hi|]. intros Heq. apply (J4 _ _ Hg). left. symmetry; exact Heq.
  - intros k0 id0 Hg. apply get_rem_id_iff in Hg. destruct Hg as [Hg Hne].
    destruct (J2 _ _ Hg) as [Hc|[[Heq|Hin]|Hr]]; [tauto|destruct (Hne (eq_sym Heq))|tauto|tauto].
  - intros k0 id0 Hf. destruct (J3 _ _ Hf) as [Hi [Hc Hu]]. split; [|split; [exact Hc|]].
    + apply get_rem_id_iff. split; [exact Hi|]. intros Heq. apply Hu. left. symmetry; exact Heq.
    + intros Hin. apply Hu. right; exact Hin.
  - intros k0 id0 Hg Hin. apply (J4 _ _ Hg). right; exact Hin.
  - exact J5.
  - exact J6.
  - exact G1.
  - intros id0 Hin k0. destruct (G2 _ Hin k0) as [[Hc Hu] Hnf]. split; [|exact Hnf].
    split; [exact Hc|]. intros Hin2. apply Hu. right; exact Hin2.
Qed.

Lemma do_remove_threads s v : threads (do_remove v s) = threads s.
Proof. unfold do_remove. destruct (get v (cache s)); reflexivity. Qed.
Lemma do_remove_closed s v : closed (do_remove v s) = closed s.
Proof. unfold do_remove. destruct (get v (cache s)); reflexivity. Qed.
Lemma do_remove_idx s v : idx (do_remove v s) = idx s.
Proof. unfold do_remove. destruct (get v (cache s)); reflexivity. Qed.

Lemma do_displace_threads k vs s : threads (do_displace k vs s) = threads s.
Proof.
  revert s; induction vs as [|v r IH]; intros s; cbn; [reflexivity|].
  destruct (v =? k); rewrite IH; [reflexivity|apply do_remove_threads].
Qed.
Lemma do_displace_closed k vs s : closed (do_displace k vs s) = closed s.
Proof.
  revert s; induction vs as [|v r IH]; intros s; cbn; [reflexivity|].
  destruct (v =? k); rewrite IH; [reflexivity|apply do_remove_closed].
Qed.
Lemma do_displace_idx k vs s : idx (do_displace k vs s) = idx s.
Proof.
  revert s; induction vs as [|v r IH]; intros s; cbn; [reflexivity|].
  destruct (v =? k); rewrite IH; [reflexivity|apply do_remove_idx].
Qed.

Lemma do_remove_notes v s : exists x, notes (do_remove v s) = notes s ++ x.
Proof. unfold do_remove. destruct (get v (cache s)); [eexists; reflexivity|exists []; apply app_nil_end]. Qed.

Lemma do_displace_notes k vs s : exists x, notes (do_displace k vs s) = notes s ++ x.
Proof.
  revert s; induction vs as [|v r IH]; intros s; cbn; [exists []; apply app_nil_end|].
  destruct (v =? k); [apply IH|].
  destruct (IH (do_remove v s)) as [x Hx], (do_remove_notes v s) as [y Hy].
  exists (y ++ x). rewrite Hx, Hy. symmetry. apply app_assoc.
Qed.

Lemma tstep_frame s t o s1 t1 :
  tstep s t o = Some (s1, t1) ->
  (length (t_script t1) <= length (t_script t))%nat /\ threads s1 = threads s /\
  (closed s = true -> closed s1 = true) /\ exists x, notes s1 = notes s ++ x.
Proof.
  unfold tstep. intros Et.
  assert (Hnil : exists x, notes s = notes s ++ x) by (exists []; apply app_nil_end).
  destruct (t_pc t) as [| k id | k id | [|v r] | ].
  - (* PIdle: only Delete touches the queue, only Close the flag *)
    destruct (t_script t) as [|[k id|v|ks| |] r]; [discriminate|injection Et as <- <-; cbn..];
      rewrite ?do_remove_threads, ?do_remove_closed; (split; [lia|]); (split; [reflexivity|]);
      (split; [congruence|]); [exact Hnil|apply do_remove_notes|exact Hnil..].
  - (* step B: an error on a closed cache; otherwise displacements then the Set, or a rejection with its notification *)
    destruct (closed s) eqn:Ec; [|destruct o as [vs|]]; injection Et as <- <-; cbn;
      rewrite ?do_displace_threads, ?do_displace_closed; (split; [lia|]); (split; [reflexivity|]);
      (split; [congruence|]); [exact Hnil|apply do_displace_notes|eexists; reflexivity].
  - injection Et as <- <-; cbn. auto.
  - injection Et as <- <-; cbn. auto.
  - injection Et as <- <-; cbn. rewrite do_remove_threads, do_remove_closed.
    split; [lia|]. split; [reflexivity|]. split; [congruence|apply do_remove_notes].
  - injection Et as <- <-; cbn. auto.
Qed.

Lemma step_frame s l s' :
  step s l = Some s' ->
  (closed s = true -> closed s' = true) /\
  (l <> LDeliver -> exists x, notes s' = notes s ++ x) /\
  forall i ti, nth_error (threads s) i = Some ti ->
    exists ti', nth_error (threads s') i = Some ti' /\ (length (t_script ti') <= length (t_script ti))%nat.
Proof.
  intros Hs. destruct l as [j o|v|]; cbn in Hs.
  - destruct (nth_error (threads s) j) as [t|] eqn:Hj; [|discriminate].
    destruct (tstep s t o) as [[s1 t1]|] eqn:Et; [|discriminate]. injection Hs as <-.
    destruct (tstep_frame _ _ _ _ _ Et) as (Hlen & _ & Hc & Hno).
    split; [exact Hc|]. split; [intros _; exact Hno|]. intros i ti Hn. cbn.
    destruct (Nat.eq_dec i j) as [->|Hne].
    + rewrite Hj in Hn. injection Hn as <-. exists t1. split; [exact (nth_error_upd_same _ _ _ _ Hj)|exact Hlen].
    + exists ti. rewrite nth_error_upd_other by exact Hne. auto.
  - destruct (resident v s); [|discriminate]. injection Hs as <-. rewrite do_remove_closed, do_remove_threads.
    split; [auto|]. split; [intros _; apply do_remove_notes|eauto].
  - unfold do_deliver in Hs. destruct (notes s) as [|[k id] r]; [discriminate|]. injection Hs as <-. cbn.
    split; [auto|]. split; [intros Hx; destruct (Hx eq_refl)|eauto].
Qed.

Lemma step_open s l s' : step s l = Some s' -> closed s' = false -> closed s = false.
Proof.
  intros Hs Hc. destruct (closed s) eqn:E; [|reflexivity]. rewrite (proj1 (step_frame _ _ _ Hs) E) in Hc. discriminate.
Qed.

Lemma invA_do_remove s v fl cl er pe :
  InvA (idx s) (cache s) (notes s) fl cl er pe ->
  InvA (idx (do_remove v s)) (cache (do_remove v s)) (notes (do_remove v s)) fl cl er pe.
Proof.
  intros HI. unfold do_remove. destruct (get v (cache s)) as [idv|] eqn:E; [|exact HI].
  exact (invA_remove _ _ _ _ _ _ _ _ _ E HI).
Qed.

Lemma invA_do_displace k vs fl cl er pe : forall s,
  InvA (idx s) (cache s) (notes s) fl cl er pe ->
  InvA (idx (do_displace k vs s)) (cache (do_displace k vs s)) (notes (do_displace k vs s)) fl cl er pe.
Proof.
  induction vs as [|v r IH]; intros s HI; cbn; [exact HI|].
  destruct (v =? k); apply IH; [exact HI|apply invA_do_remove; exact HI].
Qed.

(* The summaries of a thread list, split into the contribution of thread i (at pc p) and that of the others (fl, cl,
   er).  By computation: for a concrete p these are the summaries the step lemmas above are stated with. *)
Definition sum_fl (p : pc) (fl : Z -> Z -> Prop) : Z -> Z -> Prop :=
  match p with PStoreB k id => fun k0 id0 => PStoreB k id = PStoreB k0 id0 \/ fl k0 id0 | _ => fl end.
Definition sum_cl (p : pc) (cl : Prop) : Prop := match p with PClear2 => True | _ => cl end.
Definition sum_er (p : pc) (er : Prop) : Prop := match p with PStoreB' _ _ => True | _ => er end.

(* o P: "one of the other threads is at a pc satisfying P" *)
Definition InvP ix ca no (p : pc) (o : (pc -> Prop) -> Prop) pe : Prop :=
  InvA ix ca no (sum_fl p (fun k id => o (fun q => q = PStoreB k id))) (sum_cl p (o (fun q => q = PClear2)))
       (sum_er p (o (fun q => exists k id, q = PStoreB' k id))) pe.

Lemma or_false (A B : Prop) : ~ A -> (A \/ B <-> B).
Proof. tauto. Qed.
Lemma or_true (A B : Prop) : A -> (A \/ B <-> True).
Proof. tauto. Qed.

Lemma sum_of_split L p (o : (pc -> Prop) -> Prop) :
  (forall P : pc -> Prop, anyT P L <-> P p \/ o P) ->
  (forall k id, inflightT k id L <-> sum_fl p (fun k id => o (fun q => q = PStoreB k id)) k id) /\
  (clearingT L <-> sum_cl p (o (fun q => q = PClear2))) /\
  (erringT L <-> sum_er p (o (fun q => exists k id, q = PStoreB' k id))).
Proof.
  intros Hs. unfold inflightT, clearingT, erringT. split; [intros k id|split]; rewrite Hs.
  -
    destruct p; cbn; try (apply or_false; discriminate). reflexivity.
  -
    destruct p; cbn; try (apply or_false; discriminate). apply or_true; reflexivity.
  -
    destruct p; cbn; try (apply or_false; intros (k0 & id0 & [=])). apply or_true; eauto.
Qed.

(* Thread i moves from t to t1 while the shared state changes: it is enough to show that the invariant is kept
   whatever the summaries of the other threads are, given that by H none of them is at a pc conflicting with t's
   before the step or with t1's after it. *)
Lemma inv_move ix ca no ix' ca' no' ths i t t1 :
  nth_error ths i = Some t -> HT ths -> HT (upd i t1 ths) ->
  (forall (o : (pc -> Prop) -> Prop) a b,
     (forall P : pc -> Prop, (forall q, P q -> conflict (t_pc t) q = true \/ conflict q (t_pc t) = true) -> ~ o P) ->
     (forall P : pc -> Prop, (forall q, P q -> conflict (t_pc t1) q = true \/ conflict q (t_pc t1) = true) -> ~ o P) ->
     InvP ix ca no (t_pc t) o (a ++ script_ids (t_script t) ++ b) ->
     InvP ix' ca' no' (t_pc t1) o (a ++ script_ids (t_script t1) ++ b)) ->
  InvC ix ca no ths -> InvC ix' ca' no' (upd i t1 ths).
Proof.
  intros Hn HH HH' Hstep HI. pose proof (nth_error_upd_same _ _ t1 _ Hn) as Hn'.
  destruct (pending_upd _ _ _ Hn) as (a & b & E1 & E2).
  destruct (sum_of_split _ _ _ (fun P => anyT_split P _ _ _ Hn)) as (F0 & C0 & R0).
  destruct (sum_of_split _ _ _ (fun P => anyT_upd P _ _ _ t1 Hn)) as (F1 & C1 & R1).
  unfold InvC in *. rewrite E2. rewrite E1 in HI.
  apply (invA_ext _ _ _ _ _ _ _ _ _ _ F1 C1 R1). apply (Hstep (fun P => others P i ths) a b).
  - intros P. exact (HT_others _ _ _ P HH Hn).
  - intros P HP (j & tj & Hne & Hj & Hp). apply (HT_others _ _ _ P HH' Hn' HP).
    exists j, tj. rewrite nth_error_upd_other by exact Hne. auto.
  - apply invA_ext with (4 := HI); [intros k id; symmetry; apply F0|symmetry; exact C0|symmetry; exact R0].
Qed.

Lemma inv_step s l s' :
  Inv s -> H s -> H s' -> closed s' = false -> step s l = Some s' -> Inv s'.
Proof.
  intros HI HH HH' Hcl' Hs.
  pose proof (step_open _ _ _ Hs Hcl') as Hcl.
  destruct l as [i o|k|]; cbn in Hs.
  - destruct (nth_error (threads s) i) as [t|] eqn:Hn; [|discriminate].
    destruct (tstep s t o) as [[s1 t1]|] eqn:Et; [|discriminate]. injection Hs as <-.
    apply (inv_move (idx s) (cache s) (notes s) _ _ _ _ i t t1 Hn HH HH'); [|exact HI].
    intros oth a b Hbefore Hafter HP. unfold tstep in Et. rewrite Hcl in Et.
    destruct (t_pc t) as [| k id | k id | [|k r] | ] eqn:Hpc.
    + destruct (t_script t) as [|[k id|k|ks| |] r] eqn:Hsc; [discriminate|injection Et as <- <-..].
      * apply invA_storeA; [exact HP|]. intros id0. apply Hafter. intros q ->. left. cbn. apply Z.eqb_refl.
      * exact (invA_do_remove _ _ _ _ _ _ HP).
      * exact HP.
      * exact (invA_clear1 _ _ _ _ _ _ _ HP).
      * discriminate Hcl'.
    + (* B: by H no other thread is inside a store of k or between the steps of a Clear *)
      assert (HF : forall id0, ~ oth (fun q => q = PStoreB k id0))
        by (intros id0; apply Hbefore; intros q ->; left; cbn; apply Z.eqb_refl).
      assert (HC : ~ oth (fun q => q = PClear2)) by (apply Hbefore; intros q ->; left; reflexivity).
      destruct o as [vs|]; injection Et as <- <-.
      * exact (invA_set _ _ _ _ _ _ _ _ _ (invA_do_displace k vs _ _ _ _ s HP) HF HC).
      * (* rejected: the Set replaces the old identity silently, then drops the new one with a notification *)
        unfold do_set_reject. cbn [idx cache notes]. rewrite <- (rem_set_same k id (cache s)).
        apply invA_remove; [apply get_set_same|]. exact (invA_set _ _ _ _ _ _ _ _ _ HP HF HC).
    + (* B': impossible while open *) exact (False_ind _ (not_erring HP Logic.I)).
    + injection Et as <- <-. exact HP.
    + injection Et as <- <-. exact (invA_do_remove _ _ _ _ _ _ HP).
    + injection Et as <- <-. apply (invA_clear2 (idx s)); [exact HP|].
      intros k id. apply Hbefore. intros q ->. right. reflexivity.
  - destruct (resident k s); [|discriminate]. injection Hs as <-. unfold Inv. rewrite do_remove_threads.
    exact (invA_do_remove _ _ _ _ _ _ HI).
  - unfold do_deliver in Hs. destruct (notes s) as [|[k id] r] eqn:En; [discriminate|]. injection Hs as <-.
    unfold Inv, InvC in *. rewrite En in HI. exact (invA_deliver _ _ _ _ _ _ _ _ _ HI).
Qed.

Lemma anyT_init P scripts : anyT P (map (mkT PIdle) scripts) -> P PIdle.
Proof.
  intros (j & tj & Hj & HP). apply nth_error_In in Hj. apply in_map_iff in Hj.
  destruct Hj as (sc & Heq & _). subst tj. exact HP.
Qed.

Lemma pending_init scripts : pendingT (map (mkT PIdle) scripts) = flat_map script_ids scripts.
Proof. induction scripts as [|sc l IH]; cbn; [reflexivity|]. unfold pendingT in IH. rewrite IH. reflexivity. Qed.

Lemma inv_init scripts : wf_scripts scripts -> Inv (init scripts).
Proof.
  intros Hwf. unfold Inv, InvC, init; cbn. constructor.
  - intros k id [=].
  - intros k id [=].
  - intros k id Hf. apply anyT_init in Hf. discriminate.
  - intros k id [=].
  - reflexivity.
  - intros He. apply anyT_init in He. destruct He as (k & id & Hx). discriminate.
  - rewrite pending_init. exact Hwf.
  - intros id _ k. split.
    + split; [discriminate|intros []].
    + intros Hf. apply anyT_init in Hf. discriminate.
Qed.

Lemma H_init scripts : H (init scripts).
Proof.
  intros i j ti tj _ Hi _. cbn in Hi. apply nth_error_In in Hi. apply in_map_iff in Hi.
  destruct Hi as (sc & Heq & _). subst ti. reflexivity.
Qed.

Lemma reachableH_H s0 s : H s0 -> reachableH s0 s -> H s.
Proof. intros H0 Hr. destruct Hr; assumption. Qed.

Lemma reachableH_reachable s0 s : reachableH s0 s -> reachable s0 s.
Proof. intros Hr. induction Hr; [constructor|econstructor; eassumption]. Qed.

Theorem invariant_strong scripts s :
  wf_scripts scripts -> reachableH (init scripts) s -> closed s = false -> Inv s.
Proof.
  intros Hwf Hr. induction Hr as [|s l s' Hr IH Hs HH']; intros Hcl.
  - apply inv_init; exact Hwf.
  - apply (inv_step s l s' (IH (step_open _ _ _ Hs Hcl))); auto.
    apply (reachableH_H (init scripts)); [apply H_init|exact Hr].
Qed.

(* Per key: a cached identity is indexed unless a store of the key is between its two steps; an indexed identity is
   cached, or its removal is still queued, or its store is in flight, or a Clear is between its two steps (without this
   last disjunct the statement is false: invariant_as_written_refuted). *)
Theorem invariant scripts s :
  wf_scripts scripts -> reachableH (init scripts) s -> closed s = false ->
  forall k,
    (forall id, get k (cache s) = Some id -> get k (idx s) = Some id \/ inflight_key k s) /\
    (forall id, get k (idx s) = Some id ->
       get k (cache s) = Some id \/ In (k, id) (notes s) \/ inflight k id s \/ clearing s).
Proof.
  intros Hwf Hr Hcl k. pose proof (invariant_strong _ _ Hwf Hr Hcl) as HI.
  split; intros id Hg; [|exact (indexed_cached HI _ _ Hg)].
  destruct (cached_indexed HI _ _ Hg) as [Hi|Hf]; [left; exact Hi|right; apply inflight_keyT_ex; exact Hf].
Qed.

Theorem invariant_extras scripts s :
  wf_scripts scripts -> reachableH (init scripts) s -> closed s = false ->
  (forall k id, inflight k id s ->
     get k (idx s) = Some id /\ get k (cache s) <> Some id /\ ~ In (k, id) (notes s)) /\
  (forall k id, get k (cache s) = Some id -> ~ In (k, id) (notes s)) /\
  (clearing s -> cache s = []).
Proof.
  intros Hwf Hr Hcl. pose proof (invariant_strong _ _ Hwf Hr Hcl) as HI.
  exact (conj (inflight_unused HI) (conj (cached_not_noted HI) (clearing_empty HI))).
Qed.

Lemma all_idle_anyT P s : all_idle s = true -> anyT P (threads s) -> P PIdle.
Proof.
  unfold all_idle. intros Ha (j & tj & Hj & HP). apply nth_error_In in Hj.
  rewrite forallb_forall in Ha. specialize (Ha _ Hj).
  destruct (t_pc tj); try discriminate. exact HP.
Qed.

Theorem quiescent_agreement scripts s :
  wf_scripts scripts -> reachableH (init scripts) s -> closed s = false -> quiescent s ->
  forall k, get k (idx s) = get k (cache s).
Proof.
  intros Hwf Hr Hcl [Hidle Hno] k.
  pose proof (invariant_strong _ _ Hwf Hr Hcl) as HI.
  destruct (get k (cache s)) as [idc|] eqn:Ec.
  - destruct (cached_indexed HI _ _ Ec) as [Hi|[id' Hf]]; [exact Hi|].
    apply (all_idle_anyT _ _ Hidle) in Hf. discriminate.
  - destruct (get k (idx s)) as [idi|] eqn:Ei; [|reflexivity]. exfalso.
    destruct (indexed_cached HI _ _ Ei) as [Hc|[Hin|[Hf|Hc2]]].
    + rewrite Ec in Hc. discriminate.
    + rewrite Hno in Hin. exact Hin.
    + apply (all_idle_anyT _ _ Hidle) in Hf. discriminate.
    + apply (all_idle_anyT _ _ Hidle) in Hc2. discriminate.
Qed.

Corollary quiescent_same_keys scripts s :
  wf_scripts scripts -> reachableH (init scripts) s -> closed s = false -> quiescent s ->
  forall k, resident k s = match get k (idx s) with Some _ => true | None => false end.
Proof.
  intros Hwf Hr Hcl Hq k. unfold resident. rewrite (quiescent_agreement _ _ Hwf Hr Hcl Hq k). reflexivity.
Qed.

Lemma nth_error_in_seq {A} (l : list A) i x : nth_error l i = Some x -> In i (seq 0 (length l)).
Proof. intros Hn. apply in_seq. split; [lia|]. cbn. apply nth_error_Some. rewrite Hn. discriminate. Qed.

Lemma Hb_sound s : Hb s = true -> H s.
Proof.
  unfold Hb. intros Hb i j ti tj Hne Hi Hj.
  rewrite forallb_forall in Hb. specialize (Hb _ (nth_error_in_seq _ _ _ Hi)).
  rewrite forallb_forall in Hb. specialize (Hb _ (nth_error_in_seq _ _ _ Hj)).
  unfold pc_at in Hb. rewrite Hi, Hj in Hb.
  destruct (Nat.eqb_spec i j) as [He|_]; [contradiction|]. cbn in Hb.
  destruct (conflict (t_pc ti) (t_pc tj)); [discriminate|reflexivity].
Qed.

Lemma execH_reachableH s0 s ls s' :
  reachableH s0 s -> execH s ls = Some s' -> reachableH s0 s'.
Proof.
  revert s; induction ls as [|l r IH]; intros s Hr He; cbn in He.
  - inversion He; subst; exact Hr.
  - destruct (step s l) as [s1|] eqn:Es; [|discriminate].
    destruct (Hb s1) eqn:Eh; [|discriminate].
    apply (IH s1); [|exact He]. eapply RH_step; [exact Hr|exact Es|apply Hb_sound; exact Eh].
Qed.

Lemma exec_reachable s0 s ls s' :
  reachable s0 s -> exec s ls = Some s' -> reachable s0 s'.
Proof.
  revert s; induction ls as [|l r IH]; intros s Hr He; cbn in He.
  - inversion He; subst; exact Hr.
  - destruct (step s l) as [s1|] eqn:Es; [|discriminate].
    apply (IH s1); [|exact He]. eapply R_step; [exact Hr|exact Es].
Qed.

(* Without the Clear disjunct `invariant` is false: between a Clear's two steps the
   index still holds (k,id) while the cache is empty, nothing is pending and no store is in flight. *)
Definition acc := Accept [].

Example invariant_as_written_refuted :
  execH (init [[OStore 1 10]; [OClear]]) [LT 0%nat acc; LT 0%nat acc; LT 1%nat acc]
  = Some (mkS [(1, 10)] [] [] false [mkT PIdle []; mkT PClear2 []]).
Proof. vm_compute. reflexivity. Qed.

(* closed caches: Close clears the cache silently and nobody clears the index, so agreement needs `closed = false` *)
Example quiescent_agreement_closed_refuted :
  execH (init [[OStore 1 10; OClose]]) [LT 0%nat acc; LT 0%nat acc; LT 0%nat acc]
  = Some (mkS [(1, 10)] [] [] true [mkT PIdle []]).
Proof. vm_compute. reflexivity. Qed.

(* H is necessary (defect family F5 of the Go code).  `exec` (no H check) reaches quiescent states
   where the cache holds an entry the index does not know: Invalidate cannot find it. *)

(* two overlapping stores of the same key: A(k,r1); A(k,r2); B(k,r2); Evict k; Deliver; B(k,r1) *)
Example overlap_same_key_refuted :
  let s0 := init [[OStore 7 1]; [OStore 7 2]] in
  wf_scripts [[OStore 7 1]; [OStore 7 2]] /\
  exec s0 [LT 0%nat acc; LT 1%nat acc; LT 1%nat acc; LEvict 7; LDeliver; LT 0%nat acc]
  = Some (mkS [] [(7, 1)] [] false [mkT PIdle []; mkT PIdle []]) /\
  execH s0 [LT 0%nat acc; LT 1%nat acc] = None.
Proof.
  cbv zeta. split; [|split; vm_compute; reflexivity].
  unfold wf_scripts; cbn. constructor; [cbn; intros [Hx|[]]; discriminate|]. constructor; [intros []|constructor].
Qed.

(* the resulting state is quiescent, and an Invalidate matching k finds and removes nothing *)
Example overlap_same_key_invalidate_blind :
  let s := mkS [] [(7, 1)] [] false [mkT PIdle [OInvalidate [7]]] in
  exec s [LT 0%nat acc; LT 0%nat acc]
  = Some (mkS [] [(7, 1)] [] false [mkT PIdle []]).
Proof. vm_compute. reflexivity. Qed.

(* a store overlapping a Clear: A(k,r1); Clear step 1; Clear step 2; B(k,r1) *)
Example overlap_clear_refuted :
  let s0 := init [[OStore 7 1]; [OClear]] in
  exec s0 [LT 0%nat acc; LT 1%nat acc; LT 1%nat acc; LT 0%nat acc]
  = Some (mkS [] [(7, 1)] [] false [mkT PIdle []; mkT PIdle []]) /\
  execH s0 [LT 0%nat acc; LT 1%nat acc] = None.
Proof. cbv zeta. split; vm_compute; reflexivity. Qed.

(* the two overlapping stores again: the late notification (k,r2) is delivered AFTER B(k,r1); the index entry written by A(k,r2)
   is removed by it and the cache entry (k,r1) stays unindexed *)
Example overlap_same_key_late_note_refuted :
  let s0 := init [[OStore 7 1]; [OStore 7 2]] in
  exec s0 [LT 0%nat acc; LT 1%nat acc; LT 1%nat acc; LEvict 7; LT 0%nat acc; LDeliver]
  = Some (mkS [] [(7, 1)] [] false [mkT PIdle []; mkT PIdle []]).
Proof. vm_compute. reflexivity. Qed.

(* the same overlap with the two A steps in the other order: the index keeps r1, whose Set came first and was then
   replaced by r2's, so index and cache disagree on the identity; the replacement is silent (no notification), and
   the later removal of (k,r2) does not clean the index *)
Example overlap_same_key_identity_mismatch :
  let s0 := init [[OStore 7 1]; [OStore 7 2]] in
  exec s0 [LT 1%nat acc; LT 0%nat acc; LT 0%nat acc; LT 1%nat acc]
  = Some (mkS [(7, 1)] [(7, 2)] [] false [mkT PIdle []; mkT PIdle []]) /\
  exec s0 [LT 1%nat acc; LT 0%nat acc; LT 0%nat acc; LT 1%nat acc; LEvict 7; LDeliver]
  = Some (mkS [(7, 1)] [] [] false [mkT PIdle []; mkT PIdle []]).
Proof. cbv zeta. split; vm_compute; reflexivity. Qed.

Lemma rem_rem_comm k k2 m : rem k (rem k2 m) = rem k2 (rem k m).
Proof.
  unfold rem. induction m as [|[k' v] m IH]; cbn; [reflexivity|].
  destruct (k' =? k2) eqn:E2; destruct (k' =? k) eqn:E; cbn; rewrite ?E, ?E2; cbn; rewrite IH; reflexivity.
Qed.

Lemma rem_id_set_comm k id k2 id2 m :
  (k, id) <> (k2, id2) -> rem_id k id (set k2 id2 m) = set k2 id2 (rem_id k id m).
Proof.
  intros Hne. destruct (Z.eq_dec k k2) as [Hk|Hk].
  - subst k2. assert (Hid : id2 <> id) by (intros ->; apply Hne; reflexivity).
    rewrite (rem_id_miss k id (set k id2 m)).
    + unfold set. f_equal. unfold rem_id. destruct (get k m) as [v|]; [|reflexivity].
      destruct (v =? id); [|reflexivity]. symmetry; apply rem_rem_same.
    + rewrite get_set_same. intros Heq. injection Heq as Heq. contradiction.
  - unfold rem_id at 1. rewrite get_set_other by exact Hk. unfold rem_id.
    destruct (get k m) as [v|]; [|reflexivity]. destruct (v =? id); [|reflexivity].
    unfold set, rem at 1. cbn. destruct (Z.eqb_spec k2 k) as [->|_]; [destruct (Hk eq_refl)|].
    cbn. f_equal. apply rem_rem_comm.
Qed.

Lemma addkey_same_not_commute :
  rem_id 1 5 (set 1 5 []) <> set 1 5 (rem_id 1 5 []).
Proof. vm_compute. discriminate. Qed.

Lemma rem_id_comm k id k2 id2 m :
  rem_id k id (rem_id k2 id2 m) = rem_id k2 id2 (rem_id k id m).
Proof.
  destruct (Z.eq_dec k k2) as [Hk|Hk].
  - subst k2. destruct (option_eq_dec_Z (get k m) (Some id)) as [H1|H1];
      destruct (option_eq_dec_Z (get k m) (Some id2)) as [H2|H2].
    + rewrite H1 in H2. injection H2 as H2. subst id2. reflexivity.
    + rewrite (rem_id_miss k id2 m H2). rewrite (rem_id_hit k id m H1).
      rewrite rem_id_miss; [reflexivity|]. rewrite get_rem_same. discriminate.
    + rewrite (rem_id_miss k id m H1). rewrite (rem_id_hit k id2 m H2).
      rewrite rem_id_miss; [reflexivity|]. rewrite get_rem_same. discriminate.
    + rewrite (rem_id_miss k id2 m H2), (rem_id_miss k id m H1), (rem_id_miss k id2 m H2). reflexivity.
  - destruct (option_eq_dec_Z (get k m) (Some id)) as [H1|H1];
      destruct (option_eq_dec_Z (get k2 m) (Some id2)) as [H2|H2].
    + rewrite (rem_id_hit k2 id2 m H2), (rem_id_hit k id m H1).
      rewrite rem_id_hit by (rewrite get_rem_other by exact Hk; exact H1).
      rewrite rem_id_hit by (rewrite get_rem_other by (intros Heq; apply Hk; symmetry; exact Heq); exact H2).
      apply rem_rem_comm.
    + rewrite (rem_id_miss k2 id2 m H2), (rem_id_hit k id m H1).
      rewrite rem_id_miss; [reflexivity|].
      rewrite get_rem_other by (intros Heq; apply Hk; symmetry; exact Heq). exact H2.
    + rewrite (rem_id_hit k2 id2 m H2), (rem_id_miss k id m H1).
      rewrite rem_id_miss; [rewrite rem_id_hit by exact H2; reflexivity|].
      rewrite get_rem_other by exact Hk. exact H1.
    + rewrite (rem_id_miss k2 id2 m H2), (rem_id_miss k id m H1), (rem_id_miss k2 id2 m H2). reflexivity.
Qed.

Definition dl (k id : Z) (s : state) : state :=
  mkS (rem_id k id (idx s)) (cache s) (tl (notes s)) (closed s) (threads s).
Definition headed (s : state) (k id : Z) : Prop := exists r, notes s = (k, id) :: r.

Lemma do_deliver_dl s k id : headed s k id -> do_deliver s = Some (dl k id s).
Proof. intros [r Hr]. unfold do_deliver, dl. rewrite Hr. reflexivity. Qed.

Lemma tl_app_headed {A} (x : A) r l y : l = x :: r -> tl (l ++ y) = tl l ++ y.
Proof. intros ->. reflexivity. Qed.

Lemma headed_app s s1 k id x : headed s k id -> notes s1 = notes s ++ x -> headed s1 k id.
Proof. intros [r Hr] Hx. exists (r ++ x). rewrite Hx, Hr. reflexivity. Qed.

Lemma dl_remove k id v s : headed s k id -> dl k id (do_remove v s) = do_remove v (dl k id s).
Proof.
  intros [r Hr]. unfold do_remove, dl; cbn. destruct (get v (cache s)); cbn; rewrite ?Hr; reflexivity.
Qed.

Lemma dl_displace k id k2 vs s : headed s k id ->
  dl k id (do_displace k2 vs s) = do_displace k2 vs (dl k id s).
Proof.
  revert s; induction vs as [|v r IH]; intros s Hh; cbn; [reflexivity|].
  destruct (v =? k2); [apply IH; exact Hh|]. rewrite <- (dl_remove k id v s Hh). apply IH.
  destruct (do_remove_notes v s) as [x Hx]. exact (headed_app _ _ _ _ _ Hh Hx).
Qed.

(* the steps that do NOT commute with the delivery of (k,id): the index-reading snapshot of an Invalidate, and
   step A of a store of the very same (key, identity) (impossible when identities are fresh, see below) *)
Definition sensitive (t : thread) (k id : Z) : bool :=
  match t_pc t, t_script t with
  | PIdle, OInvalidate _ :: _ => true
  | PIdle, OStore k2 id2 :: _ => (k2 =? k) && (id2 =? id)
  | _, _ => false
  end.

Definition indep (s : state) (l : label) (k id : Z) : bool :=
  match l with
  | LT i _ => match nth_error (threads s) i with Some t => negb (sensitive t k id) | None => true end
  | LEvict _ => true
  | LDeliver => false
  end.

Lemma tstep_dl s t o k id : headed s k id -> sensitive t k id = false ->
  tstep (dl k id s) t o =
  match tstep s t o with Some (s1, t1) => Some (dl k id s1, t1) | None => None end.
Proof.
  intros Hh Hsens. unfold tstep, sensitive in *.
  change (closed (dl k id s)) with (closed s).
  destruct (t_pc t) as [| k2 id2 | k2 id2 | [|v r] | ].
  - destruct (t_script t) as [|[k2 id2|v|ks| |] r]; try reflexivity; try discriminate.
    +
      unfold do_addkey, dl; cbn. rewrite rem_id_set_comm; [reflexivity|].
      intros [= -> ->]. rewrite !Z.eqb_refl in Hsens. discriminate.
    + rewrite (dl_remove k id v s Hh). reflexivity.
  - destruct (closed s); [reflexivity|]. destruct o as [vs|].
    + unfold do_set_accept. rewrite <- (dl_displace k id k2 vs s Hh). reflexivity.
    + destruct Hh as [r Hr]. unfold do_set_reject, dl; cbn [idx cache notes closed threads]. rewrite Hr. reflexivity.
  - unfold do_remid, dl; cbn. rewrite rem_id_comm. reflexivity.
  - reflexivity.
  - rewrite (dl_remove k id v s Hh). reflexivity.
  - reflexivity.
Qed.

Lemma step_headed s l s1 k id : l <> LDeliver -> headed s k id -> step s l = Some s1 -> headed s1 k id.
Proof.
  intros Hl Hh Hs. destruct (proj1 (proj2 (step_frame _ _ _ Hs)) Hl) as [x Hx]. exact (headed_app _ _ _ _ _ Hh Hx).
Qed.

Lemma step_dl s l k id :
  headed s k id -> indep s l k id = true ->
  step (dl k id s) l = option_map (dl k id) (step s l).
Proof.
  intros Hh Hi. destruct l as [i o|v|]; [| |discriminate]; cbn [step indep] in *.
  - change (threads (dl k id s)) with (threads s).
    destruct (nth_error (threads s) i) as [t|] eqn:En; [|reflexivity].
    assert (Hsens : sensitive t k id = false) by (destruct (sensitive t k id); [discriminate Hi|reflexivity]).
    rewrite (tstep_dl s t o k id Hh Hsens).
    destruct (tstep s t o) as [[s1 t1]|] eqn:Et; reflexivity.
  - change (resident v (dl k id s)) with (resident v s). destruct (resident v s); [|reflexivity].
    cbn. rewrite (dl_remove k id v s Hh). reflexivity.
Qed.

Lemma indep_not_deliver s l k id : indep s l k id = true -> l <> LDeliver.
Proof. intros Hi ->. discriminate. Qed.

Example deliver_snapshot_not_commute :
  let s := mkS [(1, 10)] [] [(1, 10)] false [mkT PIdle [OInvalidate [1]]] in
  exec s [LDeliver; LT 0%nat acc] = Some (mkS [] [] [] false [mkT (PInv []) []]) /\
  exec s [LT 0%nat acc; LDeliver] = Some (mkS [] [] [] false [mkT (PInv [1]) []]).
Proof. cbv zeta. split; vm_compute; reflexivity. Qed.

Fixpoint indep_run (s : state) (ls : list label) (k id : Z) : Prop :=
  match ls with
  | [] => True
  | l :: r => indep s l k id = true /\
              match step s l with Some s1 => indep_run s1 r k id | None => True end
  end.

Lemma exec_dl ls : forall s k id,
  headed s k id -> indep_run s ls k id ->
  exec (dl k id s) ls = option_map (dl k id) (exec s ls) /\
  (forall s1, exec s ls = Some s1 -> headed s1 k id).
Proof.
  induction ls as [|l r IH]; intros s k id Hh Hrun; cbn [exec].
  - split; [reflexivity|]. intros s1 He. inversion He; subst; exact Hh.
  - destruct Hrun as [Hi Hrest]. rewrite (step_dl s l k id Hh Hi).
    destruct (step s l) as [s1|] eqn:Es; cbn [option_map].
    + apply IH; [|exact Hrest].
      apply (step_headed s l s1 k id (indep_not_deliver _ _ _ _ Hi) Hh Es).
    + split; [reflexivity|]. intros s1 He; discriminate.
Qed.

Lemma exec_app a : forall s b,
  exec s (a ++ b) = match exec s a with Some s1 => exec s1 b | None => None end.
Proof.
  induction a as [|l r IH]; intros s b; cbn; [reflexivity|].
  destruct (step s l) as [s1|]; [apply IH|reflexivity].
Qed.

Theorem deliver_timing_irrelevant ls s k id :
  headed s k id -> indep_run s ls k id ->
  exec s (LDeliver :: ls) = exec s (ls ++ [LDeliver]).
Proof.
  intros Hh Hrun. destruct (exec_dl ls s k id Hh Hrun) as [E Hhd].
  cbn [exec]. change (step s LDeliver) with (do_deliver s). rewrite (do_deliver_dl s k id Hh), E.
  rewrite exec_app. destruct (exec s ls) as [s1|]; [|reflexivity]. cbn.
  rewrite (do_deliver_dl s1 k id (Hhd s1 eq_refl)). reflexivity.
Qed.

Theorem deliver_commutes s l k id :
  headed s k id -> indep s l k id = true ->
  exec s [LDeliver; l] = exec s [l; LDeliver].
Proof.
  intros Hh Hi. apply (deliver_timing_irrelevant [l] s k id Hh). cbn. split; [exact Hi|destruct (step s l); exact I].
Qed.

(* with fresh identities the store clause of `sensitive` never fires: a store whose (key, identity) is announced
   in the queue cannot still be waiting in a script; so in H-reachable open states the ONLY step that does not
   commute with a delivery is the index-reading snapshot of Invalidate *)
Theorem pending_store_not_notified scripts s i t k id r :
  wf_scripts scripts -> reachableH (init scripts) s -> closed s = false ->
  nth_error (threads s) i = Some t -> t_script t = OStore k id :: r ->
  ~ In (k, id) (notes s).
Proof.
  intros Hwf Hr Hcl Hn Hsc. pose proof (pending_unused (invariant_strong _ _ Hwf Hr Hcl)) as G2.
  destruct (pending_upd _ _ _ Hn) as (a & b & E1 & _). rewrite Hsc in E1. cbn in E1.
  assert (Hin : In id (pendingT (threads s))) by (rewrite E1; apply in_or_app; right; left; reflexivity).
  destruct (G2 _ Hin k) as [[_ Hu] _]. exact Hu.
Qed.

Definition is_deliver (l : label) : bool := match l with LDeliver => true | _ => false end.
Definition strip (ls : list label) : list label := filter (fun l => negb (is_deliver l)) ls.

Definition noted (k id : Z) (no : list (Z * Z)) : bool :=
  existsb (fun p => (fst p =? k) && (snd p =? id)) no.

Lemma noted_In k id no : In (k, id) no -> noted k id no = true.
Proof.
  intros Hin. unfold noted. apply existsb_exists. exists (k, id). split; [exact Hin|].
  cbn. rewrite !Z.eqb_refl. reflexivity.
Qed.

(* a step that neither reads the index (Invalidate's snapshot) nor re-adds an identity that is announced as removed *)
Definition quiet (s : state) (l : label) : bool :=
  match l with
  | LT i _ =>
      match nth_error (threads s) i with
      | Some t =>
          match t_pc t, t_script t with
          | PIdle, OInvalidate _ :: _ => false
          | PIdle, OStore k id :: _ => negb (noted k id (notes s))
          | _, _ => true
          end
      | None => true
      end
  | LEvict _ => true
  | LDeliver => false
  end.

Fixpoint quiet_run (s : state) (ls : list label) : Prop :=
  match ls with
  | [] => True
  | l :: r => quiet s l = true /\ match step s l with Some s1 => quiet_run s1 r | None => True end
  end.

Lemma quiet_indep s l k id : quiet s l = true -> In (k, id) (notes s) -> indep s l k id = true.
Proof.
  intros Hq Hin. destruct l as [i o|v|]; cbn in *; [|reflexivity|discriminate].
  destruct (nth_error (threads s) i) as [t|]; [|reflexivity]. unfold sensitive.
  destruct (t_pc t); try reflexivity.
  destruct (t_script t) as [|[k2 id2|v|ks'| |] r]; try reflexivity; try discriminate.
  destruct (Z.eqb_spec k2 k) as [->|Hk]; [|reflexivity].
  destruct (Z.eqb_spec id2 id) as [->|Hid]; [|reflexivity].
  rewrite (noted_In _ _ _ Hin) in Hq. discriminate.
Qed.

Lemma headed_In s k id : headed s k id -> In (k, id) (notes s).
Proof. intros [r ->]. left; reflexivity. Qed.

Lemma noted_tl k id no : noted k id (tl no) = true -> noted k id no = true.
Proof. destruct no as [|p no]; cbn; [auto|]. intros ->. apply orb_true_r. Qed.

Lemma quiet_dl s l k id : quiet s l = true -> quiet (dl k id s) l = true.
Proof.
  destruct l as [i o|v|]; unfold quiet; auto.
  change (threads (dl k id s)) with (threads s). change (notes (dl k id s)) with (tl (notes s)).
  destruct (nth_error (threads s) i) as [t|]; [|auto].
  destruct (t_pc t); auto. destruct (t_script t) as [|[k2 id2|v|ks'| |] r]; auto.
  intros Hq. destruct (noted k2 id2 (tl (notes s))) eqn:E; [|reflexivity].
  rewrite (noted_tl _ _ _ E) in Hq. discriminate.
Qed.

Lemma quiet_run_dl ls : forall s k id, quiet_run s ls -> headed s k id ->
  indep_run s ls k id /\ quiet_run (dl k id s) ls.
Proof.
  induction ls as [|l r IH]; intros s k id Hq Hh; cbn in *; [split; exact I|].
  destruct Hq as [Hq Hrest].
  pose proof (quiet_indep s l k id Hq (headed_In _ _ _ Hh)) as Hi.
  rewrite (step_dl s l k id Hh Hi). destruct (step s l) as [s1|] eqn:Es; cbn [option_map].
  - destruct (IH s1 k id Hrest (step_headed s l s1 k id (indep_not_deliver _ _ _ _ Hi) Hh Es)) as [A B].
    split; split; auto using quiet_dl.
  - split; split; auto using quiet_dl.
Qed.

Lemma deliver_all_headed s k id : headed s k id -> deliver_all (dl k id s) = deliver_all s.
Proof.
  intros [r Hr]. unfold deliver_all. rewrite Hr. cbn [length deliver_n].
  unfold do_deliver. rewrite Hr. unfold dl. rewrite Hr. reflexivity.
Qed.

(* Take any run ls (deliveries interleaved at arbitrary times).  Remove all deliveries from it (notifications pile
   up in the queue) — provided that delayed run is quiet, it is enabled too, and draining the queue at the end
   reaches exactly the state obtained by draining after the original run. *)
Theorem drained_state_independent_of_delivery_times ls : forall s s1,
  exec s ls = Some s1 -> quiet_run s (strip ls) ->
  exists s2, exec s (strip ls) = Some s2 /\ deliver_all s2 = deliver_all s1.
Proof.
  induction ls as [|l r IH]; intros s s1 He Hq.
  - cbn in *. inversion He; subst. exists s1. split; reflexivity.
  - destruct (is_deliver l) eqn:Ed.
    2:{ assert (Hs : strip (l :: r) = l :: strip r) by (unfold strip; cbn; rewrite Ed; reflexivity).
        rewrite Hs in *. cbn [exec quiet_run] in *. destruct (step s l) as [s'|] eqn:Es; [|discriminate].
        exact (IH s' s1 He (proj2 Hq)). }
    destruct l; try discriminate.
    + cbn [strip filter is_deliver negb] in *. fold (strip r) in *. cbn [exec] in He.
      change (step s LDeliver) with (do_deliver s) in He.
      destruct (notes s) as [|[k id] n'] eqn:En; [unfold do_deliver in He; rewrite En in He; discriminate|].
      assert (Hh : headed s k id) by (exists n'; exact En).
      rewrite (do_deliver_dl s k id Hh) in He.
      destruct (quiet_run_dl _ s k id Hq Hh) as [Hind Hqd].
      destruct (IH (dl k id s) s1 He Hqd) as (s2' & E2 & D2).
      destruct (exec_dl (strip r) s k id Hh Hind) as [Edl Hhd].
      rewrite Edl in E2. destruct (exec s (strip r)) as [s2|] eqn:Ex; [|discriminate].
      cbn in E2. inversion E2; subst s2'. exists s2. split; [reflexivity|].
      rewrite <- D2. symmetry. apply deliver_all_headed. apply Hhd. reflexivity.
Qed.

Theorem deliver_all_spec s :
  notes (deliver_all s) = [] /\ cache (deliver_all s) = cache s /\
  closed (deliver_all s) = closed s /\ threads (deliver_all s) = threads s /\
  forall k v, get k (idx (deliver_all s)) = Some v <-> get k (idx s) = Some v /\ ~ In (k, v) (notes s).
Proof.
  unfold deliver_all. remember (length (notes s)) as n eqn:Hlen. revert s Hlen.
  induction n as [|n IH]; intros s Hlen; cbn [deliver_n].
  - destruct (notes s) eqn:En; [|discriminate]. repeat (split; [reflexivity|]). intros k v. tauto.
  - unfold do_deliver. destruct (notes s) as [|[k0 id0] r] eqn:En; [discriminate|].
    set (s' := mkS (rem_id k0 id0 (idx s)) (cache s) r (closed s) (threads s)).
    destruct (IH s' ltac:(cbn in *; lia)) as (A & B & C & D & F).
    split; [exact A|]. split; [exact B|]. split; [exact C|]. split; [exact D|].
    intros k v. rewrite F. cbn [idx notes s']. rewrite get_rem_id_iff.
    assert (Hs : (k0, id0) = (k, v) <-> (k, v) = (k0, id0)) by (split; intros Hx; symmetry; exact Hx).
    cbn [In]. tauto.
Qed.

Lemma deliver_n_reachableH s0 n : forall s, reachableH s0 s -> H s -> reachableH s0 (deliver_n n s).
Proof.
  induction n as [|n IH]; intros s Hr HH; cbn [deliver_n]; [exact Hr|].
  destruct (do_deliver s) as [s'|] eqn:Ed; [|exact Hr].
  assert (HH' : H s').
  { unfold do_deliver in Ed. destruct (notes s) as [|[k id] r]; [discriminate|]. injection Ed as <-. exact HH. }
  apply IH; [exact (RH_step _ s LDeliver s' Hr Ed HH')|exact HH'].
Qed.

Lemma H_neutral s :
  (forall j tj, nth_error (threads s) j = Some tj -> store_key (t_pc tj) = None) -> H s.
Proof. intros Hn i j ti tj _ Hi _. unfold conflict. rewrite (Hn i ti Hi). reflexivity. Qed.

Lemma all_idle_intro s :
  (forall j tj, nth_error (threads s) j = Some tj -> t_pc tj = PIdle) -> all_idle s = true.
Proof.
  intros Hall. unfold all_idle. apply forallb_forall. intros t Hin.
  apply In_nth_error in Hin. destruct Hin as [j Hj]. rewrite (Hall j t Hj). reflexivity.
Qed.

Lemma all_idle_elim s j tj : all_idle s = true -> nth_error (threads s) j = Some tj -> t_pc tj = PIdle.
Proof.
  unfold all_idle. intros Ha Hj. rewrite forallb_forall in Ha. apply nth_error_In in Hj.
  specialize (Ha _ Hj). destruct (t_pc tj); try discriminate. reflexivity.
Qed.

Lemma do_remove_cache_get k v s :
  get k (cache (do_remove v s)) = if k =? v then None else get k (cache s).
Proof.
  unfold do_remove. destruct (get v (cache s)) as [idv|] eqn:E; cbn.
  - destruct (Z.eqb_spec k v) as [->|Hne]; [apply get_rem_same|apply get_rem_other; exact Hne].
  - destruct (Z.eqb_spec k v) as [->|Hne]; [exact E|reflexivity].
Qed.

Lemma get_some_dom k v m : get k m = Some v -> In k (dom m).
Proof.
  induction m as [|[k' v'] m IH]; cbn; [discriminate|].
  destruct (Z.eqb_spec k' k) as [->|Hne]; [left; reflexivity|]. intros Hg. right. apply IH; exact Hg.
Qed.

Section InvalidateAlone.
  Variable scripts : list (list op).
  Variable i : nat.
  Variable ks : list Z.
  Variable rest : list op.
  Variable c0 : amap.                 (* the cache when the Invalidate starts *)
  Variable E : Z -> Prop.             (* keys that may be evicted during the run *)
  Hypothesis Hwf : wf_scripts scripts.

  Definition allowed (l : label) : Prop :=
    l = LDeliver \/ (exists k, l = LEvict k /\ E k) \/ (exists o, l = LT i o).

  (* every cached key that matches the pattern is among the keys still to be deleted *)
  Definition covered (snap : list Z) (ca : amap) : Prop :=
    forall k, memZ k ks = true -> get k ca <> None -> In k snap.

  (* the cache has only lost entries, and only of matching or evicted keys *)
  Definition within (ca : amap) : Prop :=
    (forall k id, get k ca = Some id -> get k c0 = Some id) /\
    (forall k id, get k c0 = Some id -> get k ca = Some id \/ memZ k ks = true \/ E k).

  (* where the invalidating thread is: before its snapshot, inside the delete loop, or back from it *)
  Definition phase (ti : thread) (ca : amap) : Prop :=
    ti = mkT PIdle (OInvalidate ks :: rest)
    \/ (exists snap, ti = mkT (PInv snap) rest /\ (forall v, In v snap -> memZ v ks = true) /\ covered snap ca)
    \/ (ti = mkT PIdle rest /\ covered [] ca).

  (* the thread has gone on to its next operations: scripts never grow (step_frame), so it cannot come back to
     `rest`, and nothing is claimed of such runs *)
  Definition beyond (s : state) : Prop :=
    exists ti, nth_error (threads s) i = Some ti /\ (length (t_script ti) < length rest)%nat.

  Definition Jmain (s : state) : Prop :=
    closed s = false /\
    (forall j tj, j <> i -> nth_error (threads s) j = Some tj -> t_pc tj = PIdle) /\
    within (cache s) /\
    exists ti, nth_error (threads s) i = Some ti /\ phase ti (cache s).

  Definition J (s : state) : Prop := beyond s \/ (reachableH (init scripts) s /\ Jmain s).

  Lemma within_remove s v : memZ v ks = true \/ E v -> within (cache s) -> within (cache (do_remove v s)).
  Proof.
    intros Hv [Hs Hk]. split; intros k id; rewrite do_remove_cache_get;
      destruct (Z.eqb_spec k v) as [->|Hne]; [discriminate|apply Hs|tauto|apply Hk].
  Qed.

  Lemma covered_remove snap snap' s v :
    covered snap (cache s) -> (forall k, In k snap -> k = v \/ In k snap') -> covered snap' (cache (do_remove v s)).
  Proof.
    intros Hc Hsub k Hk. rewrite do_remove_cache_get. destruct (Z.eqb_spec k v) as [->|Hne]; [intros Hx; destruct (Hx eq_refl)|].
    intros Hg. destruct (Hsub _ (Hc k Hk Hg)); [contradiction|assumption].
  Qed.

  Lemma phase_remove ti s v : phase ti (cache s) -> phase ti (cache (do_remove v s)).
  Proof.
    intros [Hx|[(snap & Hx & Hsn & Hc)|[Hx Hc]]]; [left; exact Hx|right; left; exists snap|right; right];
      (split; [exact Hx|]); [split; [exact Hsn|]|]; apply (covered_remove _ _ _ _ Hc); auto.
  Qed.

  Lemma Jmain_H s : Jmain s -> H s.
  Proof.
    intros (_ & Hoth & _ & ti & Hn & Hph). apply H_neutral. intros j tj Hj.
    destruct (Nat.eq_dec j i) as [->|Hne]; [|rewrite (Hoth j tj Hne Hj); reflexivity].
    rewrite Hn in Hj. injection Hj as <-.
    destruct Hph as [->|[(snap & -> & _)|[-> _]]]; reflexivity.
  Qed.

  Lemma Jmain_upd s s1 ti t1 :
    (forall j tj, j <> i -> nth_error (threads s) j = Some tj -> t_pc tj = PIdle) ->
    nth_error (threads s) i = Some ti ->
    closed s1 = false -> within (cache s1) -> phase t1 (cache s1) ->
    Jmain (set_threads s1 (upd i t1 (threads s))).
  Proof.
    intros Hoth Hn Hc Hw Hp. split; [exact Hc|]. split; [|split; [exact Hw|]].
    - intros j tj Hne Hj. cbn in Hj. rewrite nth_error_upd_other in Hj by exact Hne. exact (Hoth j tj Hne Hj).
    - exists t1. split; [exact (nth_error_upd_same _ _ _ _ Hn)|exact Hp].
  Qed.

  (* the first hypothesis is `cached_indexed`: it is what makes the snapshot complete *)
  Lemma Jmain_step s l s' :
    (forall k id, get k (cache s) = Some id -> get k (idx s) = Some id \/ exists id', inflightT k id' (threads s)) ->
    Jmain s -> allowed l -> step s l = Some s' -> beyond s' \/ Jmain s'.
  Proof.
    intros HI1 Hm Hal Hs. pose proof Hm as (Hcl & Hoth & Hw & ti & Hn & Hph).
    destruct Hal as [->|[(v & -> & Ev)|(o & ->)]]; cbn in Hs.
    - right. unfold do_deliver in Hs. destruct (notes s) as [|[k id] r]; [discriminate|]. injection Hs as <-. exact Hm.
    - right. destruct (resident v s); [|discriminate]. injection Hs as <-.
      split; [rewrite do_remove_closed; exact Hcl|]. rewrite do_remove_threads. split; [exact Hoth|].
      split; [apply within_remove; auto|]. exists ti. split; [exact Hn|apply phase_remove; exact Hph].
    - rewrite Hn in Hs. destruct (tstep s ti o) as [[s1 t1]|] eqn:Et; [|discriminate]. injection Hs as <-.
      destruct Hph as [->|[(snap & -> & Hsn & Hcov)|[-> Hcov]]].
      + right. cbn in Et. injection Et as <- <-. apply (Jmain_upd _ _ _ _ Hoth Hn Hcl Hw).
        right; left. exists (snapshot ks s). split; [reflexivity|]. unfold snapshot. split.
        * intros v Hv. apply filter_In in Hv. exact (proj2 Hv).
        * intros k Hk Hc. destruct (get k (cache s)) as [id|] eqn:Ec; [|destruct (Hc eq_refl)].
          destruct (HI1 _ _ Ec) as [Hi|[id' (j & tj & Hj & Hp)]].
          -- apply filter_In. split; [exact (get_some_dom _ _ _ Hi)|exact Hk].
          -- exfalso. destruct (Nat.eq_dec j i) as [->|Hne].
             ++ rewrite Hn in Hj. injection Hj as <-. discriminate.
             ++ rewrite (Hoth j tj Hne Hj) in Hp. discriminate.
      +
        right. destruct snap as [|v r]; cbn in Et; injection Et as <- <-.
        * apply (Jmain_upd _ _ _ _ Hoth Hn Hcl Hw). right; right. split; [reflexivity|exact Hcov].
        * apply (Jmain_upd _ _ _ _ Hoth Hn); [rewrite do_remove_closed; exact Hcl|apply within_remove; auto with datatypes|].
          right; left. exists r. split; [reflexivity|]. split; [auto with datatypes|].
          apply (covered_remove _ _ _ _ Hcov). intros k [<-|Hk]; auto.
      + (* finished: the next step of this thread starts another operation *)
        left. exists t1. split; [exact (nth_error_upd_same _ _ _ _ Hn)|].
        unfold tstep in Et. cbn in Et.
        destruct rest as [|[k id|v|ks'| |] r]; [discriminate|injection Et as <- <-; cbn; lia..].
  Qed.

  Lemma J_step s l s' : J s -> allowed l -> step s l = Some s' -> J s'.
  Proof.
    intros [(ti & Hn & Hlen)|[Hr Hm]] Hal Hs.
    - left. destruct (proj2 (proj2 (step_frame _ _ _ Hs)) _ _ Hn) as (ti' & Hn' & Hle). exists ti'. split; [exact Hn'|lia].
    - pose proof (cached_indexed (invariant_strong _ _ Hwf Hr (proj1 Hm))) as J1.
      destruct (Jmain_step _ _ _ J1 Hm Hal Hs) as [Hb|Hm']; [left; exact Hb|right].
      split; [exact (RH_step _ _ _ _ Hr Hs (Jmain_H _ Hm'))|exact Hm'].
  Qed.

  Lemma J_exec ls : forall s s1, J s -> (forall l, In l ls -> allowed l) -> exec s ls = Some s1 -> J s1.
  Proof.
    induction ls as [|l r IH]; intros s s1 HJ Hal He; cbn in He.
    - inversion He; subst; exact HJ.
    - destruct (step s l) as [s'|] eqn:Es; [|discriminate].
      apply (IH s' s1); [|intros l' Hl'; apply Hal; right; exact Hl'|exact He].
      apply (J_step s l s' HJ); [apply Hal; left; reflexivity|exact Es].
  Qed.
End InvalidateAlone.

Theorem invalidate_complete scripts s0 i ks rest ls s1 :
  wf_scripts scripts -> reachableH (init scripts) s0 -> closed s0 = false -> quiescent s0 ->
  nth_error (threads s0) i = Some (mkT PIdle (OInvalidate ks :: rest)) ->
  (forall l, In l ls -> l = LDeliver \/ (exists k, l = LEvict k) \/ (exists o, l = LT i o)) ->
  exec s0 ls = Some s1 ->
  nth_error (threads s1) i = Some (mkT PIdle rest) ->
  let sd := deliver_all s1 in
  (forall k, memZ k ks = true -> get k (cache s1) = None) /\
  (forall k id, memZ k ks = false -> get k (cache s0) = Some id -> ~ In (LEvict k) ls -> get k (cache s1) = Some id) /\
  (forall k id, get k (cache s1) = Some id -> get k (cache s0) = Some id) /\
  cache sd = cache s1 /\ quiescent sd /\ reachableH (init scripts) sd /\
  (forall k, get k (idx sd) = get k (cache sd)) /\
  (notes s1 = [] -> forall k, get k (idx s1) = get k (cache s1)).
Proof.
  intros Hwf Hr Hcl [Hidle Hno] Hn Hal He Hfin sd.
  set (E := fun k => In (LEvict k) ls).
  assert (HJ0 : J scripts i ks rest (cache s0) E s0).
  { right. split; [exact Hr|]. split; [exact Hcl|]. split; [|split].
    - intros j tj _ Hj. apply (all_idle_elim s0 j tj Hidle Hj).
    - split; intros k id Hg; [exact Hg|left; exact Hg].
    - eexists. split; [exact Hn|]. left; reflexivity. }
  assert (Hal' : forall l, In l ls -> allowed i E l).
  { intros l Hl. destruct (Hal l Hl) as [->|[(k & ->)|(o & ->)]]; unfold allowed; eauto 7. }
  pose proof (J_exec scripts i ks rest (cache s0) E Hwf ls s0 s1 HJ0 Hal' He) as HJ1.
  destruct HJ1 as [(ti & Hti & Hlen)|(Hr1 & Hcl1 & Hoth & [Hshr Hkeep] & ti & Hti & Hph)];
    rewrite Hfin in Hti; injection Hti as <-; [cbn in Hlen; lia|].
  assert (Hnone : forall k, memZ k ks = true -> get k (cache s1) = None).
  { destruct Hph as [Hx|[(snap & Hx & _)|[_ Hcov]]].
    - exfalso. injection Hx as Hx. apply (f_equal (@length op)) in Hx. cbn in Hx. lia.
    - discriminate.
    - intros k Hk. destruct (get k (cache s1)) as [id|] eqn:Eg; [|reflexivity].
      destruct (Hcov k Hk). rewrite Eg. discriminate. }
  assert (Hidle1 : forall j tj, nth_error (threads s1) j = Some tj -> t_pc tj = PIdle).
  { intros j tj Hj. destruct (Nat.eq_dec j i) as [->|Hne]; [|exact (Hoth j tj Hne Hj)].
    rewrite Hfin in Hj. injection Hj as <-. reflexivity. }
  assert (HH1 : H s1) by (apply H_neutral; intros j tj Hj; rewrite (Hidle1 j tj Hj); reflexivity).
  destruct (deliver_all_spec s1) as (Nd & Cd & Cld & Td & _). fold sd in Nd, Cd, Cld, Td.
  pose proof (deliver_n_reachableH (init scripts) (length (notes s1)) s1 Hr1 HH1) as Rd.
  fold (deliver_all s1) in Rd. fold sd in Rd.
  assert (Hqd : quiescent sd) by (split; [apply all_idle_intro; rewrite Td; exact Hidle1|exact Nd]).
  split; [exact Hnone|]. split; [|split; [exact Hshr|]].
  { intros k id Hk Hg Hne. destruct (Hkeep k id Hg) as [Hc|[Hm|He']]; [exact Hc| |contradiction].
    rewrite Hk in Hm; discriminate. }
  split; [exact Cd|]. split; [exact Hqd|]. split; [exact Rd|]. split.
  - apply (quiescent_agreement scripts sd Hwf Rd); [rewrite Cld; exact Hcl1|exact Hqd].
  - intros Hn1. apply (quiescent_agreement scripts s1 Hwf Hr1 Hcl1). split; [apply all_idle_intro; exact Hidle1|exact Hn1].
Qed.

Theorem rejected_store_step s i t k id :
  nth_error (threads s) i = Some t -> t_pc t = PStoreB k id -> closed s = false ->
  exists s1, step s (LT i Reject) = Some s1 /\
    get k (cache s1) = None /\ notes s1 = notes s ++ [(k, id)] /\ idx s1 = idx s /\
    (forall k', k' <> k -> get k' (cache s1) = get k' (cache s)) /\
    forall v, get k (idx (deliver_all s1)) = Some v -> v <> id.
Proof.
  intros Hn Hpc Hcl. cbn [step]. rewrite Hn. unfold tstep. rewrite Hpc, Hcl.
  eexists. split; [reflexivity|]. cbn [cache notes idx set_threads do_set_reject].
  split; [apply get_rem_same|]. split; [reflexivity|]. split; [reflexivity|].
  split; [intros k' Hne; apply get_rem_other; exact Hne|].
  intros v Hg ->. apply (proj2 (proj2 (proj2 (proj2 (deliver_all_spec _))))) in Hg.
  apply (proj2 Hg). cbn [notes set_threads do_set_reject]. apply in_snoc. right; reflexivity.
Qed.

(* a store whose Set is rejected, run without interference (A; B rejected; drain): the key is in neither the cache
   nor the index; an OLDER identity of k does not survive either (A overwrote the index entry, the Set replaced the
   cache entry before dropping the new one) *)
Theorem rejected_store_clean s i t k id r o s1 :
  nth_error (threads s) i = Some t -> t_pc t = PIdle -> t_script t = OStore k id :: r -> closed s = false ->
  exec s [LT i o; LT i Reject] = Some s1 ->
  let sd := deliver_all s1 in
  get k (cache sd) = None /\ get k (idx sd) = None /\ notes sd = [] /\
  nth_error (threads sd) i = Some (mkT PIdle r) /\
  (forall k', k' <> k -> get k' (cache sd) = get k' (cache s)) /\
  (forall k' v, k' <> k -> (get k' (idx sd) = Some v <-> get k' (idx s) = Some v /\ ~ In (k', v) (notes s))).
Proof.
  intros Hn Hpc Hsc Hcl He sd. cbn [exec step] in He. rewrite Hn in He. unfold tstep at 1 in He.
  rewrite Hpc, Hsc in He. cbn [set_threads do_addkey threads idx cache notes closed] in He.
  rewrite (nth_error_upd_same _ _ _ _ Hn) in He. unfold tstep in He. cbn in He. rewrite Hcl in He.
  injection He as He.
  destruct (deliver_all_spec s1) as (A & B & C & D & F). fold sd in A, B, C, D, F. subst s1.
  cbn [idx cache notes threads set_threads do_set_reject do_addkey] in B, D, F.
  rewrite B. split; [apply get_rem_same|]. split; [|split; [exact A|split; [|split]]].
  - destruct (get k (idx sd)) as [v|] eqn:Eg; [|reflexivity]. apply F in Eg. destruct Eg as [Hg Hni].
    rewrite get_set_same in Hg. injection Hg as <-. destruct Hni. apply in_snoc. right; reflexivity.
  - rewrite D. eapply nth_error_upd_same. eapply nth_error_upd_same. exact Hn.
  - intros k' Hne. apply get_rem_other; exact Hne.
  - intros k' v Hne. rewrite F, in_snoc. rewrite get_set_other by exact Hne.
    split; intros [Hg Hni]; (split; [exact Hg|]); [tauto|].
    intros [Hin|[= Hk _]]; [exact (Hni Hin)|exact (Hne (eq_sym Hk))].
Qed.

(* a store on a closed cache (A; B fails; B'): the index ends up without any entry for k — its own
   identity is removed, and so is an older identity of k (overwritten by A) —, every other key is untouched,
   cache and queue are untouched *)
Theorem closed_store_clean s i t k id r o1 o2 o3 s3 :
  nth_error (threads s) i = Some t -> t_pc t = PIdle -> t_script t = OStore k id :: r -> closed s = true ->
  exec s [LT i o1; LT i o2; LT i o3] = Some s3 ->
  idx s3 = rem k (idx s) /\ get k (idx s3) = None /\
  (forall k', k' <> k -> get k' (idx s3) = get k' (idx s)) /\
  cache s3 = cache s /\ notes s3 = notes s /\ closed s3 = true /\
  nth_error (threads s3) i = Some (mkT PIdle r).
Proof.
  intros Hn Hpc Hsc Hcl He. cbn [exec step] in He. rewrite Hn in He. unfold tstep at 1 in He.
  rewrite Hpc, Hsc in He. cbn [set_threads do_addkey threads idx cache notes closed] in He.
  rewrite (nth_error_upd_same _ _ _ _ Hn) in He. unfold tstep in He.
  cbn [t_pc t_script closed set_threads do_addkey threads] in He. rewrite Hcl in He.
  cbn [set_threads threads] in He.
  rewrite (nth_error_upd_same _ _ _ _ (nth_error_upd_same _ _ _ _ Hn)) in He.
  cbn [t_pc t_script] in He. injection He as <-. cbn [set_threads do_remid do_addkey idx cache notes closed threads].
  rewrite rem_id_hit by apply get_set_same. rewrite rem_set_same.
  split; [reflexivity|]. split; [apply get_rem_same|].
  split; [intros k' Hne; apply get_rem_other; exact Hne|].
  split; [reflexivity|]. split; [reflexivity|]. split; [exact Hcl|].
  exact (nth_error_upd_same _ _ _ _ (nth_error_upd_same _ _ _ _ (nth_error_upd_same _ _ _ _ Hn))).
Qed.

(* other identities are untouched only per key: an older identity of the SAME key is lost
   (harmless: a closed cache is empty) *)
Example closed_store_drops_older_identity :
  exec (mkS [(1, 9)] [] [] true [mkT PIdle [OStore 1 10]]) [LT 0%nat acc; LT 0%nat acc; LT 0%nat acc]
  = Some (mkS [] [] [] true [mkT PIdle []]).
Proof. vm_compute. reflexivity. Qed.

(* three threads: two stores on key 1 in sequence (thread 0), stores on keys 2 and 5 (thread 1), an Invalidate whose
   pattern matches keys 1 and 3 (thread 2); a displacement, an eviction, late deliveries; H is checked at every step *)
Definition ex_scripts : list (list op) :=
  [[OStore 1 10; OStore 1 11]; [OStore 2 20; OStore 5 50]; [OInvalidate [1; 3]]].

Definition ex_run : list label :=
  [LT 0%nat acc;            (* A(1,10) *)
   LT 1%nat acc;            (* A(2,20) *)
   LT 0%nat acc;            (* B(1,10) accepted *)
   LT 1%nat (Accept [1]);   (* B(2,20) accepted, displaces key 1: notification (1,10) queued *)
   LT 0%nat acc;            (* A(1,11) while (1,10) is still undelivered *)
   LT 0%nat acc;            (* B(1,11) *)
   LDeliver;                (* late (1,10): identity mismatch, the index keeps (1,11) *)
   LT 2%nat acc;            (* Invalidate: snapshot = [1] *)
   LT 1%nat acc;            (* A(5,50) *)
   LT 2%nat acc;            (* Delete 1: notification (1,11) *)
   LT 1%nat acc;            (* B(5,50) *)
   LT 2%nat acc;            (* Invalidate returns *)
   LEvict 5;                (* expiry of key 5: notification (5,50) *)
   LDeliver; LDeliver].

Lemma ex_wf : wf_scripts ex_scripts.
Proof. unfold wf_scripts, ex_scripts; cbn. repeat constructor; cbn; intuition lia. Qed.

Example nonvacuity_midway :
  execH (init ex_scripts) (firstn 13 ex_run)
  = Some (mkS [(5, 50); (1, 11); (2, 20)] [(2, 20)] [(1, 11); (5, 50)] false
            [mkT PIdle []; mkT PIdle []; mkT PIdle []]).
Proof. vm_compute. reflexivity. Qed.

Example nonvacuity_run :
  execH (init ex_scripts) ex_run
  = Some (mkS [(2, 20)] [(2, 20)] [] false [mkT PIdle []; mkT PIdle []; mkT PIdle []]).
Proof. vm_compute. reflexivity. Qed.

(* the final state satisfies every hypothesis of quiescent_agreement, so the theorem is not vacuous *)
Example nonvacuity_hypotheses :
  let s := mkS [(2, 20)] [(2, 20)] [] false [mkT PIdle []; mkT PIdle []; mkT PIdle []] in
  wf_scripts ex_scripts /\ reachableH (init ex_scripts) s /\ closed s = false /\ quiescent s /\
  (forall k, get k (idx s) = get k (cache s)).
Proof.
  cbv zeta.
  assert (Hr : reachableH (init ex_scripts)
                 (mkS [(2, 20)] [(2, 20)] [] false [mkT PIdle []; mkT PIdle []; mkT PIdle []])).
  { apply (execH_reachableH _ (init ex_scripts) ex_run); [constructor|apply nonvacuity_run]. }
  split; [exact ex_wf|]. split; [exact Hr|]. split; [reflexivity|].
  split; [split; reflexivity|].
  apply (quiescent_agreement ex_scripts _ ex_wf Hr); [reflexivity|split; reflexivity].
Qed.

Lemma do_remove_set_threads x a ths : do_remove x (set_threads a ths) = set_threads (do_remove x a) ths.
Proof. unfold do_remove, set_threads; cbn. destruct (get x (cache a)); reflexivity. Qed.

Lemma delete_loop_set_threads l : forall a m ths,
  fst (delete_loop l (set_threads a ths) m) = set_threads (fst (delete_loop l a m)) ths.
Proof.
  induction l as [|x l IHl]; intros a m ths; cbn [delete_loop fst]; [reflexivity|].
  rewrite do_remove_set_threads. change (resident x (set_threads a ths)) with (resident x a). apply IHl.
Qed.

Lemma upd_upd {A} (l : list A) i x y : upd i x (upd i y l) = upd i x l.
Proof. revert i; induction l as [|z l IH]; intros [|i]; cbn; try reflexivity. rewrite IH. reflexivity. Qed.

(* `delete_loop` over a snapshot (the loop of the wrapper's whole Invalidate) is what the thread does from PInv snap:
   one step per snapshot key and one to return *)
Lemma delete_loop_lts snap : forall s i t n,
  nth_error (threads s) i = Some t -> t_pc t = PInv snap ->
  exec s (repeat (LT i acc) (S (length snap)))
  = Some (set_threads (fst (delete_loop snap s n)) (upd i (mkT PIdle (t_script t)) (threads s))).
Proof.
  induction snap as [|v r IH]; intros s i t n Hn Hpc.
  - cbn [length repeat exec step]. rewrite Hn. unfold tstep. rewrite Hpc. reflexivity.
  - cbn [length repeat exec]. cbn [step]. rewrite Hn. unfold tstep at 1. rewrite Hpc.
    set (s1 := set_threads (do_remove v s) (upd i (mkT (PInv r) (t_script t)) (threads s))).
    assert (Hn1 : nth_error (threads s1) i = Some (mkT (PInv r) (t_script t)))
      by (eapply nth_error_upd_same; exact Hn).
    change (exec s1 (repeat (LT i acc) (S (length r))) =
            Some (set_threads (fst (delete_loop (v :: r) s n)) (upd i (mkT PIdle (t_script t)) (threads s)))).
    rewrite (IH s1 i _ (if resident v s then n + 1 else n) Hn1 eq_refl).
    cbn [delete_loop t_script]. f_equal. unfold s1. rewrite delete_loop_set_threads.
    unfold set_threads; cbn [idx cache notes closed threads]. rewrite upd_upd. reflexivity.
Qed.

(* the stream wrapper on a short op list: store two keys, delete one (index lags until the notifier runs),
   invalidate a pattern matching keys 2, 3, 9, clear *)
Example wrapper_run :
  ix_run [] [[1;1;10]; [1;2;20]; [2;1;10]; [2;2;20]; [7]; [4;1]; [7]; [3]; [7];
             [1;3;30]; [2;3;30]; [5;2;3;9]; [7]; [3]; [7]; [1;4;40]; [2;4;40]; [6]; [7]; [8]]
  = [[]; []; []; []; [1; 2; -1; 1; 2]; [1]; [1; 2; -1; 2]; []; [2; -1; 2];
     []; []; [2]; [2; 3; -1]; []; [-1]; []; []; []; [-1]; [-9]].
Proof. vm_compute. reflexivity. Qed.
