(* StripedCounter.v — kioshun stats.go: striped atomic statistics counters.

     type statStripe struct{ hits atomic.Int64; ... }      // n stripes
     func (s *stats) recordHit(id uint64) { s.stripes[id&s.mask].hits.Add(1) }
     func (s *stats) aggregate() (hits int64) {
       for i := range s.stripes { hits += s.stripes[i].hits.Load() }; return }

   Two variants of recordHit are modelled: the real one, a single atomic add (step), and a
   deliberately wrong load-then-store (step_ls). Under step the stripes sum to the number of
   increments in every interleaving and a concurrent aggregate() lies between the counts at
   its start and at its end; under step_ls updates can be lost, unless no two threads share
   a stripe. *)
From KV Require Import Base.
Open Scope Z_scope.

Definition upd {A : Type} (f : nat -> A) (j : nat) (x : A) : nat -> A :=
  fun i => if Nat.eqb i j then x else f i.

Fixpoint set_nth {A : Type} (l : list A) (t : nat) (x : A) : list A :=
  match l, t with
  | [], _ => []
  | _ :: r, O => x :: r
  | y :: r, S t' => y :: set_nth r t' x
  end.

Fixpoint sumf (f : nat -> Z) (k : nat) : Z :=
  match k with O => 0 | S k' => sumf f k' + f k' end.

(* A thread.
   Inc sc          : incrementer; sc = stripe ids (already reduced: < n) of
                     the recordHit calls it still has to perform.
   IncLoaded v i r : ONLY used by the wrong variant step_ls: the thread is in
                     the middle of recordHit on stripe i, it has loaded v and
                     will store v+1; r = the calls remaining after this one.
   AggNew          : an aggregate() call that has not started yet.
   Agg c0 pos acc  : a running aggregate(): next Load is stripe pos, running
                     sum acc; it has returned acc when pos = n.
                     c0 is GHOST: the value of [done] when it started. *)
Inductive thread : Type :=
| Inc (script : list nat)
| IncLoaded (v : Z) (i : nat) (rest : list nat)
| AggNew
| Agg (c0 : Z) (pos : nat) (acc : Z).

(* stripes: the n atomic counters (only indices < n are used);
   done   : GHOST, number of increment operations executed so far. *)
Record state : Type := mkState {
  stripes : nat -> Z;
  done    : Z;
  threads : list thread
}.

Definition init (ths : list thread) : state := mkState (fun _ => 0) 0 ths.

Definition thread_init_ok (n : nat) (th : thread) : Prop :=
  match th with
  | Inc sc => Forall (fun i => (i < n)%nat) sc
  | AggNew => True
  | _ => False
  end.
Definition wf_threads (n : nat) (ths : list thread) : Prop :=
  Forall (thread_init_ok n) ths.

(* the real code: recordHit = ONE atomic fetch-add *)
Inductive step (n : nat) : state -> state -> Prop :=
| step_add : forall s t i r,
    nth_error (threads s) t = Some (Inc (i :: r)) ->
    step n s (mkState (upd (stripes s) i (stripes s i + 1)) (done s + 1)
                      (set_nth (threads s) t (Inc r)))
| step_start : forall s t,
    nth_error (threads s) t = Some AggNew ->
    step n s (mkState (stripes s) (done s)
                      (set_nth (threads s) t (Agg (done s) 0 0)))
| step_load : forall s t c0 pos acc,
    nth_error (threads s) t = Some (Agg c0 pos acc) -> (pos < n)%nat ->
    step n s (mkState (stripes s) (done s)
                      (set_nth (threads s) t (Agg c0 (S pos) (acc + stripes s pos)))).

(* deliberately wrong: recordHit = h.Store(h.Load()+1), TWO atomic steps.
   The ghost [done] is bumped when the operation completes (at the store). *)
Inductive step_ls (n : nat) : state -> state -> Prop :=
| ls_load : forall s t i r,
    nth_error (threads s) t = Some (Inc (i :: r)) ->
    step_ls n s (mkState (stripes s) (done s)
                         (set_nth (threads s) t (IncLoaded (stripes s i) i r)))
| ls_store : forall s t v i r,
    nth_error (threads s) t = Some (IncLoaded v i r) ->
    step_ls n s (mkState (upd (stripes s) i (v + 1)) (done s + 1)
                         (set_nth (threads s) t (Inc r)))
| ls_start : forall s t,
    nth_error (threads s) t = Some AggNew ->
    step_ls n s (mkState (stripes s) (done s)
                         (set_nth (threads s) t (Agg (done s) 0 0)))
| ls_aggload : forall s t c0 pos acc,
    nth_error (threads s) t = Some (Agg c0 pos acc) -> (pos < n)%nat ->
    step_ls n s (mkState (stripes s) (done s)
                         (set_nth (threads s) t (Agg c0 (S pos) (acc + stripes s pos)))).

Inductive star {A : Type} (R : A -> A -> Prop) : A -> A -> Prop :=
| star_refl : forall s, star R s s
| star_snoc : forall s s' s'', star R s s' -> R s' s'' -> star R s s''.

Definition reachable_from (n : nat) (ths : list thread) (s : state) : Prop :=
  star (step n) (init ths) s.
Definition reachable (n : nat) (s : state) : Prop :=
  exists ths, wf_threads n ths /\ reachable_from n ths s.

Definition reachable_ls_from (n : nat) (ths : list thread) (s : state) : Prop :=
  star (step_ls n) (init ths) s.
Definition reachable_ls (n : nat) (s : state) : Prop :=
  exists ths, wf_threads n ths /\ reachable_ls_from n ths s.

(* executable versions: a schedule is a list of thread indices *)
Definition step_thread (n : nat) (s : state) (t : nat) : option state :=
  match nth_error (threads s) t with
  | Some (Inc (i :: r)) =>
      Some (mkState (upd (stripes s) i (stripes s i + 1)) (done s + 1)
                    (set_nth (threads s) t (Inc r)))
  | Some AggNew =>
      Some (mkState (stripes s) (done s) (set_nth (threads s) t (Agg (done s) 0 0)))
  | Some (Agg c0 pos acc) =>
      if (pos <? n)%nat
      then Some (mkState (stripes s) (done s)
                         (set_nth (threads s) t (Agg c0 (S pos) (acc + stripes s pos))))
      else None
  | _ => None
  end.

Definition step_thread_ls (n : nat) (s : state) (t : nat) : option state :=
  match nth_error (threads s) t with
  | Some (Inc (i :: r)) =>
      Some (mkState (stripes s) (done s)
                    (set_nth (threads s) t (IncLoaded (stripes s i) i r)))
  | Some (IncLoaded v i r) =>
      Some (mkState (upd (stripes s) i (v + 1)) (done s + 1)
                    (set_nth (threads s) t (Inc r)))
  | Some AggNew =>
      Some (mkState (stripes s) (done s) (set_nth (threads s) t (Agg (done s) 0 0)))
  | Some (Agg c0 pos acc) =>
      if (pos <? n)%nat
      then Some (mkState (stripes s) (done s)
                         (set_nth (threads s) t (Agg c0 (S pos) (acc + stripes s pos))))
      else None
  | _ => None
  end.

Fixpoint exec_with (f : state -> nat -> option state) (s : state) (sched : list nat)
  : option state :=
  match sched with
  | [] => Some s
  | t :: r => match f s t with Some s' => exec_with f s' r | None => None end
  end.

Definition exec (n : nat) := exec_with (step_thread n).
Definition exec_ls (n : nat) := exec_with (step_thread_ls n).

Definition observe (n : nat) (s : state) : list Z * Z * list thread :=
  (map (stripes s) (seq 0 n), done s, threads s).

Lemma upd_same {A : Type} (f : nat -> A) j x : upd f j x j = x.
Proof. unfold upd. rewrite Nat.eqb_refl. reflexivity. Qed.

Lemma upd_other {A : Type} (f : nat -> A) j x i : i <> j -> upd f j x i = f i.
Proof. unfold upd. intros H. destruct (Nat.eqb_spec i j) as [E|E]; [contradiction|reflexivity]. Qed.

Lemma nth_error_set_nth {A : Type} (l : list A) t x a :
  nth_error (set_nth l t x) a =
  if Nat.eqb a t then option_map (fun _ => x) (nth_error l a) else nth_error l a.
Proof.
  revert t a. induction l as [|z l IH]; intros t a.
  - destruct a; destruct (Nat.eqb _ t); reflexivity.
  - destruct t as [|t]; destruct a as [|a]; cbn [set_nth nth_error Nat.eqb option_map];
      try reflexivity.
    apply IH.
Qed.

Lemma nth_error_set_nth_inv {A : Type} (l : list A) t x a y :
  nth_error (set_nth l t x) a = Some y ->
  (a = t /\ y = x) \/ (a <> t /\ nth_error l a = Some y).
Proof.
  rewrite nth_error_set_nth. intros H.
  destruct (Nat.eqb_spec a t) as [E|N]; [left|right; auto].
  destruct (nth_error l a); [|discriminate H]. injection H as <-. auto.
Qed.

Lemma nth_error_set_nth_eq {A : Type} (l : list A) t x y :
  nth_error l t = Some y -> nth_error (set_nth l t x) t = Some x.
Proof. intros H. rewrite nth_error_set_nth, Nat.eqb_refl, H. reflexivity. Qed.

Lemma nth_error_set_nth_neq {A : Type} (l : list A) t x a :
  a <> t -> nth_error (set_nth l t x) a = nth_error l a.
Proof.
  intros H. rewrite nth_error_set_nth.
  destruct (Nat.eqb_spec a t) as [E|_]; [contradiction|reflexivity].
Qed.

(* every element of a list, by position: how Inv, InvLS and InvX speak of the thread pool *)
Definition all_nth {A : Type} (P : A -> Prop) (l : list A) : Prop :=
  forall a x, nth_error l a = Some x -> P x.

Lemma all_nth_Forall {A : Type} (P Q : A -> Prop) l :
  Forall P l -> (forall x, P x -> Q x) -> all_nth Q l.
Proof.
  intros H HPQ a x Ha. apply HPQ.
  apply (proj1 (Forall_forall P l) H). apply (nth_error_In _ _ Ha).
Qed.

Lemma all_nth_set_nth {A : Type} (P Q : A -> Prop) l t x :
  all_nth P l -> Q x -> (forall a y, a <> t -> nth_error l a = Some y -> P y -> Q y) ->
  all_nth Q (set_nth l t x).
Proof.
  intros Hl Hx HPQ a y H.
  destruct (nth_error_set_nth_inv _ _ _ _ _ H) as [[_ ->]|[N Ha]]; [exact Hx|].
  exact (HPQ _ _ N Ha (Hl _ _ Ha)).
Qed.

Lemma sumf_zero k : sumf (fun _ => 0) k = 0.
Proof. induction k as [|k IH]; cbn [sumf]; lia. Qed.

Lemma sumf_le f g k :
  (forall i, (i < k)%nat -> f i <= g i) -> sumf f k <= sumf g k.
Proof.
  induction k as [|k IH]; intros H; cbn [sumf]; [apply Z.le_refl|].
  apply Z.add_le_mono; [apply IH; intros i Hi|]; apply H; lia.
Qed.

Lemma sumf_upd_ge f j x k : (k <= j)%nat -> sumf (upd f j x) k = sumf f k.
Proof.
  induction k as [|k IH]; intros H; cbn [sumf]; [reflexivity|].
  rewrite IH by lia. rewrite upd_other by lia. reflexivity.
Qed.

Lemma sumf_upd_lt f j x k : (j < k)%nat -> sumf (upd f j x) k = sumf f k - f j + x.
Proof.
  induction k as [|k IH]; intros H; [inversion H|]. cbn [sumf].
  destruct (Nat.eq_dec j k) as [E|E].
  - subst j. rewrite sumf_upd_ge by apply le_n. rewrite upd_same. lia.
  - rewrite IH by lia. rewrite upd_other by apply Nat.neq_sym, E. lia.
Qed.

Lemma sumf_incr f j k :
  sumf (upd f j (f j + 1)) k = sumf f k + (if (j <? k)%nat then 1 else 0).
Proof.
  destruct (Nat.ltb_spec j k) as [H|H].
  - rewrite sumf_upd_lt by exact H. lia.
  - rewrite sumf_upd_ge by exact H. lia.
Qed.

Lemma sumf_prefix_le f p k :
  (forall i, 0 <= f i) -> (p <= k)%nat -> sumf f p <= sumf f k.
Proof.
  intros Hf H. induction H as [|k _ IH]; [lia|].
  cbn [sumf]. specialize (Hf k). lia.
Qed.

Lemma star_invariant {A : Type} (R : A -> A -> Prop) (P : A -> Prop) s0 s :
  star R s0 s -> P s0 -> (forall s s', P s -> R s s' -> P s') -> P s.
Proof.
  intros H H0 Hstep. induction H as [s|s s1 s2 _ IH H2]; [exact H0|].
  exact (Hstep _ _ (IH H0) H2).
Qed.

Lemma star_trans {A : Type} (R : A -> A -> Prop) s s' s'' :
  star R s s' -> star R s' s'' -> star R s s''.
Proof. intros H1 H2. apply (star_invariant R (star R s) _ _ H2 H1). apply star_snoc. Qed.

Lemma star_left {A : Type} (R : A -> A -> Prop) s s' s'' :
  R s s' -> star R s' s'' -> star R s s''.
Proof. intros H1. apply star_trans. exact (star_snoc R _ _ _ (star_refl R s) H1). Qed.

Lemma step_thread_sound n s t s' : step_thread n s t = Some s' -> step n s s'.
Proof.
  unfold step_thread. intros H.
  destruct (nth_error (threads s) t) as [[[|i r]|v i r| |c0 pos acc]|] eqn:E; try discriminate H.
  - injection H as <-. apply step_add. exact E.
  - injection H as <-. apply step_start. exact E.
  -
    destruct (Nat.ltb_spec pos n) as [L|L]; [|discriminate H].
    injection H as <-. apply step_load; assumption.
Qed.

Lemma step_thread_complete n s s' : step n s s' -> exists t, step_thread n s t = Some s'.
Proof.
  intros H. destruct H as [s t i r E|s t E|s t c0 pos acc E L]; exists t; unfold step_thread;
    rewrite E; try reflexivity.
  apply Nat.ltb_lt in L. rewrite L. reflexivity.
Qed.

Lemma step_thread_ls_sound n s t s' : step_thread_ls n s t = Some s' -> step_ls n s s'.
Proof.
  unfold step_thread_ls. intros H.
  destruct (nth_error (threads s) t) as [[[|i r]|v i r| |c0 pos acc]|] eqn:E; try discriminate H.
  - injection H as <-. apply ls_load. exact E.
  - injection H as <-. apply ls_store. exact E.
  - injection H as <-. apply ls_start. exact E.
  -
    destruct (Nat.ltb_spec pos n) as [L|L]; [|discriminate H].
    injection H as <-. apply ls_aggload; assumption.
Qed.

Lemma step_thread_ls_complete n s s' :
  step_ls n s s' -> exists t, step_thread_ls n s t = Some s'.
Proof.
  intros H. destruct H as [s t i r E|s t v i r E|s t E|s t c0 pos acc E L];
    exists t; unfold step_thread_ls; rewrite E; try reflexivity.
  apply Nat.ltb_lt in L. rewrite L. reflexivity.
Qed.

Lemma exec_with_sound (f : state -> nat -> option state) (R : state -> state -> Prop) :
  (forall s t s', f s t = Some s' -> R s s') ->
  forall sched s s', exec_with f s sched = Some s' -> star R s s'.
Proof.
  intros Hf sched. induction sched as [|t r IH]; intros s s' H; cbn [exec_with] in H.
  - injection H as <-. apply star_refl.
  - destruct (f s t) as [s1|] eqn:E; [|discriminate H].
    eapply star_left; [eapply Hf; exact E|apply IH; exact H].
Qed.

Lemma exec_with_app f s l1 l2 s1 :
  exec_with f s l1 = Some s1 -> exec_with f s (l1 ++ l2) = exec_with f s1 l2.
Proof.
  revert s. induction l1 as [|t r IH]; intros s H; cbn [exec_with app] in *.
  - injection H as <-. reflexivity.
  - destruct (f s t) as [s2|]; [|discriminate H]. apply IH. exact H.
Qed.

Lemma exec_with_complete (f : state -> nat -> option state) (R : state -> state -> Prop) :
  (forall s s', R s s' -> exists t, f s t = Some s') ->
  forall s s', star R s s' -> exists sched, exec_with f s sched = Some s'.
Proof.
  intros Hf s s' H. induction H as [s|s s1 s2 _ [sched IH] H2].
  - exists []. reflexivity.
  - destruct (Hf _ _ H2) as [t Ht]. exists (sched ++ [t]).
    rewrite (exec_with_app _ _ _ _ _ IH). cbn [exec_with]. rewrite Ht. reflexivity.
Qed.

Theorem exec_sound n s sched s' : exec n s sched = Some s' -> star (step n) s s'.
Proof. apply exec_with_sound. apply step_thread_sound. Qed.

Theorem exec_complete n s s' : star (step n) s s' -> exists sched, exec n s sched = Some s'.
Proof. apply exec_with_complete. apply step_thread_complete. Qed.

Theorem exec_ls_sound n s sched s' : exec_ls n s sched = Some s' -> star (step_ls n) s s'.
Proof. apply exec_with_sound. apply step_thread_ls_sound. Qed.

Theorem exec_ls_complete n s s' :
  star (step_ls n) s s' -> exists sched, exec_ls n s sched = Some s'.
Proof. apply exec_with_complete. apply step_thread_ls_complete. Qed.

Definition thread_ok (n : nat) (st : nat -> Z) (th : thread) : Prop :=
  match th with
  | Inc sc => Forall (fun i => (i < n)%nat) sc
  | IncLoaded _ _ _ => False
  | AggNew => True
  | Agg c0 pos acc =>
      (pos <= n)%nat /\
      c0 <= acc + (sumf st n - sumf st pos) /\   (* nothing counted at start is lost *)
      acc <= sumf st pos                          (* nothing is counted twice / invented *)
  end.

Definition Inv (n : nat) (s : state) : Prop :=
  sumf (stripes s) n = done s /\
  all_nth (thread_ok n (stripes s)) (threads s).

Lemma thread_ok_add n st th i :
  thread_ok n st th -> (i < n)%nat -> thread_ok n (upd st i (st i + 1)) th.
Proof.
  destruct th as [sc|v j r| |c0 pos acc]; cbn [thread_ok]; intros H Hi; try exact H.
  rewrite (sumf_upd_lt _ _ _ _ Hi), sumf_incr. destruct (Nat.ltb_spec i pos); lia.
Qed.

Lemma Inv_init n ths : wf_threads n ths -> Inv n (init ths).
Proof.
  intros W. split; [apply sumf_zero|].
  apply (all_nth_Forall _ _ _ W).
  (* an initial thread is an incrementer, with the same claim, or a fresh aggregator *)
  intros [sc|v i r| |c0 pos acc] H; try exact H; contradiction.
Qed.

Lemma Inv_step n s s' : Inv n s -> step n s s' -> Inv n s'.
Proof.
  intros [Hsum Hth] H.
  destruct H as [s t i r E|s t E|s t c0 pos acc E L]; unfold Inv; cbn [stripes done threads].
  - (* add: stripe i and the count go up together; every aggregator's bracket survives *)
    destruct (proj1 (Forall_cons_iff _ _ _) (Hth _ _ E)) as [Hi Hr].
    split; [rewrite sumf_upd_lt by exact Hi; lia|].
    apply (all_nth_set_nth _ _ _ _ _ Hth); [exact Hr|].
    intros a th _ _ Hok. apply thread_ok_add; [exact Hok|exact Hi].
  - (* aggregator start: c0 is the count, which is the whole sum; nothing read yet *)
    split; [exact Hsum|].
    apply (all_nth_set_nth _ _ _ _ _ Hth); [|auto]. cbn [thread_ok sumf]. lia.
  - (* aggregator load: stripe pos moves from the unread part to acc *)
    split; [exact Hsum|].
    apply (all_nth_set_nth _ _ _ _ _ Hth); [|auto].
    pose proof (Hth _ _ E) as Hag. cbn [thread_ok sumf] in *. lia.
Qed.

Lemma Inv_reachable n s : reachable n s -> Inv n s.
Proof.
  intros (ths & W & R).
  exact (star_invariant _ (Inv n) _ _ R (Inv_init n ths W) (Inv_step n)).
Qed.

Lemma reachable_step n s s' : reachable n s -> step n s s' -> reachable n s'.
Proof.
  intros (ths & W & R) H. exists ths. split; [exact W|].
  exact (star_snoc _ _ _ _ R H).
Qed.

(* The stripes always add up to the number of increments performed. *)
Theorem sum_is_count n s : reachable n s -> sumf (stripes s) n = done s.
Proof. intros R. apply (Inv_reachable n s R). Qed.

Lemma step_done_cases n s s' :
  step n s s' ->
  (exists i, stripes s' = upd (stripes s) i (stripes s i + 1) /\ done s' = done s + 1) \/
  (stripes s' = stripes s /\ done s' = done s).
Proof.
  intros H. destruct H as [s t j r E|s t E|s t c0 pos acc E L]; cbn [stripes done].
  - left. exists j. split; reflexivity.
  - right. split; reflexivity.
  - right. split; reflexivity.
Qed.

Theorem stripes_monotone n s s' i :
  step n s s' -> stripes s' i = stripes s i \/ stripes s' i = stripes s i + 1.
Proof.
  intros H. destruct (step_done_cases _ _ _ H) as [(j & -> & _)|[-> _]]; [|left; reflexivity].
  unfold upd. destruct (Nat.eqb_spec i j) as [->|_]; [right|left]; reflexivity.
Qed.

Lemma done_monotone n s s' : star (step n) s s' -> done s <= done s'.
Proof.
  intros H. induction H as [s|s s1 s2 _ IH H2]; [lia|].
  destruct (step_done_cases _ _ _ H2) as [(i & _ & E)|[_ E]]; lia.
Qed.

Definition quiet_step (n : nat) (s s' : state) : Prop :=
  step n s s' /\ done s' = done s.

Lemma quiet_step_stripes n s s' : quiet_step n s s' -> stripes s' = stripes s.
Proof.
  intros [H Hd]. destruct (step_done_cases _ _ _ H) as [(i & _ & E)|[E _]]; [lia|exact E].
Qed.

Lemma loud_step_is_add n s s' :
  step n s s' -> done s' <> done s ->
  exists i, stripes s' = upd (stripes s) i (stripes s i + 1) /\ done s' = done s + 1.
Proof.
  intros H Hd. destruct (step_done_cases _ _ _ H) as [(i & E1 & E2)|[_ E]]; [eauto|contradiction].
Qed.

(* aggregate() returning r (state Agg c0 n r): count at its start <= r <= count now. *)
Theorem aggregate_bounds n s a c0 r :
  reachable n s -> nth_error (threads s) a = Some (Agg c0 n r) ->
  c0 <= r <= done s.
Proof.
  intros R Ha. destruct (Inv_reachable n s R) as [Hsum Hth].
  destruct (Hth _ _ Ha) as (_ & Hlo & Hhi). lia.
Qed.

(* exact at quiescence, ghost form: if the count now is still the count at the
   aggregator's start (done only ever grows, one per increment step, so this says
   no increment step happened in between), the result is exact. *)
Theorem aggregate_quiescent n s a c0 r :
  reachable n s -> nth_error (threads s) a = Some (Agg c0 n r) ->
  done s = c0 -> r = done s.
Proof.
  intros R Ha Hq. pose proof (aggregate_bounds n s a c0 r R Ha). lia.
Qed.

Lemma agg_c0_preserved n s s' a c0 pos acc :
  step n s s' -> nth_error (threads s) a = Some (Agg c0 pos acc) ->
  exists pos' acc', nth_error (threads s') a = Some (Agg c0 pos' acc').
Proof.
  intros H Ha.
  destruct H as [s t j r E|s t E|s t c1 p1 a1 E L]; cbn [threads];
    destruct (Nat.eq_dec a t) as [->|N];
    try (rewrite nth_error_set_nth_neq by exact N; eauto).
  (* left: the stepping thread is a itself; being an aggregator, its step is a load *)
  - rewrite E in Ha. discriminate Ha.
  - rewrite E in Ha. discriminate Ha.
  - rewrite E in Ha. injection Ha as -> -> ->.
    rewrite (nth_error_set_nth_eq _ _ _ _ E). eauto.
Qed.

Lemma quiet_run_keeps_agg n s s' a c0 pos acc :
  star (quiet_step n) s s' -> reachable n s ->
  nth_error (threads s) a = Some (Agg c0 pos acc) ->
  reachable n s' /\ done s' = done s /\
  exists pos' acc', nth_error (threads s') a = Some (Agg c0 pos' acc').
Proof.
  intros Hs R Ha.
  pattern s'. apply (star_invariant _ _ _ _ Hs).
  - split; [exact R|]. split; [reflexivity|]. exists pos, acc. exact Ha.
  - intros s1 s2 (R1 & D1 & p & ac & A1) [Hstep Hd].
    split; [exact (reachable_step _ _ _ R1 Hstep)|]. split; [congruence|].
    exact (agg_c0_preserved _ _ _ _ _ _ _ Hstep A1).
Qed.

(* exact at quiescence, trace form: aggregator a starts in s0 (its start step is
   the first step below), then only non-increment steps happen, of any threads,
   until a has returned r: then r is exactly the count. *)
Theorem aggregate_quiescent_trace n s0 s' a c0 r :
  reachable n s0 ->
  nth_error (threads s0) a = Some AggNew ->
  star (quiet_step n)
       (mkState (stripes s0) (done s0) (set_nth (threads s0) a (Agg (done s0) 0 0))) s' ->
  nth_error (threads s') a = Some (Agg c0 n r) ->
  c0 = done s0 /\ r = done s'.
Proof.
  intros R Ha Hs Hr.
  destruct (quiet_run_keeps_agg _ _ _ a (done s0) 0%nat 0 Hs
              (reachable_step _ _ _ R (step_start n s0 a Ha))
              (nth_error_set_nth_eq _ _ _ _ Ha)) as (R' & D' & pos & acc & A').
  rewrite Hr in A'. injection A' as -> _ _.
  split; [reflexivity|].
  exact (aggregate_quiescent n s' a (done s0) r R' Hr D').
Qed.

Theorem stripes_nonneg n s i : reachable n s -> 0 <= stripes s i.
Proof.
  intros (ths & W & R).
  pattern s. apply (star_invariant _ _ _ _ R); [reflexivity|].
  intros s1 s2 IH H2. destruct (stripes_monotone n s1 s2 i H2); lia.
Qed.

Theorem aggregate_running_bounds n s a c0 pos acc :
  reachable n s -> nth_error (threads s) a = Some (Agg c0 pos acc) ->
  (pos <= n)%nat /\ acc <= done s /\ c0 <= done s.
Proof.
  intros R Ha. destruct (Inv_reachable n s R) as [Hsum Hth].
  destruct (Hth _ _ Ha) as (Hp & Hlo & Hhi).
  pose proof (sumf_prefix_le (stripes s) pos n (fun i => stripes_nonneg n s i R) Hp). lia.
Qed.

(* scripts still to run, for the sharing condition *)
Definition script (th : thread) : list nat :=
  match th with
  | Inc sc => sc
  | IncLoaded _ i r => i :: r
  | _ => []
  end.

(* Per-thread invariant of the two-step variant with the claim about a loaded value left
   open: scripts stay in range, and rel v i says what is known of the value v that a thread
   holds of stripe i between its load and its store. Aggregators carry no claim.
   thread_ok_ls and thread_ok_x below are its instances for v <= cnt i and v = st i. *)
Definition thread_ok_rel (n : nat) (rel : Z -> nat -> Prop) (th : thread) : Prop :=
  match th with
  | Inc sc => Forall (fun i => (i < n)%nat) sc
  | IncLoaded v i r => (i < n)%nat /\ Forall (fun i => (i < n)%nat) r /\ rel v i
  | _ => True
  end.

Lemma thread_init_ok_rel n rel th : thread_init_ok n th -> thread_ok_rel n rel th.
Proof.
  destruct th as [sc|v i r| |c0 pos acc]; cbn [thread_init_ok thread_ok_rel]; intros H;
    try exact H; try exact I; contradiction.
Qed.

(* rel matters only on the stripes the thread has still to touch *)
Lemma thread_ok_rel_impl n (rel rel' : Z -> nat -> Prop) th :
  (forall v i, In i (script th) -> rel v i -> rel' v i) ->
  thread_ok_rel n rel th -> thread_ok_rel n rel' th.
Proof.
  destruct th as [sc|v i r| |c0 pos acc]; cbn [thread_ok_rel script]; intros Hrel H; try exact H.
  split; [apply H|]. split; [apply H|]. apply Hrel; [left; reflexivity|apply H].
Qed.

(* per-thread invariant relative to per-stripe completed counts cnt (ghost,
   existentially quantified in the invariant): a loaded local never exceeds
   the number of operations completed on its stripe *)
Definition thread_ok_ls (n : nat) (cnt : nat -> Z) : thread -> Prop :=
  thread_ok_rel n (fun v i => v <= cnt i).

Definition InvLS (n : nat) (s : state) : Prop :=
  exists cnt : nat -> Z,
    sumf cnt n = done s /\
    (forall i, stripes s i <= cnt i) /\
    all_nth (thread_ok_ls n cnt) (threads s).

Lemma InvLS_init n ths : wf_threads n ths -> InvLS n (init ths).
Proof.
  intros W. exists (fun _ => 0). split; [apply sumf_zero|]. split; [intros i; reflexivity|].
  apply (all_nth_Forall _ _ _ W). apply thread_init_ok_rel.
Qed.

Lemma InvLS_step n s s' : InvLS n s -> step_ls n s s' -> InvLS n s'.
Proof.
  intros (cnt & Hsum & Hle & Hth) H.
  destruct H as [s t i r E|s t v i r E|s t E|s t c0 pos acc E L]; unfold InvLS;
    cbn [stripes done threads].
  - (* load: stripes and count stay; the value loaded is a current one, at most cnt i *)
    exists cnt. split; [exact Hsum|]. split; [exact Hle|].
    apply (all_nth_set_nth _ _ _ _ _ Hth); [|auto].
    destruct (proj1 (Forall_cons_iff _ _ _) (Hth _ _ E)) as [Hi Hr].
    split; [exact Hi|]. split; [exact Hr|apply Hle].
  - (* store: the stripe gets v + 1 <= cnt i + 1, and cnt only grows *)
    destruct (Hth _ _ E) as (Hi & Hr & Hv).
    exists (upd cnt i (cnt i + 1)).
    split; [rewrite sumf_upd_lt by exact Hi; lia|]. split.
    + intros k. unfold upd. destruct (Nat.eqb k i); [lia|apply Hle].
    + apply (all_nth_set_nth _ _ _ _ _ Hth); [exact Hr|].
      intros a th _ _. apply thread_ok_rel_impl. intros v' k _ Hv'.
      unfold upd. destruct (Nat.eqb_spec k i) as [->|_]; lia.
  - (* aggregator start: stripes and count stay, an aggregator carries no claim *)
    exists cnt. split; [exact Hsum|]. split; [exact Hle|].
    apply (all_nth_set_nth _ _ _ _ _ Hth); [exact I|auto].
  -
    exists cnt. split; [exact Hsum|]. split; [exact Hle|].
    apply (all_nth_set_nth _ _ _ _ _ Hth); [exact I|auto].
Qed.

(* the wrong variant can only LOSE updates, never invent them *)
Theorem ls_sum_le_count n s : reachable_ls n s -> sumf (stripes s) n <= done s.
Proof.
  intros (ths & W & R).
  destruct (star_invariant _ (InvLS n) _ _ R (InvLS_init n ths W) (InvLS_step n))
    as (cnt & Hsum & Hle & _).
  rewrite <- Hsum. apply sumf_le. intros i _. apply Hle.
Qed.

Definition no_sharing (ths : list thread) : Prop :=
  forall a b tha thb i, a <> b ->
    nth_error ths a = Some tha -> nth_error ths b = Some thb ->
    In i (script tha) -> In i (script thb) -> False.

Definition thread_ok_x (n : nat) (st : nat -> Z) : thread -> Prop :=
  thread_ok_rel n (fun v i => v = st i).

Definition InvX (n : nat) (s : state) : Prop :=
  no_sharing (threads s) /\
  sumf (stripes s) n = done s /\
  all_nth (thread_ok_x n (stripes s)) (threads s).

Lemma no_sharing_set_nth ths t th th' :
  no_sharing ths -> nth_error ths t = Some th ->
  (forall i, In i (script th') -> In i (script th)) ->
  no_sharing (set_nth ths t th').
Proof.
  intros NS E Hsub a b tha thb i Hab Ha Hb Ia Ib.
  apply nth_error_set_nth_inv in Ha. apply nth_error_set_nth_inv in Hb.
  destruct Ha as [[-> ->]|[Na Ha]]; destruct Hb as [[-> ->]|[Nb Hb]].
  - contradiction.
  - (* a = t: i is in the old script at t as well *)
    apply (NS t b th thb i Hab E Hb); [apply Hsub; exact Ia|exact Ib].
  - apply (NS a t tha th i Hab Ha E); [exact Ia|apply Hsub; exact Ib].
  - apply (NS a b tha thb i Hab Ha Hb Ia Ib).
Qed.

Lemma InvX_init n ths : wf_threads n ths -> no_sharing ths -> InvX n (init ths).
Proof.
  intros W NS. split; [exact NS|]. split; [apply sumf_zero|].
  apply (all_nth_Forall _ _ _ W). apply thread_init_ok_rel.
Qed.

Lemma InvX_step n s s' : InvX n s -> step_ls n s s' -> InvX n s'.
Proof.
  intros (NS & Hsum & Hth) H.
  destruct H as [s t i r E|s t v i r E|s t E|s t c0 pos acc E L]; unfold InvX;
    cbn [stripes done threads].
  - (* load: same script, stripes and count; the value loaded is the current one *)
    split; [apply (no_sharing_set_nth _ _ _ _ NS E); auto|]. split; [exact Hsum|].
    apply (all_nth_set_nth _ _ _ _ _ Hth); [|auto].
    destruct (proj1 (Forall_cons_iff _ _ _) (Hth _ _ E)) as [Hi Hr].
    split; [exact Hi|]. split; [exact Hr|reflexivity].
  - (* store: v is still the current value, so this is a true increment; no other
       thread has stripe i in its script, so what the others hold stays current *)
    destruct (Hth _ _ E) as (Hi & Hr & ->).
    split; [apply (no_sharing_set_nth _ _ _ _ NS E); intros k Hk; right; exact Hk|].
    split; [rewrite sumf_upd_lt by exact Hi; lia|].
    apply (all_nth_set_nth _ _ _ _ _ Hth); [exact Hr|]. intros a th Na Ha.
    apply thread_ok_rel_impl.
    intros v' k Hk ->. symmetry. apply upd_other. intros ->.
    exact (NS a t _ _ i Na Ha E Hk (or_introl eq_refl)).
  - (* aggregator start: empty script before and after, stripes and count stay *)
    split; [apply (no_sharing_set_nth _ _ _ _ NS E); auto|]. split; [exact Hsum|].
    apply (all_nth_set_nth _ _ _ _ _ Hth); [exact I|auto].
  -
    split; [apply (no_sharing_set_nth _ _ _ _ NS E); auto|]. split; [exact Hsum|].
    apply (all_nth_set_nth _ _ _ _ _ Hth); [exact I|auto].
Qed.

(* when no two threads ever touch the same stripe, even Load-then-Store is exact *)
Theorem ls_exact_without_sharing n ths s :
  wf_threads n ths -> no_sharing ths -> reachable_ls_from n ths s ->
  sumf (stripes s) n = done s.
Proof.
  intros W NS R.
  apply (star_invariant _ (InvX n) _ _ R (InvX_init n ths W NS) (InvX_step n)).
Qed.

(* lost update: two incrementers on ONE stripe, load/load/store/store *)
Definition lu_threads : list thread := [Inc [0%nat]; Inc [0%nat]].

Example load_store_loses_updates :
  option_map (observe 1) (exec_ls 1 (init lu_threads) [0; 1; 0; 1]%nat)
  = Some ([1], 2, [Inc []; Inc []]).
Proof. vm_compute. reflexivity. Qed.

Lemma lu_threads_wf : wf_threads 1 lu_threads.
Proof. unfold wf_threads, lu_threads. repeat constructor. Qed.

(* the same as a statement about reachable states of step_ls: both operations
   completed (done = 2, both scripts empty) yet the only stripe holds 1 *)
Example load_store_loses_updates_reachable :
  exists s, reachable_ls 1 s /\ done s = 2 /\ stripes s 0%nat = 1 /\
            sumf (stripes s) 1 < done s /\ threads s = [Inc []; Inc []].
Proof.
  eexists. split.
  - exists lu_threads. split; [exact lu_threads_wf|].
    apply (exec_ls_sound 1 _ [0; 1; 0; 1]%nat). vm_compute. reflexivity.
  - vm_compute. repeat split.
Qed.

(* with the atomic Add, the same two threads under ANY schedule end with 2
   (instance of sum_is_count; here the analogous 2-step schedule) *)
Example atomic_add_no_lost_update :
  option_map (observe 1) (exec 1 (init lu_threads) [0; 1]%nat)
  = Some ([2], 2, [Inc []; Inc []]).
Proof. vm_compute. reflexivity. Qed.

(* under step_ls a stripe can even go DOWN (so stripes_monotone fails for it):
   thread 0 loads 0, thread 1 completes two operations (stripe = 2), thread 0
   stores 1 *)
Example ls_stripe_decreases :
  option_map (observe 1)
    (exec_ls 1 (init [Inc [0%nat]; Inc [0%nat; 0%nat]]) [0; 1; 1; 1; 1]%nat)
  = Some ([2], 2, [IncLoaded 0 0%nat []; Inc []])
  /\
  option_map (observe 1)
    (exec_ls 1 (init [Inc [0%nat]; Inc [0%nat; 0%nat]]) [0; 1; 1; 1; 1; 0]%nat)
  = Some ([1], 3, [Inc []; Inc []]).
Proof. split; vm_compute; reflexivity. Qed.

(* non-vacuity: 3 incrementers on 2 stripes, one aggregator interleaved *)
Definition nv_threads : list thread :=
  [Inc [0%nat; 1%nat]; Inc [1%nat]; Inc [0%nat]; AggNew].

Lemma nv_threads_wf : wf_threads 2 nv_threads.
Proof. unfold wf_threads, nv_threads. repeat constructor. Qed.

(* T0 adds stripe 0 (done=1); aggregator starts (c0=1), loads stripe 0 (=1);
   T2 adds stripe 0 (missed); T1 adds stripe 1 (seen); aggregator loads stripe 1 (=1)
   and returns 2 while done = 3. *)
Example agg_interleaved_run :
  option_map (observe 2) (exec 2 (init nv_threads) [0; 3; 3; 2; 1; 3]%nat)
  = Some ([2; 1], 3, [Inc [1%nat]; Inc []; Inc []; Agg 1 2 2]).
Proof. vm_compute. reflexivity. Qed.

Example agg_strictly_between :
  exists s a c0 r,
    reachable 2 s /\ nth_error (threads s) a = Some (Agg c0 2 r) /\ c0 < r < done s.
Proof.
  eexists. exists 3%nat, 1, 2. split.
  - exists nv_threads. split; [exact nv_threads_wf|].
    apply (exec_sound 2 _ [0; 3; 3; 2; 1; 3]%nat). vm_compute. reflexivity.
  - vm_compute. repeat split.
Qed.

(* both bounds are attained: increments landing only on already-read stripes give
   r = c0 < done; a quiescent aggregate is exact (r = done) *)
Example agg_lower_bound_attained :
  option_map (observe 2) (exec 2 (init nv_threads) [3; 3; 0; 2; 3]%nat)
  = Some ([2; 0], 2, [Inc [1%nat]; Inc [1%nat]; Inc []; Agg 0 2 0]).
Proof. vm_compute. reflexivity. Qed.

Example agg_quiescent_run :
  option_map (observe 2) (exec 2 (init nv_threads) [0; 0; 1; 2; 3; 3; 3]%nat)
  = Some ([2; 2], 4, [Inc []; Inc []; Inc []; Agg 4 2 4]).
Proof. vm_compute. reflexivity. Qed.

(* the sharing hypothesis of ls_exact_without_sharing is satisfiable: two threads
   on two stripes, each with its own stripe; and then load/load/store/store is
   harmless *)
Definition ns_threads : list thread := [Inc [0%nat; 0%nat]; Inc [1%nat]].

Lemma ns_threads_wf : wf_threads 2 ns_threads.
Proof. unfold wf_threads, ns_threads. repeat constructor. Qed.

Lemma ns_threads_no_sharing : no_sharing ns_threads.
Proof.
  intros a b tha thb i Hab Ha Hb Ia Ib.
  (* only positions 0 and 1 hold a thread and a <> b, so the pair is (0,1) or (1,0):
     the scripts are [0;0] and [1], and i would be 0 and 1 at once *)
  destruct a as [|[|[|a]]], b as [|[|[|b]]]; cbn in Ha, Hb; try congruence;
    injection Ha as <-; injection Hb as <-; cbn in Ia, Ib; lia.
Qed.

Example ls_without_sharing_run :
  option_map (observe 2) (exec_ls 2 (init ns_threads) [0; 1; 0; 1; 0; 0]%nat)
  = Some ([2; 1], 3, [Inc []; Inc []]).
Proof. vm_compute. reflexivity. Qed.

Example ls_without_sharing_instance s :
  reachable_ls_from 2 ns_threads s -> sumf (stripes s) 2 = done s.
Proof.
  apply ls_exact_without_sharing; [exact ns_threads_wf|exact ns_threads_no_sharing].
Qed.

(* the "ids < n" assumption (wf_threads) is needed: an out-of-range id bumps the
   ghost count but no stripe below n *)
Example ids_in_range_needed :
  option_map (observe 1) (exec 1 (init [Inc [1%nat]]) [0%nat])
  = Some ([0], 1, [Inc []]).
Proof. vm_compute. reflexivity. Qed.
