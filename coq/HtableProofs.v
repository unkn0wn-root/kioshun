(* Functional correctness of the open-addressing table model HtableModel.v (lookup / store /
   removeExact+reclaim / clear / probe / publish / unpin / swapAt / rehash) against the abstract map amap, for
   every table size, every hash function and every key set.  Statements named _core ask only for WFcore and
   load_ok, so they hold with and without a parked cursor; the WF and WFpin forms are their corollaries.
   Numbers are in nat_scope here and in Z_scope in HtableTrace.v. *)
Require Import KV.Base KV.Gen.Consts KV.HtableModel.
Require Import Lia List Arith ZArith Bool.
Import ListNotations.
Local Open Scope nat_scope.

Lemma next_in_lt n i : i < n -> next_in n i < n.
Proof. unfold next_in. intros H. destruct (Nat.eqb_spec (S i) n); lia. Qed.

Lemma prev_in_lt n i : i < n -> prev_in n i < n.
Proof. unfold prev_in. intros H. destruct i as [|j]; lia. Qed.

Lemma next_prev n i : i < n -> next_in n (prev_in n i) = i.
Proof.
  unfold prev_in, next_in. intros H. destruct i as [|j].
  - destruct (Nat.eqb_spec (S (Nat.pred n)) n); lia.
  - destruct (Nat.eqb_spec (S j) n); lia.
Qed.

(* the d-th cyclic successor of slot i in a ring of n slots *)
Fixpoint iter_next (n d i : nat) : nat :=
  match d with O => i | S d' => iter_next n d' (next_in n i) end.

Lemma iter_next_S n d : forall i, iter_next n (S d) i = next_in n (iter_next n d i).
Proof. induction d as [|d IH]; intros i; [reflexivity|]. apply (IH (next_in n i)). Qed.

Lemma iter_next_lt n d : forall i, i < n -> iter_next n d i < n.
Proof. induction d as [|d IH]; intros i H; [exact H|]. apply IH, next_in_lt, H. Qed.

Lemma iter_next_small n d : forall i, i + d < n -> iter_next n d i = i + d.
Proof.
  induction d as [|d IH]; intros i H; cbn [iter_next]; [lia|].
  unfold next_in. destruct (Nat.eqb_spec (S i) n); [lia|]. rewrite IH; lia.
Qed.

Lemma iter_next_add n a : forall b i, iter_next n (a + b) i = iter_next n b (iter_next n a i).
Proof. induction a as [|a IH]; intros b i; [reflexivity|]. apply IH. Qed.

Lemma iter_next_covers n i e : i < n -> e < n -> exists d, d < n /\ iter_next n d i = e.
Proof.
  intros Hi He. destruct (le_lt_dec i e) as [L|L].
  - exists (e - i). rewrite iter_next_small; lia.
  - (* n-1-i steps to the last slot, one step to slot 0, e more *)
    exists ((n - 1 - i) + S e). split; [lia|].
    rewrite iter_next_add, (iter_next_small n (n - 1 - i) i) by lia. cbn [iter_next].
    unfold next_in. destruct (Nat.eqb_spec (S (i + (n - 1 - i))) n); [|lia].
    apply (iter_next_small n e 0). lia.
Qed.

Lemma length_setc l : forall p c, length (setc l p c) = length l.
Proof. induction l as [|x l IH]; intros [|p] c; cbn [setc length]; rewrite ?IH; reflexivity. Qed.

Lemma getc_setc_same l : forall p c, p < length l -> getc (setc l p c) p = c.
Proof.
  unfold getc. induction l as [|x l IH]; intros p c H; cbn [length] in H; [lia|].
  destruct p as [|p]; cbn [setc nth]; [reflexivity|]. apply IH. lia.
Qed.

Lemma getc_setc_other l : forall p q c, p <> q -> getc (setc l p c) q = getc l q.
Proof.
  unfold getc. induction l as [|x l IH]; intros p q c H; [reflexivity|].
  destruct p as [|p]; destruct q as [|q]; cbn [setc nth]; try reflexivity; try lia.
  apply IH. lia.
Qed.

Lemma getc_oob l p : length l <= p -> getc l p = Empty.
Proof. apply nth_overflow. Qed.

Lemma getc_lt l p : getc l p <> Empty -> p < length l.
Proof. intros H. destruct (le_lt_dec (length l) p) as [L|L]; [|exact L]. destruct (H (getc_oob l p L)). Qed.

Lemma getc_live_lt l p it : getc l p = Live it -> p < length l.
Proof. intros H. apply getc_lt. rewrite H. discriminate. Qed.

Lemma getc_tomb_lt l p : getc l p = Tomb -> p < length l.
Proof. intros H. apply getc_lt. rewrite H. discriminate. Qed.

Lemma getc_setc_cases l p q c :
  (p = q /\ p < length l /\ getc (setc l p c) q = c) \/ (getc (setc l p c) q = getc l q).
Proof.
  destruct (Nat.eq_dec p q) as [<-|E]; [|right; apply getc_setc_other, E].
  destruct (le_lt_dec (length l) p) as [L|L].
  - right. rewrite !getc_oob; rewrite ?length_setc; auto.
  - left. auto using getc_setc_same.
Qed.

Lemma getc_setc_live l p c q x :
  getc (setc l p c) q = Live x -> (p = q /\ c = Live x) \/ getc l q = Live x.
Proof. destruct (getc_setc_cases l p q c) as [(E & _ & G)|G]; rewrite G; auto. Qed.

Lemma getc_repeat n p : getc (repeat Empty n) p = Empty.
Proof.
  unfold getc. revert p. induction n as [|n IH]; intros [|p]; cbn [repeat nth]; auto.
Qed.

Fixpoint walkne (l : list cell) (n i d : nat) : Prop :=
  match d with
  | O => True
  | S d' => getc l i <> Empty /\ walkne l n (next_in n i) d'
  end.

Lemma walkne_iff l n d : forall i,
  walkne l n i d <-> (forall j, j < d -> getc l (iter_next n j i) <> Empty).
Proof.
  induction d as [|d IH]; intros i; cbn [walkne].
  - split; [intros _ j Hj; lia|trivial].
  - rewrite IH. split.
    + intros [H0 H1] [|j] Hj; [exact H0|]. apply H1. lia.
    + intros H. split; [apply (H 0); lia|]. intros j Hj. apply (H (S j)). lia.
Qed.

Lemma walkne_nth l n i d j : walkne l n i d -> j < d -> getc l (iter_next n j i) <> Empty.
Proof. intros H. apply (proj1 (walkne_iff l n d i) H). Qed.

Lemma walkne_prefix l n i d d' : walkne l n i d -> d' <= d -> walkne l n i d'.
Proof. intros H L. apply walkne_iff. intros j Hj. apply (walkne_nth l n i d j H). lia. Qed.

Lemma walkne_stops l n i d d' :
  walkne l n i d' -> getc l (iter_next n d i) = Empty -> d' <= d.
Proof.
  intros H E. destruct (le_lt_dec d' d) as [L|L]; [exact L|]. destruct (walkne_nth l n i d' d H L E).
Qed.

Lemma walkne_setc_nonempty l n i d p c :
  c <> Empty -> walkne l n i d -> walkne (setc l p c) n i d.
Proof.
  intros Hc H. apply walkne_iff. intros j Hj.
  destruct (getc_setc_cases l p (iter_next n j i) c) as [(_ & _ & E)|E]; rewrite E;
    [exact Hc|apply (walkne_nth l n i d j H Hj)].
Qed.

(* reclaim safety for a single walk *)
Lemma walkne_setc_empty l n i d p :
  getc l (next_in n p) = Empty ->
  walkne l n i d ->
  (getc l (iter_next n d i) <> Empty \/ iter_next n d i <> next_in n p) ->
  walkne (setc l p Empty) n i d.
Proof.
  intros Hnx H HT. apply walkne_iff. intros j Hj.
  destruct (Nat.eq_dec p (iter_next n j i)) as [E|E].
  - (* p on the walk: its successor is on the walk too, or is the terminal slot *)
    exfalso. assert (N : iter_next n (S j) i = next_in n p) by (rewrite iter_next_S, E; reflexivity).
    destruct (Nat.eq_dec (S j) d) as [<-|D].
    + rewrite N in HT. tauto.
    + apply (walkne_nth l n i d (S j) H); [lia|]. rewrite N. exact Hnx.
  - rewrite getc_setc_other by exact E. apply (walkne_nth l n i d j H Hj).
Qed.

Lemma walkne_full_absurd l n i e :
  i < n -> e < n -> getc l e = Empty -> walkne l n i n -> False.
Proof.
  intros Hi He HE H. destruct (iter_next_covers n i e Hi He) as (d & Hd & <-).
  apply (walkne_nth l n i n d H Hd HE).
Qed.

Definition is_live (c : cell) : bool := match c with Live _ => true | _ => false end.
Definition is_tomb (c : cell) : bool := match c with Tomb => true | _ => false end.
Definition is_empty (c : cell) : bool := match c with Empty => true | _ => false end.

Fixpoint cnt (f : cell -> bool) (l : list cell) : nat :=
  match l with [] => 0 | c :: r => (if f c then 1 else 0) + cnt f r end.

Definition nlive (l : list cell) : nat := cnt is_live l.
Definition ntomb (l : list cell) : nat := cnt is_tomb l.
Definition nempty (l : list cell) : nat := cnt is_empty l.

Lemma cnt_setc f l : forall p c, p < length l ->
  cnt f (setc l p c) + (if f (getc l p) then 1 else 0) = cnt f l + (if f c then 1 else 0).
Proof.
  unfold getc. induction l as [|x l IH]; intros p c H; cbn [length] in H; [lia|].
  destruct p as [|p]; cbn [setc cnt nth]; [lia|]. pose proof (IH p c ltac:(lia)). lia.
Qed.

Lemma counts_setc l p c : p < length l ->
  nlive (setc l p c) + (if is_live (getc l p) then 1 else 0) = nlive l + (if is_live c then 1 else 0) /\
  ntomb (setc l p c) + (if is_tomb (getc l p) then 1 else 0) = ntomb l + (if is_tomb c then 1 else 0).
Proof. intros H. split; apply cnt_setc, H. Qed.

Lemma cnt_total l : nlive l + ntomb l + nempty l = length l.
Proof.
  unfold nlive, ntomb, nempty. induction l as [|x l IH]; [reflexivity|].
  cbn [cnt length]. destruct x; cbn [is_live is_tomb is_empty]; lia.
Qed.

Lemma cnt_pos_ex f l : 0 < cnt f l -> exists p, p < length l /\ f (getc l p) = true.
Proof.
  unfold getc. induction l as [|x l IH]; cbn [cnt length]; intros H; [lia|].
  destruct (f x) eqn:E.
  - exists 0. split; [lia|exact E].
  - destruct (IH ltac:(lia)) as (p & Hp & Fp). exists (S p). split; [lia|exact Fp].
Qed.

Lemma cnt_repeat_empty f n : f Empty = false -> cnt f (repeat Empty n) = 0.
Proof. intros H. induction n as [|n IH]; cbn [repeat cnt]; [reflexivity|]. rewrite H, IH. reflexivity. Qed.

Lemma count_live_nlive l : count_live l = Z.of_nat (nlive l).
Proof.
  unfold count_live, nlive. rewrite <- (Z.add_0_l (Z.of_nat _)). generalize 0%Z.
  induction l as [|x l IH]; intros a; cbn [fold_left cnt]; [lia|].
  rewrite IH. destruct x; cbn [is_live]; lia.
Qed.

Lemma empty_exists l : nlive l + ntomb l < length l -> exists e, e < length l /\ getc l e = Empty.
Proof.
  intros H. pose proof (cnt_total l) as T.
  destruct (cnt_pos_ex is_empty l) as (p & Hp & Fp); [unfold nempty in T; lia|].
  exists p. split; [exact Hp|]. destruct (getc l p); [reflexivity|discriminate Fp|discriminate Fp].
Qed.

Definition lives (l : list cell) : list item :=
  flat_map (fun c => match c with Live it => [it] | _ => [] end) l.

Lemma contents_lives t : contents t = lives (slots t).
Proof. reflexivity. Qed.

Lemma lives_cons c l : lives (c :: l) = match c with Live it => it :: lives l | _ => lives l end.
Proof. destruct c; reflexivity. Qed.

Lemma length_lives l : length (lives l) = nlive l.
Proof.
  unfold nlive. induction l as [|x l IH]; [reflexivity|].
  rewrite lives_cons. cbn [cnt]. destruct x; cbn [is_live length]; lia.
Qed.

Definition resident (l : list cell) (x : item) : Prop := exists p, getc l p = Live x.

Lemma resident_lives l x : resident l x <-> In x (lives l).
Proof.
  unfold resident, lives. rewrite in_flat_map. split.
  - intros [p H]. exists (Live x). split; [|left; reflexivity].
    rewrite <- H. apply nth_In, (getc_live_lt l p x H).
  - intros (c & I & Ic). destruct c as [| |y]; [destruct Ic|destruct Ic|]. destruct Ic as [->|[]].
    destruct (In_nth l _ Empty I) as (p & _ & E). exists p. exact E.
Qed.

Definition uniq (l : list cell) : Prop :=
  forall p q a b, getc l p = Live a -> getc l q = Live b -> ikey a = ikey b -> p = q.

Lemma uniq_tail c l : uniq (c :: l) -> uniq l.
Proof. intros U p q a b Ha Hb K. pose proof (U (S p) (S q) a b Ha Hb K). lia. Qed.

Lemma uniq_NoDup l : uniq l -> NoDup (map ikey (lives l)).
Proof.
  induction l as [|c l IH]; intros U; [constructor|].
  rewrite lives_cons. pose proof (IH (uniq_tail c l U)) as N.
  destruct c as [| |it]; [exact N|exact N|].
  cbn [map]. constructor; [|exact N].
  intros I. apply in_map_iff in I. destruct I as (x & Kx & Ix).
  apply resident_lives in Ix. destruct Ix as [p Hp].
  discriminate (U 0 (S p) it x eq_refl Hp (eq_sym Kx)).
Qed.

Lemma uniq_same l p q a b :
  uniq l -> getc l p = Live a -> getc l q = Live b -> ikey a = ikey b -> a = b.
Proof. intros U Ha Hb K. rewrite (U p q a b Ha Hb K) in Ha. congruence. Qed.

Definition amapl (l : list cell) (k : Z) : option item :=
  find (fun it => (ikey it =? k)%Z) (lives l).
Definition amap (t : htable) (k : Z) : option item := amapl (slots t) k.

Lemma amap_contents t k : amap t k = find (fun it => (ikey it =? k)%Z) (contents t).
Proof. reflexivity. Qed.

Lemma amapl_some l k x : amapl l k = Some x -> resident l x /\ ikey x = k.
Proof.
  unfold amapl. intros H. apply find_some in H. destruct H as [I K].
  split; [apply resident_lives; exact I|]. apply Z.eqb_eq. exact K.
Qed.

Lemma amapl_none l k x : amapl l k = None -> resident l x -> ikey x <> k.
Proof.
  unfold amapl. intros H R. apply resident_lives in R.
  apply Z.eqb_neq. apply (find_none _ _ H x R).
Qed.

Lemma amapl_present l x : uniq l -> resident l x -> amapl l (ikey x) = Some x.
Proof.
  intros U [p Hp]. destruct (amapl l (ikey x)) as [y|] eqn:E.
  - apply amapl_some in E. destruct E as [[q Hq] K]. f_equal. apply (uniq_same l q p y x U Hq Hp K).
  - destruct (amapl_none l (ikey x) x E); [exists p; exact Hp|reflexivity].
Qed.

Lemma amapl_absent l k : (forall x, resident l x -> ikey x <> k) -> amapl l k = None.
Proof.
  intros H. destruct (amapl l k) as [y|] eqn:E; [|reflexivity].
  apply amapl_some in E. destruct E as [R K]. destruct (H y R K).
Qed.

Lemma absent_iff_amapl l k : uniq l -> ((forall x, resident l x -> ikey x <> k) <-> amapl l k = None).
Proof.
  intros U. split; [apply amapl_absent|].
  intros A x Rx <-. rewrite (amapl_present l x U Rx) in A. discriminate A.
Qed.

Lemma amapl_ext l l' k :
  uniq l -> uniq l' ->
  (forall x, ikey x = k -> (resident l x <-> resident l' x)) ->
  amapl l' k = amapl l k.
Proof.
  intros U U' H. destruct (amapl l k) as [y|] eqn:E.
  - apply amapl_some in E. destruct E as [R <-]. apply amapl_present, H; auto.
  - apply amapl_absent. intros x R' K. apply (amapl_none l k x E); [|exact K]. apply H; assumption.
Qed.

Lemma uniq_setc_nonlive l p c : is_live c = false -> uniq l -> uniq (setc l p c).
Proof.
  intros Hc U a b x y Hx Hy.
  apply getc_setc_live in Hx as [[_ ->]|Hx]; [discriminate Hc|].
  apply getc_setc_live in Hy as [[_ ->]|Hy]; [discriminate Hc|]. apply (U a b x y Hx Hy).
Qed.

Lemma uniq_setc_live l p it :
  uniq l ->
  (forall q x, q <> p -> getc l q = Live x -> ikey x <> ikey it) ->
  uniq (setc l p (Live it)).
Proof.
  intros U F a b x y Hx Hy K.
  apply getc_setc_live in Hx as [[<- Ex]|Hx]; apply getc_setc_live in Hy as [[<- Ey]|Hy];
    try injection Ex as <-; try injection Ey as <-.
  - reflexivity.
  - destruct (Nat.eq_dec b p) as [->|D]; [reflexivity|]. destruct (F b y D Hy (eq_sym K)).
  - destruct (Nat.eq_dec a p) as [->|D]; [reflexivity|]. destruct (F a x D Hx K).
  - apply (U a b x y Hx Hy K).
Qed.

Lemma resident_setc l j c x : uniq l -> j < length l ->
  (resident (setc l j c) x <-> c = Live x \/ (resident l x /\ getc l j <> Live x)).
Proof.
  intros U Hj. split.
  - intros [p Hp]. destruct (Nat.eq_dec j p) as [<-|D].
    + left. rewrite getc_setc_same in Hp by exact Hj. exact Hp.
    + rewrite getc_setc_other in Hp by exact D.
      right. split; [exists p; exact Hp|]. intros Q. apply D, (U j p x x Q Hp eq_refl).
  - intros [->|[[p Hp] N]].
    + exists j. apply getc_setc_same, Hj.
    + exists p. rewrite getc_setc_other; [exact Hp|]. intros ->. exact (N Hp).
Qed.

Definition key_is (k : Z) (c : cell) : bool :=
  match c with Live x => (k =? ikey x)%Z | _ => false end.

Lemma amapl_setc l j c k :
  uniq l -> uniq (setc l j c) -> j < length l ->
  amapl (setc l j c) k =
  if key_is k c then match c with Live it => Some it | _ => None end
  else if key_is k (getc l j) then None else amapl l k.
Proof.
  intros U U' Hj.
  assert (KI : forall x, ikey x = k -> key_is k (Live x) = true) by (intros x <-; apply Z.eqb_refl).
  destruct (key_is k c) eqn:Kc; [|destruct (key_is k (getc l j)) eqn:Ko].
  - destruct c as [| |it]; try discriminate Kc. apply Z.eqb_eq in Kc as ->.
    apply amapl_present; [exact U'|]. apply resident_setc; auto.
  - apply amapl_absent. intros x R K. apply resident_setc in R as [->|[[p Hp] N]]; try assumption.
    + rewrite (KI x K) in Kc. discriminate Kc.
    + destruct (getc l j) as [| |y] eqn:G; try discriminate Ko. apply Z.eqb_eq in Ko.
      apply N. f_equal. symmetry. apply (uniq_same l p j x y U Hp G). congruence.
  - apply amapl_ext; [exact U|exact U'|]. intros x K. rewrite resident_setc by assumption. split.
    + intros R. right. split; [exact R|]. intros Q. rewrite Q, (KI x K) in Ko. discriminate Ko.
    + intros [->|[R _]]; [|exact R]. rewrite (KI x K) in Kc. discriminate Kc.
Qed.

(* Every loop of the model walks from a start slot over Tomb cells and the Live items it rejects, and
   stops on the first Empty cell or accepted item.  [stops P l n i d]: that first stop is d steps after
   slot i, for the acceptance test P. *)
Definition stops (P : item -> bool) (l : list cell) (n i d : nat) : Prop :=
  walkne l n i d /\
  (forall e x, e < d -> getc l (iter_next n e i) = Live x -> P x = false) /\
  match getc l (iter_next n d i) with Empty => True | Tomb => False | Live x => P x = true end.

Lemma stops_here P l n i :
  match getc l i with Empty => True | Tomb => False | Live x => P x = true end -> stops P l n i 0.
Proof. intros H. split; [exact I|]. split; [intros e x He; lia|exact H]. Qed.

Lemma stops_later P l n i d :
  match getc l i with Empty => False | Tomb => True | Live x => P x = false end ->
  stops P l n (next_in n i) d -> stops P l n i (S d).
Proof.
  intros H (W & NM & E). split; [|split; [|exact E]].
  - split; [|exact W]. destruct (getc l i); [destruct H|discriminate|discriminate].
  - intros [|e] x He G; cbn [iter_next] in G; [rewrite G in H; exact H|apply (NM e x); [lia|exact G]].
Qed.

Lemma lookup_from_spec l n h k : forall fuel i,
  match lookup_from fuel l n i h k with
  | None => walkne l n i fuel
  | Some r => exists d, d < fuel /\ stops (fun x => matches x h k) l n i d /\
                r = match getc l (iter_next n d i) with Live x => Some x | _ => None end
  end.
Proof.
  induction fuel as [|f IH]; intros i; cbn [lookup_from]; [exact I|]. specialize (IH (next_in n i)).
  destruct (getc l i) as [| |x] eqn:G; [| |destruct (matches x h k) eqn:M].
  (* on Empty and on a match the loop stops here; on Tomb and on a mismatch it goes on *)
  1,3: exists 0; cbn [iter_next]; rewrite G; split; [lia|]; split; [apply stops_here; rewrite G|]; trivial.
  all: destruct (lookup_from f l n (next_in n i) h k) as [r|]; [|split; [rewrite G; discriminate|exact IH]].
  all: destruct IH as (d & Hd & St & E); exists (S d); split; [lia|]; split; [|exact E].
  all: apply stops_later; [rewrite G; trivial|exact St].
Qed.

(* walk_for remembers the first tombstone it passes: what it reports when it stops on an Empty cell d
   steps after slot i, having started with ft *)
Definition ft_ok (l : list cell) (n i d : nat) (ft : option nat) (j : nat) (tomb : bool) : Prop :=
  match ft with
  | Some f => j = f /\ tomb = true
  | None => (tomb = false /\ j = iter_next n d i) \/
            (tomb = true /\ exists d', d' < d /\ j = iter_next n d' i /\ getc l j = Tomb)
  end.

Lemma ft_ok_later l n i d ft j tomb :
  ft_ok l n (next_in n i) d ft j tomb -> ft_ok l n i (S d) ft j tomb.
Proof.
  destruct ft as [f0|]; cbn [ft_ok]; [trivial|]. intros [FT|(FT & d' & Hd' & FJ & GT)]; [left; exact FT|].
  right. split; [exact FT|]. exists (S d'). split; [lia|]. split; [exact FJ|exact GT].
Qed.

Lemma walk_for_spec l n h k : forall fuel i ft,
  match walk_for fuel l n i ft h k with
  | PFuel => walkne l n i fuel
  | PFound s x => getc l s = Live x /\ matches x h k = true
  | PEmpty j tomb => exists d, d < fuel /\ stops (fun x => matches x h k) l n i d /\
                       getc l (iter_next n d i) = Empty /\ ft_ok l n i d ft j tomb
  end.
Proof.
  induction fuel as [|f IH]; intros i ft; cbn [walk_for]; [exact I|].
  destruct (getc l i) as [| |x] eqn:G; [| |destruct (matches x h k) eqn:M; [auto|]].
  1: { assert (St : stops (fun x => matches x h k) l n i 0) by (apply stops_here; rewrite G; exact I).
       destruct ft; exists 0; (split; [lia|]); (split; [exact St|]); (split; [exact G|]);
         cbn [ft_ok iter_next]; auto. }
  (* the walk goes on: past a tombstone, which it remembers if it is the first, or past a mismatch *)
  1: specialize (IH (next_in n i) (match ft with Some _ => ft | None => Some i end)).
  2: specialize (IH (next_in n i) ft).
  all: destruct (walk_for f l n (next_in n i) _ h k) as [j tomb|s y|];
         [|exact IH|split; [rewrite G; discriminate|exact IH]].
  all: destruct IH as (d & Hd & St & E & FT); exists (S d); split; [lia|];
         (split; [apply stops_later; [rewrite G; trivial|exact St]|]); split; [exact E|].
  2: apply ft_ok_later, FT.
  destruct ft as [f0|]; [apply ft_ok_later, FT|]. destruct FT as [-> ->].
  right. split; [reflexivity|]. exists 0. split; [lia|]. split; [reflexivity|exact G].
Qed.

Lemma first_empty_spec l n : forall fuel i,
  match first_empty fuel l n i with
  | None => walkne l n i fuel
  | Some j => exists d, d < fuel /\ iter_next n d i = j /\ walkne l n i d /\ getc l j = Empty
  end.
Proof.
  induction fuel as [|f IH]; intros i; cbn [first_empty]; [exact I|]. specialize (IH (next_in n i)).
  destruct (getc l i) as [| |x] eqn:G.
  1: { exists 0. split; [lia|]. split; [reflexivity|]. split; [exact I|exact G]. }
  (* a Tomb or Live cell: the search goes on, and one more cell of the walk is non-Empty *)
  all: assert (NE : getc l i <> Empty) by (rewrite G; discriminate).
  all: destruct (first_empty f l n (next_in n i)) as [j|]; [|split; [exact NE|exact IH]].
  all: destruct IH as (d & Hd & E & W & GE); exists (S d); split; [lia|]; split; [exact E|].
  all: split; [split; [exact NE|exact W]|exact GE].
Qed.

Definition ex_test (cur it : item) : bool :=
  ((norm (ihash cur) =? norm (ihash it))%Z && (iid cur =? iid it)%Z)%bool.

Lemma find_exact_spec l n it : forall fuel i,
  match find_exact fuel l n i it with
  | None => walkne l n i fuel
  | Some None => exists d, d < fuel /\ stops (fun x => ex_test x it) l n i d /\
                   getc l (iter_next n d i) = Empty
  | Some (Some s) => exists d cur, d < fuel /\ iter_next n d i = s /\ getc l s = Live cur /\
                       ex_test cur it = true
  end.
Proof.
  induction fuel as [|f IH]; intros i; cbn [find_exact]; [exact I|]. specialize (IH (next_in n i)).
  destruct (getc l i) as [| |x] eqn:G; [| |fold (ex_test x it); destruct (ex_test x it) eqn:M].
  (* Empty: a miss here; the item sought: a hit here; Tomb or another item: the search goes on, and the
     induction hypothesis gives a hit, a miss or exhausted fuel one step later *)
  1: exists 0; split; [lia|]; split; [apply stops_here; rewrite G; exact I|exact G].
  2: exists 0, x; auto with arith.
  all: destruct (find_exact f l n (next_in n i) it) as [[s|]|]; [| |split; [rewrite G; discriminate|exact IH]].
  1,3: destruct IH as (d & cur & Hd & E & R); exists (S d), cur; split; [lia|split; [exact E|exact R]].
  all: destruct IH as (d & Hd & St & E); exists (S d); split; [lia|]; split; [|exact E].
  all: apply stops_later; [rewrite G; trivial|exact St].
Qed.

Lemma find_exact_fuel l n it : forall fuel i, find_exact fuel l n i it = None -> walkne l n i fuel.
Proof. intros fuel i E. pose proof (find_exact_spec l n it fuel i) as S. rewrite E in S. exact S. Qed.

Lemma find_exact_hit l n it s : forall fuel i, find_exact fuel l n i it = Some (Some s) ->
  exists d cur, d < fuel /\ iter_next n d i = s /\ getc l s = Live cur /\ ex_test cur it = true.
Proof. intros fuel i E. pose proof (find_exact_spec l n it fuel i) as S. rewrite E in S. exact S. Qed.

Lemma home_in_lt n h : 0 < n -> home_in n h < n.
Proof.
  intros H. unfold home_in.
  pose proof (Z.mod_pos_bound (norm h) (Z.of_nat n) ltac:(lia)) as B. lia.
Qed.

Lemma home_in_norm n h h' : norm h = norm h' -> home_in n h = home_in n h'.
Proof. unfold home_in. intros E. rewrite E. reflexivity. Qed.

Lemma matches_true x h k : matches x h k = true -> norm (ihash x) = norm h /\ ikey x = k.
Proof. unfold matches. rewrite andb_true_iff, !Z.eqb_eq. trivial. Qed.

Lemma ex_test_true cur it : ex_test cur it = true -> norm (ihash cur) = norm (ihash it) /\ iid cur = iid it.
Proof. unfold ex_test. rewrite andb_true_iff, !Z.eqb_eq. trivial. Qed.

Section Spec.
Variable hashf : Z -> Z.

Definition consistent (it : item) : Prop := ihash it = hashf (ikey it).

(* slot p is reachable from the home of hash h along non-Empty cells in fewer than n steps *)
Definition reach_at (l : list cell) (n : nat) (h : Z) (p : nat) : Prop :=
  exists d, d < n /\ iter_next n d (home_in n h) = p /\ walkne l n (home_in n h) d.

Record LWF (l : list cell) (n : nat) : Prop := {
  lwf_len : length l = n;
  lwf_cons : forall p it, getc l p = Live it -> consistent it;
  lwf_uniq : uniq l;
  lwf_reach : forall p it, getc l p = Live it -> reach_at l n (ihash it) p
}.

Record WFcore (t : htable) : Prop := {
  wc_n : 8 <= nslots t;
  wc_err : herr t = false;
  wc_l : LWF (slots t) (nslots t);
  wc_live : live t = Z.of_nat (nlive (slots t));
  wc_tombs : tombs t = Z.of_nat (ntomb (slots t))
}.

Definition load_ok (t : htable) : Prop :=
  ((live t + tombs t) * htLoadDen < Z.of_nat (nslots t) * htLoadNum)%Z.

(* no cursor in flight *)
Record WF (t : htable) : Prop := {
  wf_core : WFcore t;
  wf_pin : pinned t = None;
  wf_load : load_ok t
}.

(* a probe cursor for the absent key kc is parked on slot q *)
Record WFpin (t : htable) (kc : Z) (q : nat) : Prop := {
  wp_core : WFcore t;
  wp_pin : pinned t = Some q;
  wp_load : load_ok t;
  wp_absent : forall x, resident (slots t) x -> ikey x <> kc;
  wp_q : q < nslots t;
  wp_cell : is_live (getc (slots t) q) = false;
  wp_path : reach_at (slots t) (nslots t) (hashf kc) q
}.

Lemma WFcore_uniq t : WFcore t -> uniq (slots t).
Proof. intros C. apply (lwf_uniq _ _ (wc_l _ C)). Qed.

Lemma LWF_resident_cons l n x : LWF l n -> resident l x -> consistent x.
Proof. intros LW [p Hp]. apply (lwf_cons _ _ LW p x Hp). Qed.

Lemma matches_consistent x k : consistent x -> ikey x = k -> matches x (hashf k) k = true.
Proof. unfold consistent, matches. intros -> <-. rewrite !Z.eqb_refl. reflexivity. Qed.

Lemma reach_at_norm l n h h' p : norm h = norm h' -> reach_at l n h p -> reach_at l n h' p.
Proof. unfold reach_at. intros E H. rewrite <- (home_in_norm n h h' E). exact H. Qed.

Lemma reach_at_setc_nonempty l n h p q c :
  c <> Empty -> reach_at l n h p -> reach_at (setc l q c) n h p.
Proof. intros Hc (d & Hd & E & W). exists d. auto using walkne_setc_nonempty. Qed.

Lemma reach_at_setc_empty l n h p q :
  getc l (next_in n q) = Empty ->
  (getc l p <> Empty \/ p <> next_in n q) ->
  reach_at l n h p -> reach_at (setc l q Empty) n h p.
Proof.
  intros Hnx HT (d & Hd & E & W). exists d. split; [exact Hd|]. split; [exact E|].
  apply walkne_setc_empty; [exact Hnx|exact W|]. rewrite E. exact HT.
Qed.

Lemma reach_at_lt l n h p : 0 < n -> reach_at l n h p -> p < n.
Proof. intros Hn (d & _ & <- & _). apply iter_next_lt, home_in_lt, Hn. Qed.

Lemma stops_empty_excl P l n h d x :
  LWF l n -> stops P l n (home_in n h) d -> getc l (iter_next n d (home_in n h)) = Empty ->
  resident l x -> norm (ihash x) = norm h -> P x = false.
Proof.
  intros LW (_ & NM & _) GE [p Hp] HN.
  destruct (lwf_reach _ _ LW p x Hp) as (d' & _ & Ep & W'). rewrite (home_in_norm n _ _ HN) in Ep, W'.
  pose proof (walkne_stops l n _ d d' W' GE) as LE. rewrite <- Ep in Hp.
  apply (NM d' x); [|exact Hp]. destruct (Nat.eq_dec d' d) as [->|]; [congruence|lia].
Qed.

Lemma scan_absent l n k d :
  LWF l n -> stops (fun x => matches x (hashf k) k) l n (home_in n (hashf k)) d ->
  getc l (iter_next n d (home_in n (hashf k))) = Empty ->
  forall x, resident l x -> ikey x <> k.
Proof.
  intros LW St GE x R K. pose proof (LWF_resident_cons l n x LW R) as Cx.
  assert (HN : norm (ihash x) = norm (hashf k)) by (rewrite Cx, K; reflexivity).
  pose proof (stops_empty_excl _ l n (hashf k) d x LW St GE R HN) as F. cbn beta in F.
  rewrite (matches_consistent x k Cx K) in F. discriminate F.
Qed.

Lemma LWF_set_live l n p it :
  LWF l n -> consistent it -> reach_at l n (ihash it) p ->
  (forall q x, q <> p -> getc l q = Live x -> ikey x <> ikey it) ->
  LWF (setc l p (Live it)) n.
Proof.
  intros [Len Cons U R] Cit Rit Fresh. constructor.
  - rewrite length_setc. exact Len.
  - intros s x Hs. apply getc_setc_live in Hs as [[_ E]|Hs]; [injection E as <-; exact Cit|eauto].
  - apply uniq_setc_live; assumption.
  - intros s x Hs. apply reach_at_setc_nonempty; [discriminate|].
    apply getc_setc_live in Hs as [[<- E]|Hs]; [injection E as <-; exact Rit|eauto].
Qed.

Lemma LWF_set_tomb l n p : LWF l n -> LWF (setc l p Tomb) n.
Proof.
  intros [Len Cons U R]. constructor.
  - rewrite length_setc. exact Len.
  - intros s x Hs. apply getc_setc_live in Hs as [[_ E]|Hs]; [discriminate E|eauto].
  - apply uniq_setc_nonlive; [reflexivity|exact U].
  - intros s x Hs. apply reach_at_setc_nonempty; [discriminate|].
    apply getc_setc_live in Hs as [[_ E]|Hs]; [discriminate E|eauto].
Qed.

(* reclaim safety: a tombstone whose successor is Empty may be turned back into Empty.  (The third
   hypothesis is not used: no walk to a Live cell passes p, it would have to go on into the Empty
   successor.) *)
Lemma LWF_set_empty l n p :
  LWF l n -> getc l (next_in n p) = Empty -> is_live (getc l p) = false ->
  LWF (setc l p Empty) n.
Proof.
  intros [Len Cons U R] Hnx _. constructor.
  - rewrite length_setc. exact Len.
  - intros s x Hs. apply getc_setc_live in Hs as [[_ E]|Hs]; [discriminate E|eauto].
  - apply uniq_setc_nonlive; [reflexivity|exact U].
  - intros s x Hs. apply getc_setc_live in Hs as [[_ E]|Hs]; [discriminate E|].
    apply reach_at_setc_empty; [exact Hnx| |eauto]. left. rewrite Hs. discriminate.
Qed.

Lemma WFcore_with_slots t l lv tb pin :
  WFcore t -> LWF l (nslots t) -> lv = Z.of_nat (nlive l) -> tb = Z.of_nat (ntomb l) ->
  WFcore (with_slots t l lv tb pin).
Proof.
  intros [N Err _ _ _] LW -> ->. pose proof (lwf_len _ _ LW) as Len.
  constructor; unfold nslots in *; cbn [with_slots slots herr live tombs]; rewrite ?Len; auto.
Qed.

Lemma load_ok_with_slots t l lv tb p :
  length l = nslots t -> (lv + tb <= live t + tombs t)%Z -> load_ok t -> load_ok (with_slots t l lv tb p).
Proof.
  unfold load_ok, nslots. cbn [with_slots slots live tombs]. intros E H L. rewrite E.
  unfold htLoadDen, htLoadNum in *. lia.
Qed.

Lemma core_empty_exists t :
  WFcore t -> load_ok t -> exists e, e < nslots t /\ getc (slots t) e = Empty.
Proof.
  intros C L. apply empty_exists. unfold load_ok, htLoadDen, htLoadNum, nslots in L.
  rewrite (wc_live _ C), (wc_tombs _ C) in L. lia.
Qed.

(* one full turn from any home slot meets an Empty cell, so the fuel of every loop suffices *)
Lemma full_walk_absurd t h :
  WFcore t -> load_ok t -> ~ walkne (slots t) (nslots t) (home_in (nslots t) h) (nslots t).
Proof.
  intros C L W. destruct (core_empty_exists t C L) as (e & He & GE). pose proof (wc_n _ C) as N.
  apply (walkne_full_absurd _ _ _ e (home_in_lt (nslots t) h ltac:(lia)) He GE W).
Qed.

Lemma lookup_core t k : WFcore t -> load_ok t -> lookup t (hashf k) k = amap t k.
Proof.
  intros C L. pose proof (wc_l _ C) as LW. unfold lookup, amap.
  pose proof (lookup_from_spec (slots t) (nslots t) (hashf k) k (nslots t) (home_in (nslots t) (hashf k))) as S.
  destruct (lookup_from _ _ _ _ _ _) as [r|]; [|destruct (full_walk_absurd t _ C L S)].
  destruct S as (d & _ & St & ->). symmetry.
  destruct (getc (slots t) (iter_next _ d _)) as [| |x] eqn:G.
  - apply amapl_absent, (scan_absent _ _ k d LW St G).
  - destruct St as (_ & _ & F). rewrite G in F. destruct F.
  - destruct St as (_ & _ & M). rewrite G in M. apply matches_true in M as [_ <-].
    apply amapl_present; [apply (lwf_uniq _ _ LW)|]. eexists. exact G.
Qed.

Theorem lookup_spec t k : WF t -> lookup t (hashf k) k = amap t k.
Proof. intros [C _ L]. apply lookup_core; assumption. Qed.

Theorem lookup_spec_pin t kc q k : WFpin t kc q -> lookup t (hashf k) k = amap t k.
Proof. intros W. apply lookup_core; [apply (wp_core _ _ _ W)|apply (wp_load _ _ _ W)]. Qed.

Theorem lookup_fuel_ok t k : WF t ->
  lookup_from (nslots t) (slots t) (nslots t) (home_in (nslots t) (hashf k)) (hashf k) k <> None.
Proof.
  intros [C _ L] E. apply (full_walk_absurd t (hashf k) C L).
  pose proof (lookup_from_spec (slots t) (nslots t) (hashf k) k (nslots t) (home_in (nslots t) (hashf k))) as S.
  rewrite E in S. exact S.
Qed.

Theorem counts_match t : WFcore t -> live t = Z.of_nat (length (contents t)).
Proof. intros C. rewrite contents_lives, length_lives. apply (wc_live _ C). Qed.

(* the common part of the operations that write a Live cell into slot j, whatever was there *)
Lemma set_live_core t j it lv' tb' pin :
  WFcore t -> j < nslots t -> consistent it ->
  reach_at (slots t) (nslots t) (ihash it) j ->
  (forall q x, q <> j -> getc (slots t) q = Live x -> ikey x <> ikey it) ->
  (forall x, getc (slots t) j = Live x -> ikey x = ikey it) ->
  lv' = (live t + (if is_live (getc (slots t) j) then 0 else 1))%Z ->
  tb' = (tombs t - (if is_tomb (getc (slots t) j) then 1 else 0))%Z ->
  WFcore (with_slots t (setc (slots t) j (Live it)) lv' tb' pin) /\
  (forall k, amap (with_slots t (setc (slots t) j (Live it)) lv' tb' pin) k
             = if (k =? ikey it)%Z then Some it else amap t k).
Proof.
  intros C Hj Cit Rit Fresh Same -> ->.
  assert (LW' : LWF (setc (slots t) j (Live it)) (nslots t)) by (apply LWF_set_live; auto using wc_l).
  destruct (counts_setc (slots t) j (Live it) Hj) as [CL CT]. cbn [is_live is_tomb] in CL, CT.
  split.
  - apply WFcore_with_slots; [exact C|exact LW'| |].
    + rewrite (wc_live _ C). destruct (is_live (getc (slots t) j)); lia.
    + rewrite (wc_tombs _ C). destruct (is_tomb (getc (slots t) j)); lia.
  - intros k. unfold amap. cbn [with_slots slots].
    rewrite (amapl_setc _ j (Live it) k (WFcore_uniq t C) (lwf_uniq _ _ LW') Hj). cbn [key_is].
    destruct (k =? ikey it)%Z eqn:E; [reflexivity|].
    destruct (getc (slots t) j) as [| |x]; cbn [key_is]; try reflexivity.
    rewrite (Same x eq_refl), E. reflexivity.
Qed.

(* replacing the item of a key in place: swap_at, and store on a resident key *)
Theorem swap_at_spec t s old it :
  WF t -> getc (slots t) s = Live old -> ikey it = ikey old -> consistent it ->
  WF (swap_at t s it) /\
  (forall k, amap (swap_at t s it) k = if (k =? ikey it)%Z then Some it else amap t k).
Proof.
  intros [C P L] G K Cit. destruct (wc_l _ C) as [_ Cons U R]. unfold swap_at.
  destruct (set_live_core t s it (live t) (tombs t) (pinned t) C (getc_live_lt _ _ _ G) Cit) as [C1 A1];
    rewrite ?G; cbn [is_live is_tomb]; try lia.
  - apply reach_at_norm with (h := ihash old); [|apply (R s old G)].
    rewrite (Cons s old G), Cit, K. reflexivity.
  - intros q x D Gq Kx. apply D, (U q s x old Gq G). congruence.
  - intros x [= <-]. symmetry. exact K.
  - split; [|exact A1]. constructor; [exact C1|exact P|].
    apply load_ok_with_slots; [apply length_setc|lia|exact L].
Qed.

(* inserting a fresh key into a non-Live reachable slot (store on an absent key, publish) *)
Lemma insert_core t j it tb' pin :
  WFcore t -> consistent it ->
  (forall x, resident (slots t) x -> ikey x <> ikey it) ->
  j < nslots t -> is_live (getc (slots t) j) = false ->
  reach_at (slots t) (nslots t) (ihash it) j ->
  tb' = (tombs t - (if is_tomb (getc (slots t) j) then 1 else 0))%Z ->
  WFcore (with_slots t (setc (slots t) j (Live it)) (live t + 1) tb' pin) /\
  (forall k, amap (with_slots t (setc (slots t) j (Live it)) (live t + 1) tb' pin) k
             = if (k =? ikey it)%Z then Some it else amap t k).
Proof.
  intros C Cit Abs Hj NL Rj Etb.
  apply set_live_core; try assumption.
  - intros q x _ Gq. apply Abs. exists q. exact Gq.
  - intros x Gx. rewrite Gx in NL. discriminate NL.
  - rewrite NL. reflexivity.
Qed.

(* the new array while rehash fills it, and the items reinserted so far *)
Record RInv (newN : nat) (a : list cell) (L : list item) : Prop := {
  ri_lwf : LWF a newN;
  ri_tomb : ntomb a = 0;
  ri_live : nlive a = length L;
  ri_res : forall x, resident a x <-> In x L
}.

Lemma RInv_init newN : RInv newN (repeat Empty newN) [].
Proof.
  assert (NL : forall p x, getc (repeat Empty newN) p <> Live x) by (intros p x; rewrite getc_repeat; discriminate).
  constructor; [constructor|..]; try (apply cnt_repeat_empty; reflexivity).
  - apply repeat_length.
  - intros p it H. destruct (NL p it H).
  - intros p q a b H. destruct (NL p a H).
  - intros p it H. destruct (NL p it H).
  - intros x. split; [intros [p H]; destruct (NL p x H)|intros []].
Qed.

Lemma reinsert_step newN a L it :
  0 < newN -> RInv newN a L -> consistent it -> ~ In (ikey it) (map ikey L) -> length L < newN ->
  exists a', reinsert newN (a, false) (Live it) = (a', false) /\ RInv newN a' (L ++ [it]).
Proof.
  intros Hn [LW NT NL Res] Cit Fresh HL. pose proof (lwf_len _ _ LW) as Len.
  pose proof (home_in_lt newN (ihash it) Hn) as Hh.
  unfold reinsert. cbn [fst snd].
  pose proof (first_empty_spec a newN newN (home_in newN (ihash it))) as FE.
  destruct (first_empty newN a newN (home_in newN (ihash it))) as [j|].
  - destruct FE as (d & Hd & Ej & W & Gj).
    assert (Hj : j < length a) by (rewrite Len, <- Ej; apply iter_next_lt, Hh).
    exists (setc a j (Live it)). split; [reflexivity|].
    destruct (counts_setc a j (Live it) Hj) as [CL CT]. rewrite Gj in CL, CT. cbn [is_live is_tomb] in CL, CT.
    constructor.
    + apply LWF_set_live; [exact LW|exact Cit|exists d; auto|].
      intros q x _ Gq K. apply Fresh. rewrite <- K. apply in_map, Res. exists q. exact Gq.
    + lia.
    + rewrite app_length. cbn [length]. lia.
    + intros x. rewrite (resident_setc a j _ x (lwf_uniq _ _ LW) Hj), Gj, in_app_iff, <- Res. cbn [In].
      split.
      * intros [[= ->]|[R _]]; auto.
      * intros [R|[->|[]]]; [right; split; [exact R|discriminate]|auto].
  - (* the array is not full *)
    destruct (empty_exists a) as (e & He & GE); [lia|]. rewrite Len in He.
    destruct (walkne_full_absurd a newN _ e Hh He GE FE).
Qed.

Lemma rehash_fold newN : 0 < newN -> forall old a L,
  RInv newN a L -> (forall x, In x (lives old) -> consistent x) ->
  NoDup (map ikey (L ++ lives old)) -> length (L ++ lives old) < newN ->
  exists nl, fold_left (reinsert newN) old (a, false) = (nl, false) /\ RInv newN nl (L ++ lives old).
Proof.
  intros Hn. induction old as [|c old IH]; intros a L RI Cons ND HL.
  - exists a. split; [reflexivity|]. cbn [lives flat_map]. rewrite app_nil_r. exact RI.
  - rewrite lives_cons in *. destruct c as [| |it]; [apply IH; assumption|apply IH; assumption|].
    cbn [fold_left].
    destruct (reinsert_step newN a L it Hn RI (Cons it (or_introl eq_refl))) as (a' & E & RI').
    { rewrite map_app in ND. apply NoDup_remove_2 in ND. intros I. apply ND, in_or_app. left. exact I. }
    { rewrite app_length in HL. cbn [length] in HL. lia. }
    rewrite E. change (it :: lives old) with ([it] ++ lives old) in *. rewrite app_assoc in *.
    apply IH; [exact RI'| |exact ND|exact HL]. intros x I. apply Cons. right. exact I.
Qed.

Theorem rehash_spec t newN :
  WFcore t -> 8 <= newN -> (live t * htLoadDen < Z.of_nat newN * htLoadNum)%Z ->
  WF (rehash t newN) /\ (forall k, amap (rehash t newN) k = amap t k) /\
  gen (rehash t newN) = (gen t + 1)%Z /\ nslots (rehash t newN) = newN.
Proof.
  intros C HN HL. pose proof (wc_l _ C) as LW. pose proof (wc_live _ C) as Lv.
  pose proof (length_lives (slots t)) as LL.
  destruct (rehash_fold newN ltac:(lia) (slots t) (repeat Empty newN) [] (RInv_init newN)) as (nl & E & RI).
  { intros x I. apply resident_lives in I. apply (LWF_resident_cons _ _ x LW I). }
  { apply uniq_NoDup, (lwf_uniq _ _ LW). }
  { cbn [app]. unfold htLoadDen, htLoadNum in HL. lia. }
  cbn [app] in RI. destruct RI as [LW' NT NL Res]. pose proof (lwf_len _ _ LW') as Len'.
  unfold rehash. rewrite E.
  split; [|split; [|split; [reflexivity|exact Len']]].
  - constructor; [constructor| |]; unfold load_ok, nslots; cbn [slots live tombs herr pinned]; rewrite ?Len'.
    + exact HN.
    + (* no loop ran out of fuel, now or before *) rewrite (wc_err _ C). reflexivity.
    + exact LW'.
    + apply count_live_nlive.
    + rewrite NT. reflexivity.
    + reflexivity.
    + (* load: the live items are those of t, the tombstones are gone *)
      rewrite count_live_nlive, NL. unfold htLoadDen, htLoadNum in *. lia.
  - intros k. apply amapl_ext; [apply (lwf_uniq _ _ LW)|apply (lwf_uniq _ _ LW')|].
    intros x _. rewrite Res. apply resident_lives.
Qed.

Theorem maybe_grow_spec t :
  WFcore t -> pinned t = None ->
  WF (maybe_grow t) /\ (forall k, amap (maybe_grow t) k = amap t k).
Proof.
  intros C P. unfold maybe_grow.
  destruct (Z.ltb_spec ((live t + tombs t) * htLoadDen) (Z.of_nat (nslots t) * htLoadNum)) as [L|L].
  - split; [constructor; assumption|reflexivity].
  - pose proof (wc_n _ C) as N. pose proof (wc_live _ C) as Lv.
    pose proof (cnt_total (slots t)) as T. unfold nslots in *.
    set (newN := if (live t * htLoadDen >=? Z.of_nat (length (slots t)) * htLoadNum)%Z
                 then length (slots t) * 2 else length (slots t)).
    assert (H8 : 8 <= newN /\ (live t * htLoadDen < Z.of_nat newN * htLoadNum)%Z).
    { subst newN. unfold htLoadDen, htLoadNum in *. rewrite Z.geb_leb.
      destruct (Z.leb_spec (Z.of_nat (length (slots t)) * 3) (live t * 4)); lia. }
    destruct (rehash_spec t newN C (proj1 H8) (proj2 H8)) as (W & A & _). split; assumption.
Qed.

Lemma walk_empty_facts t k j tomb :
  WFcore t ->
  walk t (hashf k) k = PEmpty j tomb ->
  (forall x, resident (slots t) x -> ikey x <> k) /\ j < nslots t /\
  reach_at (slots t) (nslots t) (hashf k) j /\
  getc (slots t) j = (if tomb then Tomb else Empty).
Proof.
  intros C W. pose proof (wc_l _ C) as LW. pose proof (wc_n _ C) as N.
  assert (Hlt : forall e, iter_next (nslots t) e (home_in (nslots t) (hashf k)) < nslots t)
    by (intros e; apply iter_next_lt, home_in_lt; lia).
  pose proof (walk_for_spec (slots t) (nslots t) (hashf k) k (nslots t) (home_in (nslots t) (hashf k)) None) as S.
  unfold walk in W. rewrite W in S. destruct S as (d & Hd & St & GE & FT).
  split; [exact (scan_absent _ _ k d LW St GE)|]. destruct St as (Wk & _).
  destruct FT as [[-> ->]|(-> & d' & Hd' & -> & GT)]; (split; [apply Hlt|]).
  - split; [exists d; auto|exact GE].
  - split; [|exact GT]. exists d'. split; [lia|]. split; [reflexivity|]. apply (walkne_prefix _ _ _ d); [exact Wk|lia].
Qed.

Lemma walk_found_facts t h k s cur :
  walk t h k = PFound s cur -> getc (slots t) s = Live cur /\ norm (ihash cur) = norm h /\ ikey cur = k.
Proof.
  unfold walk. intros W.
  pose proof (walk_for_spec (slots t) (nslots t) h k (nslots t) (home_in (nslots t) h) None) as S.
  rewrite W in S. destruct S as [G M]. split; [exact G|apply matches_true, M].
Qed.

Lemma walk_fuel_absurd t h k : WFcore t -> load_ok t -> walk t h k = PFuel -> False.
Proof.
  intros C L W. apply (full_walk_absurd t h C L).
  pose proof (walk_for_spec (slots t) (nslots t) h k (nslots t) (home_in (nslots t) h) None) as S.
  unfold walk in W. rewrite W in S. exact S.
Qed.

Theorem store_spec t it :
  WF t -> consistent it ->
  let (t', prev) := store t it in
  WF t' /\ prev = amap t (ikey it) /\
  (forall k, amap t' k = if (k =? ikey it)%Z then Some it else amap t k).
Proof.
  intros [C P L] Cit. unfold store.
  assert (Eh : ihash it = hashf (ikey it)) by exact Cit. rewrite Eh.
  destruct (walk t (hashf (ikey it)) (ikey it)) as [j tomb|s cur|] eqn:W.
  - destruct (walk_empty_facts t _ j tomb C W) as (Abs & Hj & Rj & Gj).
    assert (NL : is_live (getc (slots t) j) = false) by (rewrite Gj; destruct tomb; reflexivity).
    assert (Rj' : reach_at (slots t) (nslots t) (ihash it) j) by (rewrite Eh; exact Rj).
    assert (Etb : (if tomb then tombs t - 1 else tombs t)%Z
                  = (tombs t - (if is_tomb (getc (slots t) j) then 1 else 0))%Z)
      by (rewrite Gj; destruct tomb; cbn [is_tomb]; lia).
    destruct (insert_core t j it _ (pinned t) C Cit Abs Hj NL Rj' Etb) as [C1 A1].
    destruct (maybe_grow_spec _ C1 P) as [W2 A2].
    split; [exact W2|]. split; [symmetry; apply amapl_absent, Abs|].
    intros k. rewrite A2. apply A1.
  - destruct (walk_found_facts t _ _ s cur W) as (G & _ & K).
    destruct (swap_at_spec t s cur it (Build_WF t C P L) G (eq_sym K) Cit) as [W1 A1].
    split; [exact W1|]. split; [|exact A1].
    symmetry. rewrite <- K. apply amapl_present; [apply (WFcore_uniq t C)|]. exists s. exact G.
  - destruct (walk_fuel_absurd t _ _ C L W).
Qed.

Corollary store_WF t it : WF t -> consistent it -> WF (fst (store t it)).
Proof.
  intros W Cit. pose proof (store_spec t it W Cit) as S.
  destruct (store t it) as [t' prev]. apply S.
Qed.

(* what a reclaim pass does: it empties, one after the other, unpinned tombstones whose successor is an
   unpinned Empty cell, and counts them.  The successor must be unpinned too: a parked cursor may sit on
   an Empty cell, the end of its key's path, and emptying the cell before it would cut that path. *)
Inductive Reclaimed (n : nat) (pin : option nat) : list cell -> Z -> list cell -> Z -> Prop :=
| rc_refl l tb : Reclaimed n pin l tb l tb
| rc_step l tb i l' tb' :
    getc l i = Tomb -> is_pin pin i = false ->
    getc l (next_in n i) = Empty -> is_pin pin (next_in n i) = false ->
    Reclaimed n pin (setc l i Empty) (tb - 1) l' tb' -> Reclaimed n pin l tb l' tb'.

Lemma is_pin_next_prev n pin i : i < n -> is_pin pin (next_in n (prev_in n i)) = is_pin pin i.
Proof. intros H. rewrite next_prev by exact H. reflexivity. Qed.

Lemma reclaim_loop_spec n pin : forall fuel l i tb,
  i < n -> length l = n ->
  getc l (next_in n i) = Empty -> is_pin pin (next_in n i) = false ->
  Reclaimed n pin l tb (fst (reclaim_loop fuel l n i pin tb)) (snd (reclaim_loop fuel l n i pin tb)).
Proof.
  induction fuel as [|f IH]; intros l i tb Hi Len Hnx Pnx; cbn [reclaim_loop]; [apply rc_refl|].
  destruct (is_pin pin i) eqn:Pi; [apply rc_refl|].
  destruct (getc l i) as [| |x] eqn:G; try apply rc_refl.
  apply (rc_step n pin l tb i); try assumption.
  apply IH; rewrite ?length_setc, ?next_prev by exact Hi; auto using prev_in_lt.
  apply getc_setc_same. lia.
Qed.

Lemma reclaim_tombs_spec n pin l i tb :
  i < n -> length l = n ->
  Reclaimed n pin l tb (fst (reclaim_tombs l n i pin tb)) (snd (reclaim_tombs l n i pin tb)).
Proof.
  intros Hi Len. unfold reclaim_tombs.
  destruct (is_pin pin (next_in n i)) eqn:Pnx; [apply rc_refl|].
  destruct (getc l (next_in n i)) as [| |x] eqn:G; try apply rc_refl.
  apply reclaim_loop_spec; assumption.
Qed.

Lemma Reclaimed_inv n pin l tb l' tb' :
  Reclaimed n pin l tb l' tb' -> LWF l n ->
  LWF l' n /\ (forall x, resident l' x <-> resident l x) /\ nlive l' = nlive l /\
  (tb' - Z.of_nat (ntomb l') = tb - Z.of_nat (ntomb l))%Z /\ ntomb l' <= ntomb l /\
  forall q, is_pin pin q = true ->
    getc l' q = getc l q /\ forall h, reach_at l n h q -> reach_at l' n h q.
Proof.
  induction 1 as [l tb|l tb i l' tb' G Pi Hnx Pnx _ IH]; intros LW.
  - split; [exact LW|]. split; [reflexivity|]. repeat split; auto.
  - pose proof (getc_tomb_lt l i G) as Hi.
    assert (LW1 : LWF (setc l i Empty) n) by (apply LWF_set_empty; [exact LW|exact Hnx|rewrite G; reflexivity]).
    destruct (IH LW1) as (LW' & Res & NL & NT & Le & Pin).
    destruct (counts_setc l i Empty Hi) as [CL CT]. rewrite G in CL, CT. cbn [is_live is_tomb] in CL, CT.
    split; [exact LW'|]. split; [|do 3 (split; [lia|])].
    + intros x. rewrite Res, (resident_setc l i Empty x (lwf_uniq _ _ LW) Hi), G.
      split; [intros [E|[R _]]; [discriminate E|exact R]|intros R; right; split; [exact R|discriminate]].
    + intros q Pq. destruct (Pin q Pq) as [-> Rq]. assert (i <> q) by (intros ->; congruence).
      split; [apply getc_setc_other; assumption|].
      intros h Rh. apply Rq, reach_at_setc_empty; [exact Hnx|right; congruence|exact Rh].
Qed.

(* General form, valid with or without a parked cursor and for ANY argument item: remove_exact
   deletes the first resident item on the probe path that has the argument's (normalised) hash and
   iid, and reports false exactly when no resident item has them.  The pin barrier of reclaim_tombs
   keeps the cursor slot and its path. *)
Lemma remove_exact_core t it t' ok :
  WFcore t -> load_ok t -> remove_exact t it = (t', ok) ->
  WFcore t' /\ load_ok t' /\ pinned t' = pinned t /\ gen t' = gen t /\ nslots t' = nslots t /\
  (forall q, is_pin (pinned t) q = true -> is_live (getc (slots t) q) = false ->
     getc (slots t') q = getc (slots t) q /\
     (forall h, reach_at (slots t) (nslots t) h q -> reach_at (slots t') (nslots t) h q)) /\
  if ok then exists cur, resident (slots t) cur /\ ex_test cur it = true /\
               (forall k, amap t' k = if (k =? ikey cur)%Z then None else amap t k)
  else t' = t /\ forall cur, resident (slots t) cur -> ex_test cur it = false.
Proof.
  intros C L. pose proof (wc_l _ C) as LW. unfold remove_exact.
  pose proof (find_exact_spec (slots t) (nslots t) it (nslots t) (home_in (nslots t) (ihash it))) as F.
  destruct (find_exact _ _ _ _ _) as [[i|]|]; [| |destruct (full_walk_absurd t _ C L F)].
  - destruct F as (_ & cur & _ & _ & Gi & M). pose proof (getc_live_lt _ _ _ Gi) as Hi.
    pose proof (LWF_set_tomb _ _ i LW) as LW1.
    pose proof (reclaim_tombs_spec (nslots t) (pinned t) (setc (slots t) i Tomb) i (tombs t + 1)%Z Hi
                  (lwf_len _ _ LW1)) as RC.
    destruct (reclaim_tombs _ _ _ _ _) as [l2 tb]. cbn [fst snd] in RC. intros [= <- <-].
    destruct (Reclaimed_inv _ _ _ _ _ _ RC LW1) as (LW2 & Res & NL & NT & Le & Pin).
    destruct (counts_setc (slots t) i Tomb Hi) as [CL CT]. rewrite Gi in CL, CT. cbn [is_live is_tomb] in CL, CT.
    pose proof (wc_live _ C) as Lv. pose proof (wc_tombs _ C) as Tb.
    split; [apply WFcore_with_slots; [exact C|exact LW2|lia|lia]|].
    split; [apply load_ok_with_slots; [apply (lwf_len _ _ LW2)|lia|exact L]|].
    do 2 (split; [reflexivity|]). split; [apply (lwf_len _ _ LW2)|]. split.
    + intros q Pq NLq. cbn [with_slots slots]. destruct (Pin q Pq) as [Eq Rq].
      assert (Dq : i <> q) by (intros ->; rewrite Gi in NLq; discriminate NLq). split.
      * rewrite Eq. apply getc_setc_other, Dq.
      * intros h Rh. apply Rq, reach_at_setc_nonempty; [discriminate|exact Rh].
    + exists cur. split; [exists i; exact Gi|]. split; [exact M|]. intros k. unfold amap. cbn [with_slots slots].
      rewrite (amapl_ext (setc (slots t) i Tomb) l2 k (lwf_uniq _ _ LW1) (lwf_uniq _ _ LW2)
                 (fun x _ => iff_sym (Res x))).
      rewrite (amapl_setc _ i Tomb k (lwf_uniq _ _ LW) (lwf_uniq _ _ LW1) Hi), Gi. reflexivity.
  - destruct F as (d & _ & St & GE). intros [= <- <-].
    split; [exact C|]. split; [exact L|]. do 3 (split; [reflexivity|]). split; [auto|]. split; [reflexivity|].
    intros cur Rc. destruct (ex_test cur it) eqn:M; [|reflexivity]. rewrite <- M.
    apply (stops_empty_excl _ _ _ (ihash it) d cur LW St GE Rc), (ex_test_true _ _ M).
Qed.

Corollary remove_exact_WF t it : WF t -> WF (fst (remove_exact t it)).
Proof.
  intros [C P L]. destruct (remove_exact t it) as [t' ok] eqn:E.
  destruct (remove_exact_core t it t' ok C L E) as (C' & L' & P' & _).
  cbn [fst]. constructor; [exact C'|rewrite P'; exact P|exact L'].
Qed.

(* pointer identity of the argument: a resident item with the argument's iid has the argument's key *)
Definition iid_ok (t : htable) (it : item) : Prop :=
  forall cur, resident (slots t) cur -> iid cur = iid it -> ikey cur = ikey it.

Lemma remove_result_spec t it t' (ok : bool) :
  WFcore t -> consistent it -> iid_ok t it ->
  (if ok then exists cur, resident (slots t) cur /\ ex_test cur it = true /\
                (forall k, amap t' k = if (k =? ikey cur)%Z then None else amap t k)
   else t' = t /\ forall cur, resident (slots t) cur -> ex_test cur it = false) ->
  (ok = true <-> exists cur, amap t (ikey it) = Some cur /\ iid cur = iid it) /\
  (forall k, amap t' k = if (ok && (k =? ikey it)%Z)%bool then None else amap t k).
Proof.
  intros C Cit Hid D. pose proof (WFcore_uniq t C) as U. destruct ok.
  - destruct D as (cur & Rc & M & A). apply ex_test_true in M as [_ Ic]. pose proof (Hid cur Rc Ic) as Kc.
    split; [|intros k; rewrite A, Kc; reflexivity]. split; [|reflexivity].
    intros _. exists cur. split; [|exact Ic]. rewrite <- Kc. apply amapl_present; assumption.
  - destruct D as [-> NM]. split; [|reflexivity]. split; [discriminate|].
    intros (cur & Ac & Ic). apply amapl_some in Ac as [Rc Kc]. rewrite <- (NM cur Rc).
    pose proof (LWF_resident_cons _ _ cur (wc_l _ C) Rc) as Cc. unfold consistent in Cc, Cit.
    unfold ex_test. rewrite Cc, Kc, Cit, Ic, !Z.eqb_refl. reflexivity.
Qed.

Theorem remove_exact_spec t it :
  WF t -> consistent it -> iid_ok t it ->
  let (t', ok) := remove_exact t it in
  WF t' /\
  (ok = true <-> exists cur, amap t (ikey it) = Some cur /\ iid cur = iid it) /\
  (forall k, amap t' k = if (ok && (k =? ikey it)%Z)%bool then None else amap t k).
Proof.
  intros W Cit Hid. pose proof (remove_exact_WF t it W) as W'. destruct W as [C P L].
  destruct (remove_exact t it) as [t' ok] eqn:E. split; [exact W'|].
  apply (remove_result_spec t it t' ok C Cit Hid), (remove_exact_core t it t' ok C L E).
Qed.

Theorem remove_exact_pin t kc q it :
  WFpin t kc q -> consistent it -> iid_ok t it ->
  let (t', ok) := remove_exact t it in
  WFpin t' kc q /\ getc (slots t') q = getc (slots t) q /\ gen t' = gen t /\
  (ok = true <-> exists cur, amap t (ikey it) = Some cur /\ iid cur = iid it) /\
  (forall k, amap t' k = if (ok && (k =? ikey it)%Z)%bool then None else amap t k).
Proof.
  intros [C P L Abs Hq Cell Path] Cit Hid. destruct (remove_exact t it) as [t' ok] eqn:E.
  destruct (remove_exact_core t it t' ok C L E) as (C' & L' & P' & G' & N' & Pin & D).
  destruct (Pin q) as [Gq Rq]; [rewrite P; apply Nat.eqb_refl|exact Cell|].
  destruct (remove_result_spec t it t' ok C Cit Hid D) as [Iff A].
  split; [|auto]. constructor.
  - exact C'.
  - rewrite P'. exact P.
  - exact L'.
  - (* kc is still absent: the map lost a key or nothing *)
    apply (absent_iff_amapl _ _ (WFcore_uniq t' C')). fold (amap t' kc). rewrite A.
    destruct (ok && (kc =? ikey it)%Z)%bool; [reflexivity|].
    apply (absent_iff_amapl _ _ (WFcore_uniq t C)). exact Abs.
  - rewrite N'. exact Hq.
  - rewrite Gq. exact Cell.
  - rewrite N'. apply Rq, Path.
Qed.

Lemma WF_empty n g e :
  8 <= n -> e = false ->
  WF {| slots := repeat Empty n; live := 0; tombs := 0; pinned := None; gen := g; herr := e |}.
Proof.
  intros N E. destruct (RInv_init n) as [LW NT NL _].
  constructor; [constructor| |]; unfold load_ok, nslots; cbn [slots live tombs herr pinned];
    rewrite ?repeat_length.
  - exact N.
  - exact E.
  - exact LW.
  - rewrite NL. reflexivity.
  - rewrite NT. reflexivity.
  - reflexivity.
  - unfold htLoadDen, htLoadNum. lia.
Qed.

Lemma amapl_repeat_empty n k : amapl (repeat Empty n) k = None.
Proof. apply amapl_absent. intros x [p Hp]. rewrite getc_repeat in Hp. discriminate Hp. Qed.

Lemma clear_core t :
  WFcore t -> WF (clear t) /\ (forall k, amap (clear t) k = None) /\ gen (clear t) = (gen t + 1)%Z.
Proof.
  intros C. split; [apply WF_empty; [apply (wc_n _ C)|apply (wc_err _ C)]|].
  split; [intros k; apply amapl_repeat_empty|reflexivity].
Qed.

Theorem clear_spec t : WF t -> WF (clear t) /\ (forall k, amap (clear t) k = None).
Proof. intros [C _ _]. destruct (clear_core t C) as (W & A & _). split; assumption. Qed.

(* clearing while a cursor is parked: the table is well-formed again, the cursor is stale *)
Theorem clear_spec_pin t kc q :
  WFpin t kc q ->
  WF (clear t) /\ (forall k, amap (clear t) k = None) /\ gen (clear t) <> gen t.
Proof.
  intros W. destruct (clear_core t (wp_core _ _ _ W)) as (W' & A & G).
  split; [exact W'|]. split; [exact A|]. rewrite G. lia.
Qed.

Theorem new_table_WF c : WF (new_table c) /\ (forall k, amap (new_table c) k = None).
Proof.
  split; [apply WF_empty; [unfold htMinSlots; lia|reflexivity]|intros k; apply amapl_repeat_empty].
Qed.

Lemma WFcore_repin t pin :
  WFcore t -> WFcore (with_slots t (slots t) (live t) (tombs t) pin).
Proof. intros C. apply WFcore_with_slots; auto using wc_l, wc_live, wc_tombs. Qed.

Lemma load_ok_repin t pin : load_ok t -> load_ok (with_slots t (slots t) (live t) (tombs t) pin).
Proof. intros L. apply load_ok_with_slots; [reflexivity|lia|exact L]. Qed.

Lemma repin_none_id t : pinned t = None -> with_slots t (slots t) (live t) (tombs t) None = t.
Proof. destruct t as [sl lv tb pn g e]. cbn [pinned]. intros ->. reflexivity. Qed.

Theorem probe_spec t k :
  WF t ->
  match probe t (hashf k) k with
  | (t', Some (s, it), cur) =>
      t' = t /\ amap t k = Some it /\ getc (slots t) s = Live it
  | (t', None, cur) =>
      WFpin t' k (cslot cur) /\ cgen cur = gen t' /\ gen t' = gen t /\
      ctomb cur = is_tomb (getc (slots t') (cslot cur)) /\
      (forall k', amap t' k' = amap t k')
  end.
Proof.
  intros [C P L]. unfold probe.
  destruct (walk t (hashf k) k) as [j tomb|s cur|] eqn:W.
  - destruct (walk_empty_facts t k j tomb C W) as (Abs & Hj & Rj & Gj).
    cbn [cslot cgen ctomb with_slots slots gen]. rewrite Gj.
    split; [|destruct tomb; auto].
    constructor; auto using WFcore_repin, load_ok_repin.
    cbn [with_slots slots]. rewrite Gj. destruct tomb; reflexivity.
  - destruct (walk_found_facts t _ _ s cur W) as (G & _ & <-).
    split; [reflexivity|]. split; [|exact G].
    apply amapl_present; [apply (WFcore_uniq t C)|]. exists s. exact G.
  - destruct (walk_fuel_absurd t _ _ C L W).
Qed.

Theorem unpin_spec t kc q : WFpin t kc q -> WF (unpin t) /\ (forall k, amap (unpin t) k = amap t k).
Proof.
  intros W. split; [|reflexivity].
  constructor; [apply WFcore_repin, (wp_core _ _ _ W)|reflexivity|apply load_ok_repin, (wp_load _ _ _ W)].
Qed.

Theorem unpin_WF t : WF t -> unpin t = t.
Proof. intros W. apply repin_none_id, (wf_pin _ W). Qed.

(* publishing through a valid cursor.  The hypothesis on [ctomb] is what [probe_spec] establishes and
   [remove_exact_pin] preserves (the cursor cell does not change); without it the theorem is false,
   see [publish_spec_refuted] below. *)
Theorem publish_spec t kc cur it :
  WFpin t kc (cslot cur) -> cgen cur = gen t ->
  (getc (slots t) (cslot cur) = Tomb -> ctomb cur = true) ->
  consistent it -> ikey it = kc ->
  WF (publish t it cur) /\
  (forall k, amap (publish t it cur) k = if (k =? kc)%Z then Some it else amap t k).
Proof.
  intros [C P L Abs Hq Cell Path] Hg Ht Cit <-.
  unfold publish. rewrite Hg, Z.eqb_refl. cbn [negb].
  destruct (insert_core t (cslot cur) it
              (if (ctomb cur && match getc (slots t) (cslot cur) with Tomb => true | _ => false end)%bool
               then tombs t - 1 else tombs t)%Z None C Cit Abs Hq Cell) as [C1 A1].
  { rewrite Cit. exact Path. }
  { destruct (getc (slots t) (cslot cur)); rewrite ?Ht, ?andb_false_r by reflexivity; cbn [andb is_tomb]; lia. }
  destruct (maybe_grow_spec _ C1 eq_refl) as [W2 A2].
  split; [exact W2|]. intros k. rewrite A2. apply A1.
Qed.

(* a stale cursor (the array was cleared or rebuilt since the probe) degrades to a plain store,
   also when a (newer) pin is still recorded: publish drops it *)
Lemma publish_stale_core t it cur :
  WFcore t -> load_ok t -> cgen cur <> gen t -> consistent it ->
  WF (publish t it cur) /\
  (forall k, amap (publish t it cur) k = if (k =? ikey it)%Z then Some it else amap t k).
Proof.
  intros C L Hg Cit. unfold publish. apply Z.eqb_neq in Hg. rewrite Hg. cbn [negb].
  assert (W0 : WF (with_slots t (slots t) (live t) (tombs t) None))
    by (constructor; auto using WFcore_repin, load_ok_repin).
  pose proof (store_spec _ it W0 Cit) as S.
  destruct (store (with_slots t (slots t) (live t) (tombs t) None) it) as [t' prev].
  destruct S as (W' & _ & A). split; assumption.
Qed.

Theorem publish_stale t it cur :
  WF t -> cgen cur <> gen t -> publish t it cur = fst (store t it).
Proof.
  intros W Hg. unfold publish. apply Z.eqb_neq in Hg. rewrite Hg. cbn [negb].
  rewrite (repin_none_id t (wf_pin _ W)). reflexivity.
Qed.

Corollary publish_stale_spec t it cur :
  WF t -> cgen cur <> gen t -> consistent it ->
  WF (publish t it cur) /\
  (forall k, amap (publish t it cur) k = if (k =? ikey it)%Z then Some it else amap t k).
Proof. intros [C _ L]. apply publish_stale_core; assumption. Qed.

Corollary publish_stale_pin t kc q it cur :
  WFpin t kc q -> cgen cur <> gen t -> consistent it ->
  WF (publish t it cur) /\
  (forall k, amap (publish t it cur) k = if (k =? ikey it)%Z then Some it else amap t k).
Proof. intros W. apply publish_stale_core; [apply (wp_core _ _ _ W)|apply (wp_load _ _ _ W)]. Qed.

(* iid_ok from the "iids are pointer identities" reading: resident iids pairwise distinct and the
   argument itself resident (the situation of op 7 of the ht stream: remove what lookup returned) *)
Lemma iid_ok_resident t it :
  (forall a b, resident (slots t) a -> resident (slots t) b -> iid a = iid b -> a = b) ->
  resident (slots t) it -> iid_ok t it.
Proof. intros D R cur Rc I. rewrite (D cur it Rc R I). reflexivity. Qed.

Corollary counts_match_WF t : WF t -> live t = Z.of_nat (length (contents t)).
Proof. intros W. apply counts_match, (wf_core _ W). Qed.

Corollary lookup_store t it k :
  WF t -> consistent it ->
  lookup (fst (store t it)) (hashf k) k = if (k =? ikey it)%Z then Some it else lookup t (hashf k) k.
Proof.
  intros W Cit. pose proof (store_spec t it W Cit) as S.
  destruct (store t it) as [t' prev]. destruct S as (W' & _ & A).
  rewrite (lookup_spec t k W). cbn [fst]. rewrite (lookup_spec t' k W'). apply A.
Qed.

Corollary store_prev_lookup t it :
  WF t -> consistent it -> snd (store t it) = lookup t (hashf (ikey it)) (ikey it).
Proof.
  intros W Cit. pose proof (store_spec t it W Cit) as S.
  destruct (store t it) as [t' prev]. rewrite (lookup_spec t _ W). apply S.
Qed.

(* removing the very item that lookup returned (op 7 of the ht stream) *)
Corollary remove_exact_resident t it :
  WF t -> resident (slots t) it ->
  (forall a b, resident (slots t) a -> resident (slots t) b -> iid a = iid b -> a = b) ->
  snd (remove_exact t it) = true /\ WF (fst (remove_exact t it)) /\
  (forall k, lookup (fst (remove_exact t it)) (hashf k) k
             = if (k =? ikey it)%Z then None else lookup t (hashf k) k).
Proof.
  intros W R D. pose proof (wf_core _ W) as C.
  pose proof (remove_exact_spec t it W (LWF_resident_cons _ _ it (wc_l _ C) R) (iid_ok_resident t it D R)) as S.
  destruct (remove_exact t it) as [t' ok]. destruct S as (W' & Iff & A). cbn [fst snd].
  assert (Ok : ok = true).
  { apply Iff. exists it. split; [|reflexivity]. apply amapl_present; [apply (WFcore_uniq t C)|exact R]. }
  subst ok. split; [reflexivity|]. split; [exact W'|].
  intros k. rewrite (lookup_spec t' k W'), (lookup_spec t k W), A. reflexivity.
Qed.

Corollary lookup_clear t k : WF t -> lookup (clear t) (hashf k) k = None.
Proof.
  intros W. destruct (clear_spec t W) as [W' A]. rewrite (lookup_spec _ k W'). apply A.
Qed.

Definition reclaim_safe := LWF_set_empty.

End Spec.

Module Examples.

(* every key hashes to 5: all items collide, home slot 5 in a table of 8 *)
Definition hf (k : Z) : Z := 5%Z.
Definition mkit (k v id : Z) : item := {| ikey := k; ihash := hf k; ival := v; iid := id |}.

Definition t0 := new_table 0.
Definition t1 := fst (store t0 (mkit 1 10 100)).
Definition t2 := fst (store t1 (mkit 2 20 101)).
Definition t3 := fst (store t2 (mkit 3 30 102)).
Definition t4 := fst (store t3 (mkit 4 40 103)).          (* wraps around to slot 0 *)
Definition t5 := fst (remove_exact t4 (mkit 2 20 101)).   (* leaves a tombstone in slot 6 *)

Lemma cons_mkit k v id : consistent hf (mkit k v id).
Proof. reflexivity. Qed.

Example t4_WF : WF hf t4.
Proof.
  unfold t4, t3, t2, t1, t0.
  repeat (apply store_WF; [|apply cons_mkit]). apply new_table_WF.
Qed.

Example t4_shape :
  slots t4 = [Live (mkit 4 40 103); Empty; Empty; Empty; Empty;
              Live (mkit 1 10 100); Live (mkit 2 20 101); Live (mkit 3 30 102)]
  /\ live t4 = 4%Z /\ tombs t4 = 0%Z /\ herr t4 = false.
Proof. vm_compute. repeat split. Qed.

Example t5_WF : WF hf t5.
Proof. unfold t5. apply remove_exact_WF. apply t4_WF. Qed.

Example t5_shape :
  slots t5 = [Live (mkit 4 40 103); Empty; Empty; Empty; Empty;
              Live (mkit 1 10 100); Tomb; Live (mkit 3 30 102)]
  /\ live t5 = 3%Z /\ tombs t5 = 1%Z /\ herr t5 = false.
Proof. vm_compute. repeat split. Qed.

Example t5_lookup :
  lookup t5 (hf 4) 4 = Some (mkit 4 40 103) /\ lookup t5 (hf 2) 2 = None /\
  amap t5 4 = Some (mkit 4 40 103) /\ amap t5 2 = None.
Proof. vm_compute. repeat split. Qed.

(* probe for the absent key 5: the cursor parks on the tombstone in slot 6 *)
Definition p6 := probe t5 (hf 5) 5.
Definition t6 := fst (fst p6).
Definition cur6 := snd p6.

Example t6_WFpin : WFpin hf t6 5 6 /\ cur6 = {| cgen := 0; cslot := 6; ctomb := true |}.
Proof.
  pose proof (probe_spec hf t5 5 t5_WF) as S. fold p6 in S.
  unfold t6, cur6.
  destruct p6 as [[t' found] cur] eqn:E. vm_compute in E.
  injection E as E1 E2 E3. subst t' found cur.
  cbn [fst snd]. destruct S as (W & _). cbn [cslot] in W. split; [exact W|reflexivity].
Qed.

(* removing key 4 (slot 0) and then key 3 (slot 7) while the cursor is parked: reclaim turns slots 0 and 7
   back to Empty but stops at the pinned tombstone in slot 6 *)
Definition t7 := fst (remove_exact (fst (remove_exact t6 (mkit 4 40 103))) (mkit 3 30 102)).

Lemma iid_ok_any t k v id :
  (forall cur, resident (slots t) cur -> iid cur = id -> ikey cur = k) -> iid_ok t (mkit k v id).
Proof. intros H cur R I. apply (H cur R I). Qed.

(* on a concrete table the condition is checked by evaluation *)
Lemma iid_ok_check t it :
  forallb (fun cur => negb (iid cur =? iid it)%Z || (ikey cur =? ikey it)%Z) (lives (slots t)) = true ->
  iid_ok t it.
Proof.
  intros H cur R I. apply resident_lives in R. rewrite forallb_forall in H. specialize (H cur R).
  rewrite I, Z.eqb_refl in H. apply Z.eqb_eq, H.
Qed.

Example t7_WFpin : WFpin hf t7 5 6.
Proof.
  unfold t7.
  pose proof (remove_exact_pin hf t6 5 6 (mkit 4 40 103) (proj1 t6_WFpin) (cons_mkit _ _ _)) as S1.
  destruct (remove_exact t6 (mkit 4 40 103)) as [ta oka] eqn:Ea.
  destruct S1 as (Wa & _); [apply iid_ok_check; vm_compute; reflexivity|].
  pose proof (remove_exact_pin hf ta 5 6 (mkit 3 30 102) Wa (cons_mkit _ _ _)) as S2.
  cbn [fst]. destruct (remove_exact ta (mkit 3 30 102)) as [tb okb]. cbn [fst].
  apply S2. vm_compute in Ea. injection Ea as <- _. apply iid_ok_check. vm_compute. reflexivity.
Qed.

Example t7_shape :
  slots t7 = [Empty; Empty; Empty; Empty; Empty; Live (mkit 1 10 100); Tomb; Empty]
  /\ live t7 = 1%Z /\ tombs t7 = 1%Z /\ pinned t7 = Some 6 /\ herr t7 = false.
Proof. vm_compute. repeat split. Qed.

(* publishing key 5 through the cursor *)
Definition t8 := publish t7 (mkit 5 50 104) cur6.

Example t8_WF : WF hf t8 /\ amap t8 5 = Some (mkit 5 50 104) /\ amap t8 1 = Some (mkit 1 10 100).
Proof.
  destruct (publish_spec hf t7 5 cur6 (mkit 5 50 104)) as [W A].
  - rewrite (proj2 t6_WFpin). cbn [cslot]. exact t7_WFpin.
  - vm_compute. reflexivity.
  - intros _. rewrite (proj2 t6_WFpin). reflexivity.
  - apply cons_mkit.
  - reflexivity.
  - split; [exact W|]. split; vm_compute; reflexivity.
Qed.

Example t8_shape :
  slots t8 = [Empty; Empty; Empty; Empty; Empty; Live (mkit 1 10 100); Live (mkit 5 50 104); Empty]
  /\ live t8 = 2%Z /\ tombs t8 = 0%Z /\ pinned t8 = None.
Proof. vm_compute. repeat split. Qed.

(* growth: the 6th insertion into 8 slots reaches the load bound and doubles the array *)
Definition g5 := fst (store (fst (store t4 (mkit 6 60 105))) (mkit 7 70 106)).

Example g5_WF : WF hf g5 /\ nslots g5 = 16 /\ live g5 = 6%Z /\ gen g5 = 1%Z.
Proof.
  split.
  - unfold g5. do 2 (apply store_WF; [|apply cons_mkit]). apply t4_WF.
  - vm_compute. repeat split.
Qed.

(* remove_exact_spec WITHOUT the iid_ok hypothesis is false: a consistent argument with the iid (and
   hash) of a resident item of another key removes that other item *)
Example remove_exact_spec_refuted :
  exists t it, WF hf t /\ consistent hf it /\
    let (t', ok) := remove_exact t it in
    ~ (ok = true <-> exists cur, amap t (ikey it) = Some cur /\ iid cur = iid it) /\
    ~ (forall k, amap t' k = if (ok && (k =? ikey it)%Z)%bool then None else amap t k).
Proof.
  exists t1, (mkit 9 0 100). split; [|split; [apply cons_mkit|]].
  - unfold t1, t0. apply store_WF; [apply new_table_WF|apply cons_mkit].
  - destruct (remove_exact t1 (mkit 9 0 100)) as [t' ok] eqn:E. vm_compute in E.
    injection E as E1 E2. subst t' ok. split.
    + intros [H _]. destruct (H eq_refl) as (cur & A & _). vm_compute in A. discriminate A.
    + intros H. specialize (H 1%Z). vm_compute in H. discriminate H.
Qed.

(* publish_spec WITHOUT the ctomb hypothesis is false: a cursor that claims "slot was Empty" on a
   tombstone leaves the tombstone count stale *)
Example publish_spec_refuted :
  exists t kc cur it, WFpin hf t kc (cslot cur) /\ cgen cur = gen t /\ consistent hf it /\ ikey it = kc /\
    ~ WF hf (publish t it cur).
Proof.
  exists t7, 5%Z, {| cgen := 0; cslot := 6; ctomb := false |}, (mkit 5 50 104).
  split; [exact t7_WFpin|]. split; [vm_compute; reflexivity|]. split; [apply cons_mkit|].
  split; [reflexivity|].
  intros [[_ _ _ _ Tb] _ _]. vm_compute in Tb. discriminate Tb.
Qed.

End Examples.

Print Assumptions lookup_spec.
Print Assumptions store_spec.
Print Assumptions remove_exact_spec.
Print Assumptions remove_exact_pin.
Print Assumptions probe_spec.
Print Assumptions publish_spec.
Print Assumptions rehash_spec.
Print Assumptions Examples.publish_spec_refuted.
