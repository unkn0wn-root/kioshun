(* Properties of one shard of CacheModel.v under the classic policies LRU / LFU / FIFO
   (and Sieve with cap = 0, which takes the same code path): shard invariant CInv, ghost-history Ledger,
   notification log NotifLog, budget, update / insert behaviour of apply_classic, and the policy orders
   (ghost stamps).  Every operation is a sequence of frames (oracle queue, serr, counters), drops of one
   resident item (DropRel) and at most one insert or in-place update; a predicate kept by the first two
   (Stable) is kept by the eviction loop, Delete / expiry and Cleanup.  Stdlib only. *)
Require Import KV.Base KV.Gen.Consts KV.ConfigModel KV.CacheModel KV.CacheLists.
From Coq Require Import Permutation Sorted.
Open Scope Z_scope.

(* reduce projections of the functional record updates *)
Ltac sfld :=
  cbn [cap costcap tabk lst lfu prob main hand pcap mcap pmin pmax size scost staged evs pend
       admits rejects ghosthits promos pevicts mevicts serr glog nlog
       sh_set sh_ghost sh_err sh_evs sh_stats sh_caps sh_lists].

Lemma remz_notin l k : ~ In k l -> remz l k = l.
Proof. apply CacheLists.remz_notin. Qed.

Lemma memz_remz_other l k x : x <> k -> memz (remz l k) x = memz l x.
Proof.
  intros Hx. destruct (memz l x) eqn:E.
  - apply memz_In. apply remz_In_other; [exact Hx|]. apply memz_In; exact E.
  - apply memz_false. intros H. apply memz_false in E. apply E. eapply remz_In_weak; eauto.
Qed.

Lemma find_remove_other l k k' : k' <> k -> find_item (remove_key l k) k' = find_item l k'.
Proof.
  intros Hk. induction l as [|x r IH]; cbn [remove_key find_item]; [reflexivity|].
  destruct (Z.eqb_spec (key x) k) as [E|E].
  - destruct (Z.eqb_spec (key x) k'); [congruence|reflexivity].
  - cbn [find_item]. rewrite IH. reflexivity.
Qed.

Lemma find_remove_same l k : NoDup (map key l) -> find_item (remove_key l k) k = None.
Proof.
  intros ND. apply find_item_none. rewrite map_key_remove. apply remz_not_self. exact ND.
Qed.

Lemma find_replace_other l n k' : k' <> key n -> find_item (replace_item l n) k' = find_item l k'.
Proof.
  intros Hk. induction l as [|x r IH]; cbn [replace_item find_item]; [reflexivity|].
  destruct (Z.eqb_spec (key x) (key n)) as [E|E]; cbn [find_item].
  - destruct (Z.eqb_spec (key n) k'); [congruence|].
    destruct (Z.eqb_spec (key x) k'); [congruence|reflexivity].
  - rewrite IH. reflexivity.
Qed.

Lemma find_replace_same l n old : find_item l (key n) = Some old -> find_item (replace_item l n) (key n) = Some n.
Proof.
  induction l as [|x r IH]; cbn [replace_item find_item]; [discriminate|].
  destruct (Z.eqb_spec (key x) (key n)) as [E|E]; cbn [find_item]; intros H.
  - rewrite Z.eqb_refl. reflexivity.
  - destruct (Z.eqb_spec (key x) (key n)); [congruence|]. auto.
Qed.

Definition sum_cost (l : list item) : Z := sumZ (map cost l).

(* zlen, sum_cost and (below) cnt are all sums of a weight over the list *)
Lemma sumZ_remove (w : item -> Z) l k it :
  find_item l k = Some it -> sumZ (map w (remove_key l k)) = sumZ (map w l) - w it.
Proof.
  induction l as [|x r IH]; cbn [find_item remove_key map sumZ]; [discriminate|].
  destruct (key x =? k); intros H; [injection H as <-; ring|]. cbn [map sumZ]. rewrite (IH H). ring.
Qed.

Lemma sumZ_replace (w : item -> Z) l n old :
  find_item l (key n) = Some old -> sumZ (map w (replace_item l n)) = sumZ (map w l) - w old + w n.
Proof.
  induction l as [|x r IH]; cbn [find_item replace_item map sumZ]; [discriminate|].
  destruct (key x =? key n); intros H; cbn [map sumZ]; [injection H as <-; ring|]. rewrite (IH H). ring.
Qed.

Lemma zlen_cons {A} (x : A) l : zlen (x :: l) = zlen l + 1.
Proof. unfold zlen. cbn [length]. lia. Qed.

Lemma zlen_sumZ {A} (l : list A) : zlen l = sumZ (map (fun _ => 1) l).
Proof. unfold zlen. induction l as [|x r IH]; cbn [length map sumZ]; [reflexivity|]. rewrite <- IH. lia. Qed.

Lemma In_remove_key l k x : In x (remove_key l k) -> In x l.
Proof.
  induction l as [|y r IH]; cbn [remove_key In]; [tauto|].
  destruct (key y =? k); cbn [In]; tauto.
Qed.

Lemma Forall_remove_key (P : item -> Prop) l k : Forall P l -> Forall P (remove_key l k).
Proof.
  intros H. apply Forall_forall. intros x Hx. rewrite Forall_forall in H. apply H.
  eapply In_remove_key; eauto.
Qed.

Lemma Forall_replace_item (P : item -> Prop) l n : P n -> Forall P l -> Forall P (replace_item l n).
Proof.
  intros Hn. induction 1 as [|x r Hx Hr IH]; cbn [replace_item]; [constructor|].
  destruct (key x =? key n); constructor; auto.
Qed.

Lemma remz_perm ks k : In k ks -> Permutation (k :: remz ks k) ks.
Proof.
  induction ks as [|x r IH]; cbn [remz In]; [tauto|]. destruct (Z.eqb_spec x k) as [->|N]; [reflexivity|].
  intros [H|H]; [congruence|]. etransitivity; [apply perm_swap|apply perm_skip, IH, H].
Qed.

Lemma remz_length_nat l k : In k l -> S (length (remz l k)) = length l.
Proof. intros H. exact (Permutation_length (remz_perm l k H)). Qed.

(* the two ways a resident key is rewritten: the new item goes to the head (LRU) or replaces the old one in place *)
Lemma relist_spec (b : bool) l n old :
  find_item l (key n) = Some old -> NoDup (map key l) ->
  let l' := if b then n :: remove_key l (key n) else replace_item l n in
  Permutation (map key l') (map key l) /\
  (forall w : item -> Z, sumZ (map w l') = sumZ (map w l) - w old + w n) /\
  (forall P : item -> Prop, P n -> Forall P l -> Forall P l').
Proof.
  intros Hf ND. destruct b; cbv zeta; (split; [|split]).
  - cbn [map]. rewrite map_key_remove. apply remz_perm.
    destruct (find_item_some _ _ _ Hf) as [Hi <-]. apply in_map. exact Hi.
  - intros w. cbn [map sumZ]. rewrite (sumZ_remove w _ _ _ Hf). ring.
  - intros P Pn Pl. constructor; [exact Pn|apply Forall_remove_key; exact Pl].
  - rewrite map_key_replace. reflexivity.
  - intros w. apply sumZ_replace. exact Hf.
  - intros P. apply Forall_replace_item.
Qed.

Lemma last_item_app l it : last_item (l ++ [it]) = Some it.
Proof. unfold last_item. rewrite rev_app_distr. reflexivity. Qed.

Lemma last_item_split l it : last_item l = Some it -> exists l0, l = l0 ++ [it].
Proof.
  unfold last_item. intros H. destruct (rev l) as [|x r] eqn:E; [discriminate|].
  inversion H; subst. exists (rev r). rewrite <- (rev_involutive l), E. reflexivity.
Qed.

Definition lfu_keys (b : list (Z * list Z)) : list Z := concat (map snd b).

Lemma lfu_keys_cons g ks r : lfu_keys ((g, ks) :: r) = ks ++ lfu_keys r.
Proof. reflexivity. Qed.

Record LfuOK (b : list (Z * list Z)) (ks : list Z) : Prop := {
  lo_sorted : StronglySorted Z.lt (map fst b);          (* strictly ascending frequencies *)
  lo_pos : Forall (fun p => 1 <= fst p) b;
  lo_nonempty : Forall (fun p => snd p <> []) b;
  lo_nodup : NoDup (lfu_keys b);                        (* no key twice in one / in two buckets *)
  lo_union : forall k, In k (lfu_keys b) <-> In k ks    (* union of the buckets = key set *)
}.

Lemma notin_app_memz ks r k : ~ In k (ks ++ r) -> memz ks k = false /\ ~ In k r.
Proof. intros H. split; [apply memz_false|]; intros Hi; apply H, in_or_app; tauto. Qed.

Lemma lfu_freq_notin b k : ~ In k (lfu_keys b) -> lfu_freq b k = 0.
Proof.
  induction b as [|[g ks] r IH]; cbn [lfu_freq]; [reflexivity|].
  rewrite lfu_keys_cons. intros H. destruct (notin_app_memz _ _ _ H) as [-> N]. exact (IH N).
Qed.

Lemma lfu_freq_in b k : In k (lfu_keys b) -> In (lfu_freq b k) (map fst b).
Proof.
  induction b as [|[g ks] r IH]; cbn [lfu_freq map fst In]; [intros []|].
  rewrite lfu_keys_cons. intros H. destruct (memz ks k) eqn:E; [left; reflexivity|].
  right. apply IH. apply in_app_or in H. destruct H as [H|H]; [|exact H].
  apply memz_In in H. congruence.
Qed.

Lemma lfu_freq_pos b k : Forall (fun p => 1 <= fst p) b -> In k (lfu_keys b) -> 1 <= lfu_freq b k.
Proof.
  intros HP H. apply lfu_freq_in in H. apply in_map_iff in H. destruct H as (p & Hp & Hi).
  rewrite Forall_forall in HP. specialize (HP p Hi). lia.
Qed.

Lemma lfu_freq_zero_iff b k : Forall (fun p => 1 <= fst p) b -> (lfu_freq b k = 0 <-> ~ In k (lfu_keys b)).
Proof.
  intros HP. split.
  - intros H Hi. pose proof (lfu_freq_pos b k HP Hi). lia.
  - apply lfu_freq_notin.
Qed.

Lemma lfu_remove_keys b k : lfu_keys (lfu_remove b k) = remz (lfu_keys b) k.
Proof.
  induction b as [|[g ks] r IH]; cbn [lfu_remove]; [reflexivity|]. rewrite lfu_keys_cons, remz_app.
  destruct (memz ks k); [destruct (remz ks k); reflexivity|]. rewrite lfu_keys_cons, IH. reflexivity.
Qed.

Lemma lfu_remove_not_self b k : NoDup (lfu_keys b) -> ~ In k (lfu_keys (lfu_remove b k)).
Proof. rewrite lfu_remove_keys. apply remz_not_self. Qed.

Lemma lfu_remove_fst_sub b k f : In f (map fst (lfu_remove b k)) -> In f (map fst b).
Proof.
  induction b as [|[g ks] r IH]; cbn [lfu_remove]; [tauto|].
  destruct (memz ks k).
  - destruct (remz ks k) as [|y ys]; cbn [map fst In]; tauto.
  - cbn [map fst In]. tauto.
Qed.

Lemma lfu_remove_sorted b k : StronglySorted Z.lt (map fst b) -> StronglySorted Z.lt (map fst (lfu_remove b k)).
Proof.
  induction b as [|[g ks] r IH]; cbn [lfu_remove]; [tauto|].
  cbn [map fst]. intros H. inversion H as [|? ? Hr Hg]; subst.
  destruct (memz ks k).
  - destruct (remz ks k) as [|y ys]; cbn [map fst]; [exact Hr|constructor; assumption].
  - cbn [map fst]. constructor; [apply IH; exact Hr|].
    apply Forall_forall. intros f Hf. rewrite Forall_forall in Hg. apply Hg. eapply lfu_remove_fst_sub; eauto.
Qed.

Lemma lfu_remove_Forall (P : Z * list Z -> Prop) b k :
  (forall g ks, P (g, ks) -> remz ks k <> [] -> P (g, remz ks k)) ->
  Forall P b -> Forall P (lfu_remove b k).
Proof.
  intros HP. induction 1 as [|[g ks] r Hx Hr IH]; cbn [lfu_remove]; [constructor|].
  destruct (memz ks k).
  - destruct (remz ks k) as [|y ys] eqn:R; [exact Hr|]. constructor; [|exact Hr].
    rewrite <- R. apply HP; [exact Hx|]. rewrite R. discriminate.
  - constructor; assumption.
Qed.

Lemma lfu_remove_notin b k : ~ In k (lfu_keys b) -> lfu_remove b k = b.
Proof.
  induction b as [|[g ks] r IH]; cbn [lfu_remove]; [reflexivity|].
  rewrite lfu_keys_cons. intros H. destruct (notin_app_memz _ _ _ H) as [-> N]. rewrite (IH N). reflexivity.
Qed.

Lemma LfuOK_remove b ks k : NoDup ks -> LfuOK b ks -> LfuOK (lfu_remove b k) (remz ks k).
Proof.
  intros NDk [Sorted Pos NonEmpty NoDupK Union]. constructor.
  - apply lfu_remove_sorted; exact Sorted.
  - apply lfu_remove_Forall; [|exact Pos]. intros g l Hp _. exact Hp.
  - apply lfu_remove_Forall; [|exact NonEmpty]. intros g l _ Hn. exact Hn.
  - rewrite lfu_remove_keys. apply remz_NoDup; exact NoDupK.
  - intros x. rewrite lfu_remove_keys, !remz_In by assumption. rewrite Union. tauto.
Qed.

Lemma lfu_freq_remove b k k' : NoDup (lfu_keys b) ->
  lfu_freq (lfu_remove b k) k' = if k' =? k then 0 else lfu_freq b k'.
Proof.
  intros ND. destruct (Z.eqb_spec k' k) as [->|Hk].
  - apply lfu_freq_notin. apply lfu_remove_not_self. exact ND.
  - clear ND. induction b as [|[g ks] r IH]; cbn [lfu_remove lfu_freq]; [reflexivity|].
    destruct (memz ks k) eqn:E.
    + destruct (remz ks k) as [|y ys] eqn:R.
      * assert (M : memz ks k' = false).
        { apply memz_false. intros Hi. apply (remz_In_other ks k k' Hk) in Hi. rewrite R in Hi. destruct Hi. }
        rewrite M. reflexivity.
      * cbn [lfu_freq]. rewrite <- R. rewrite memz_remz_other by exact Hk. reflexivity.
    + cbn [lfu_freq]. rewrite IH. reflexivity.
Qed.

Lemma lfu_add_at_perm b f k : Permutation (lfu_keys (lfu_add_at b f k)) (k :: lfu_keys b).
Proof.
  induction b as [|[g ks] r IH]; cbn [lfu_add_at]; [reflexivity|].
  destruct (g =? f); [reflexivity|]. destruct (f <? g); [reflexivity|].
  rewrite !lfu_keys_cons, IH. symmetry. apply Permutation_middle.
Qed.

Lemma lfu_add_at_fst b f k x : In x (map fst (lfu_add_at b f k)) -> x = f \/ In x (map fst b).
Proof.
  induction b as [|[g ks] r IH]; cbn [lfu_add_at].
  - cbn. intuition congruence.
  - destruct (Z.eqb_spec g f) as [E|E]; [cbn [map fst In]; intuition congruence|].
    destruct (f <? g); cbn [map fst In]; intuition congruence.
Qed.

Lemma lfu_add_at_sorted b f k : StronglySorted Z.lt (map fst b) -> StronglySorted Z.lt (map fst (lfu_add_at b f k)).
Proof.
  induction b as [|[g ks] r IH]; cbn [lfu_add_at]; intros H.
  - cbn. constructor; [constructor|constructor].
  - cbn [map fst] in H. inversion H as [|? ? Hr Hg]; subst.
    destruct (Z.eqb_spec g f) as [E|E]; [cbn [map fst]; constructor; assumption|].
    destruct (Z.ltb_spec f g) as [L|L].
    + cbn [map fst]. constructor; [exact H|]. constructor; [exact L|].
      eapply Forall_impl; [|exact Hg]. cbn. intros; lia.
    + cbn [map fst]. constructor; [apply IH; exact Hr|].
      apply Forall_forall. intros x Hx. apply lfu_add_at_fst in Hx. destruct Hx as [->|Hx]; [lia|].
      rewrite Forall_forall in Hg. apply Hg; exact Hx.
Qed.

Lemma lfu_add_at_Forall (P : Z * list Z -> Prop) b f k :
  P (f, [k]) -> (forall ks, P (f, ks) -> P (f, k :: ks)) -> Forall P b -> Forall P (lfu_add_at b f k).
Proof.
  intros P1 P2. induction 1 as [|[g ks] r Hx Hr IH]; cbn [lfu_add_at]; [constructor; [exact P1|constructor]|].
  destruct (Z.eqb_spec g f) as [E|E]; [subst; constructor; [apply P2; exact Hx|exact Hr]|].
  destruct (f <? g); constructor; try assumption. constructor; assumption.
Qed.

Lemma LfuOK_add_at b ks f k : 1 <= f -> ~ In k ks -> LfuOK b ks -> LfuOK (lfu_add_at b f k) (k :: ks).
Proof.
  intros Hf Hk [Sorted Pos NonEmpty NoDupK Union]. constructor.
  - apply lfu_add_at_sorted; exact Sorted.
  - apply lfu_add_at_Forall; [exact Hf|intros; assumption|exact Pos].
  - apply lfu_add_at_Forall; [cbn; discriminate|cbn; intros; discriminate|exact NonEmpty].
  - apply (Permutation_NoDup (Permutation_sym (lfu_add_at_perm b f k))). constructor; [rewrite Union; exact Hk|exact NoDupK].
  - intros x. cbn [In]. rewrite <- (Union x). change (In x (lfu_keys (lfu_add_at b f k)) <-> In x (k :: lfu_keys b)).
    split; apply Permutation_in; [|symmetry]; apply lfu_add_at_perm.
Qed.

Lemma lfu_freq_add_at b f k k' : ~ In k (lfu_keys b) ->
  lfu_freq (lfu_add_at b f k) k' = if k' =? k then f else lfu_freq b k'.
Proof.
  induction b as [|[g ks] r IH]; cbn [lfu_add_at]; intros Hk.
  - cbn [lfu_freq memz]. rewrite (Z.eqb_sym k k'). destruct (k' =? k); reflexivity.
  - rewrite lfu_keys_cons in Hk. destruct (notin_app_memz _ _ _ Hk) as [Mk N].
    destruct (Z.eqb_spec g f) as [E|E].
    + cbn [lfu_freq memz]. rewrite (Z.eqb_sym k k'). destruct (Z.eqb_spec k' k) as [Hn|Hn]; cbn [orb]; [exact E|reflexivity].
    + destruct (f <? g).
      * cbn [lfu_freq memz]. rewrite (Z.eqb_sym k k'). destruct (k' =? k); reflexivity.
      * cbn [lfu_freq]. rewrite (IH N).
        destruct (Z.eqb_spec k' k) as [Hn|Hn]; [rewrite Hn, Mk; reflexivity|reflexivity].
Qed.

Lemma lfu_freq_readd b f k k' : NoDup (lfu_keys b) ->
  lfu_freq (lfu_add_at (lfu_remove b k) f k) k' = if k' =? k then f else lfu_freq b k'.
Proof.
  intros ND. rewrite lfu_freq_add_at by (apply lfu_remove_not_self; exact ND).
  rewrite lfu_freq_remove by exact ND. destruct (k' =? k); reflexivity.
Qed.

Lemma LfuOK_ext b ks ks' : (forall k, In k ks <-> In k ks') -> LfuOK b ks -> LfuOK b ks'.
Proof.
  intros E [Sorted Pos NonEmpty NoDupK Union]. constructor; try assumption. intros k. rewrite Union. apply E.
Qed.

Lemma LfuOK_nil : LfuOK [] [].
Proof. constructor; cbn; try (constructor; fail). intros k; tauto. Qed.

Lemma LfuOK_readd b ks f k : NoDup ks -> In k ks -> 1 <= f -> LfuOK b ks -> LfuOK (lfu_add_at (lfu_remove b k) f k) ks.
Proof.
  intros ND Hk Hf LO. apply (LfuOK_ext _ (k :: remz ks k)).
  - intros x. cbn [In]. rewrite remz_In by exact ND. destruct (Z.eq_dec x k) as [->|N]; [tauto|]. intuition congruence.
  - apply LfuOK_add_at; [exact Hf|apply remz_not_self; exact ND|apply LfuOK_remove; assumption].
Qed.

(* a read hit moves k from its bucket to the next frequency *)
Lemma lfu_increment_spec b ks k : NoDup ks -> In k ks -> LfuOK b ks ->
  LfuOK (lfu_increment b k) ks /\
  forall k', lfu_freq (lfu_increment b k) k' = if k' =? k then lfu_freq b k + 1 else lfu_freq b k'.
Proof.
  intros ND Hk LO. unfold lfu_increment.
  pose proof (lfu_freq_pos b k (lo_pos _ _ LO) (proj2 (lo_union _ _ LO k) Hk)) as Hp.
  destruct (Z.eqb_spec (lfu_freq b k) 0) as [E|E]; [lia|]. split.
  - apply LfuOK_readd; [assumption..|lia|assumption].
  - intros k'. apply lfu_freq_readd, (lo_nodup _ _ LO).
Qed.

Lemma lfu_min_bucket_min b k vk :
  StronglySorted Z.lt (map fst b) -> In vk (lfu_min_bucket b) -> In k (lfu_keys b) ->
  lfu_freq b vk <= lfu_freq b k.
Proof.
  destruct b as [|[g ks] r]; cbn [lfu_min_bucket]; [intros _ []|].
  intros HS Hv Hk. cbn [lfu_freq]. apply memz_In in Hv. rewrite Hv.
  destruct (memz ks k) eqn:E; [lia|].
  cbn [map fst] in HS. inversion HS as [|? ? Hr Hg]; subst.
  rewrite lfu_keys_cons in Hk. apply in_app_or in Hk. destruct Hk as [Hk|Hk]; [apply memz_In in Hk; congruence|].
  apply lfu_freq_in in Hk. rewrite Forall_forall in Hg. specialize (Hg _ Hk). lia.
Qed.

Lemma lfu_min_bucket_sub b k : In k (lfu_min_bucket b) -> In k (lfu_keys b).
Proof.
  destruct b as [|[g ks] r]; cbn [lfu_min_bucket]; [intros []|]. rewrite lfu_keys_cons. intros H. apply in_or_app; tauto.
Qed.

(* unpub = false: a resident item is published, so drop_item takes the branch that frees its table slot *)
Definition item_ok (it : item) : Prop := 0 <= cost it /\ unpub it = false.

(* ci_prob / ci_main / ci_hand: the classic path never touches the Sieve queues, and shard_items / clear_shard
   read them, so they have to be known empty *)
Record CInv (pol : Z) (s : shard) : Prop := {
  ci_classic : is_sieve s pol = false;                   (* LRU / LFU / FIFO, or Sieve with cap = 0 *)
  ci_tab_nodup : NoDup (tabk s);
  ci_lst_nodup : NoDup (map key (lst s));
  ci_dom : forall k, In k (tabk s) <-> In k (map key (lst s));
  ci_size : size s = zlen (lst s);
  ci_scost : scost s = sum_cost (lst s);
  ci_items : Forall item_ok (lst s);
  ci_prob : prob s = [];
  ci_main : main s = [];
  ci_hand : hand s = None;
  ci_lfu : pol = policyLFU -> LfuOK (lfu s) (tabk s)
}.

Fixpoint cnt {A} (f : A -> bool) (l : list A) : Z :=
  match l with [] => 0 | x :: r => (if f x then 1 else 0) + cnt f r end.

Lemma cnt_app {A} (f : A -> bool) a b : cnt f (a ++ b) = cnt f a + cnt f b.
Proof. induction a as [|x a IH]; cbn [cnt app]; lia. Qed.

Lemma cnt_nonneg {A} (f : A -> bool) l : 0 <= cnt f l.
Proof. induction l as [|x r IH]; cbn [cnt]; [lia|]. destruct (f x); lia. Qed.

Lemma cnt_le_length {A} (f : A -> bool) l : cnt f l <= Z.of_nat (length l).
Proof. induction l as [|x r IH]; cbn [cnt length]; [lia|]. destruct (f x); lia. Qed.

Lemma cnt_sumZ {A} (f : A -> bool) l : cnt f l = sumZ (map (fun x => if f x then 1 else 0) l).
Proof. induction l as [|x r IH]; cbn [cnt map sumZ]; [reflexivity|]. rewrite IH. reflexivity. Qed.

Definition is_tag (t k v : Z) (x : Z * Z * Z) : bool :=
  let '(t', k', v') := x in (t' =? t) && (k' =? k) && (v' =? v).
Definition is_drop (k v : Z) (x : Z * Z * Z) : bool :=
  let '(t', k', v') := x in (10 <=? t') && (k' =? k) && (v' =? v).
Definition is_kv (k v : Z) (it : item) : bool := (key it =? k) && (val it =? v).

(* every value ever written for k is resident, or was replaced, cleared or dropped *)
Definition Ledger (s : shard) : Prop :=
  forall k v, cnt (is_tag 0 k v) (glog s) =
              cnt (is_kv k v) (lst s) + cnt (is_tag 1 k v) (glog s) + cnt (is_tag 2 k v) (glog s) + cnt (is_drop k v) (glog s).

Definition notif_of (m : Z) (x : Z * Z * Z) : list notif :=
  let '(t, k, v) := x in
  if (10 <=? t) && mask_has m (t - 10) then [{| nkey := k; nval := v; nreason := t - 10 |}] else [].
Definition notifs_of (m : Z) (g : list (Z * Z * Z)) : list notif := flat_map (notif_of m) g.

(* the notification log is exactly the masked dropped entries of the history, in order *)
Definition NotifLog (m : Z) (s : shard) : Prop := nlog s = notifs_of m (glog s).

Lemma notifs_of_app m a b : notifs_of m (a ++ b) = notifs_of m a ++ notifs_of m b.
Proof. unfold notifs_of. apply flat_map_app. Qed.

Definition Good (pol m : Z) (s : shard) : Prop := CInv pol s /\ Ledger s /\ NotifLog m s.

Lemma Good_intro pol m s : CInv pol s -> Ledger s -> NotifLog m s -> Good pol m s.
Proof. intros; split; [|split]; assumption. Qed.

(* a transition that only touches evs / pend / serr / counters / segment caps *)
Record Frame (s s' : shard) : Prop := {
  fr_cap : cap s' = cap s; fr_costcap : costcap s' = costcap s;
  fr_tabk : tabk s' = tabk s; fr_lst : lst s' = lst s; fr_lfu : lfu s' = lfu s;
  fr_prob : prob s' = prob s; fr_main : main s' = main s; fr_hand : hand s' = hand s;
  fr_size : size s' = size s; fr_scost : scost s' = scost s; fr_staged : staged s' = staged s;
  fr_glog : glog s' = glog s; fr_nlog : nlog s' = nlog s
}.

Lemma Frame_refl s : Frame s s.
Proof. constructor; reflexivity. Qed.

Lemma Frame_trans s1 s2 s3 : Frame s1 s2 -> Frame s2 s3 -> Frame s1 s3.
Proof. intros [] []. constructor; congruence. Qed.

Lemma Frame_sym s1 s2 : Frame s1 s2 -> Frame s2 s1.
Proof. intros []. constructor; congruence. Qed.

Lemma Frame_sh_err s c : Frame s (sh_err s c).
Proof. constructor; reflexivity. Qed.
Lemma Frame_sh_evs s e p : Frame s (sh_evs s e p).
Proof. constructor; reflexivity. Qed.
Lemma Frame_sh_caps s p : Frame s (sh_caps s p).
Proof. constructor; reflexivity. Qed.
Lemma Frame_sh_stats s a r g p pe me : Frame s (sh_stats s a r g p pe me).
Proof. constructor; reflexivity. Qed.

Lemma is_sieve_cap s s' pol : cap s' = cap s -> is_sieve s' pol = is_sieve s pol.
Proof. unfold is_sieve. intros ->. reflexivity. Qed.

Lemma CInv_frame pol s s' : Frame s s' -> CInv pol s -> CInv pol s'.
Proof.
  intros F C.
  constructor; rewrite ?(fr_tabk _ _ F), ?(fr_lst _ _ F), ?(fr_lfu _ _ F), ?(fr_prob _ _ F), ?(fr_main _ _ F),
    ?(fr_hand _ _ F), ?(fr_size _ _ F), ?(fr_scost _ _ F); try apply C.
  rewrite (is_sieve_cap s s' pol (fr_cap _ _ F)). apply C.
Qed.

Lemma CInv_empty pol s :
  is_sieve s pol = false -> tabk s = [] -> lst s = [] -> lfu s = [] -> prob s = [] -> main s = [] -> hand s = None ->
  size s = 0 -> scost s = 0 -> CInv pol s.
Proof.
  intros HS T L LF P M H SZ SC. constructor; rewrite ?T, ?L, ?LF; try assumption.
  - constructor.
  - constructor.
  - intros k. reflexivity.
  - constructor.
  - intros _. exact LfuOK_nil.
Qed.

Lemma CInv_sh_ghost pol s g n : CInv pol s -> CInv pol (sh_ghost s g n).
Proof. intros []. constructor; assumption. Qed.

(* the shared list may be replaced by any list over the same keys *)
Lemma CInv_relist pol s l' lf' sc' :
  CInv pol s -> Permutation (map key l') (map key (lst s)) -> sc' = sum_cost l' -> Forall item_ok l' ->
  (pol = policyLFU -> LfuOK lf' (tabk s)) ->
  CInv pol (sh_set s (tabk s) l' lf' (prob s) (main s) (hand s) (size s) sc' (staged s)).
Proof.
  intros C HP Hsc HF HL. constructor; sfld; try assumption; try apply C.
  - exact (Permutation_NoDup (Permutation_sym HP) (ci_lst_nodup _ _ C)).
  - intros x. rewrite (ci_dom _ _ C x). split; apply Permutation_in; [symmetry|]; exact HP.
  - rewrite (ci_size _ _ C). unfold zlen. rewrite <- (map_length key l'), (Permutation_length HP), map_length. reflexivity.
Qed.

Lemma Ledger_frame s s' : Frame s s' -> Ledger s -> Ledger s'.
Proof. intros F L k v. rewrite (fr_glog _ _ F), (fr_lst _ _ F). apply L. Qed.

Lemma NotifLog_frame m s s' : Frame s s' -> NotifLog m s -> NotifLog m s'.
Proof. unfold NotifLog. intros F L. rewrite (fr_glog _ _ F), (fr_nlog _ _ F). exact L. Qed.

(* DropRel: the effect of dropping one resident item (modulo a frame) *)
Definition mk_notif (it : item) (r : Z) : notif := {| nkey := key it; nval := val it; nreason := r |}.

Record DropRel (lf : bool) (m r : Z) (it : item) (s s' : shard) : Prop := {
  dr_cap : cap s' = cap s; dr_costcap : costcap s' = costcap s;
  dr_tabk : tabk s' = remz (tabk s) (key it);
  dr_lst : lst s' = remove_key (lst s) (key it);
  dr_lfu : lfu s' = if lf then lfu_remove (lfu s) (key it) else lfu s;
  dr_prob : prob s' = prob s; dr_main : main s' = main s; dr_hand : hand s' = hand s;
  dr_size : size s' = size s - 1; dr_scost : scost s' = scost s - cost it;
  dr_staged : staged s' = staged s ++ (if mask_has m r then [mk_notif it r] else []);
  dr_glog : glog s' = glog s ++ [(10 + r, key it, val it)];
  dr_nlog : nlog s' = nlog s ++ (if mask_has m r then [mk_notif it r] else [])
}.

Lemma DropRel_frame_r lf m r it s s1 s2 : DropRel lf m r it s s1 -> Frame s1 s2 -> DropRel lf m r it s s2.
Proof. intros [] []. constructor; congruence. Qed.

Lemma DropRel_frame_l lf m r it s0 s s1 : Frame s0 s -> DropRel lf m r it s s1 -> DropRel lf m r it s0 s1.
Proof.
  intros F D. constructor; try (destruct F, D; congruence). rewrite <- (fr_lfu _ _ F). apply D.
Qed.

Lemma CInv_drop pol lf m r it s s' :
  (pol = policyLFU -> lf = true) ->
  find_item (lst s) (key it) = Some it -> DropRel lf m r it s s' -> CInv pol s -> CInv pol s'.
Proof.
  intros Hlf Hf D C. pose proof (ci_tab_nodup _ _ C) as NT. pose proof (ci_lst_nodup _ _ C) as NL.
  constructor; rewrite ?(dr_tabk _ _ _ _ _ _ D), ?(dr_lst _ _ _ _ _ _ D), ?(dr_prob _ _ _ _ _ _ D), ?(dr_main _ _ _ _ _ _ D),
    ?(dr_hand _ _ _ _ _ _ D), ?(dr_size _ _ _ _ _ _ D), ?(dr_scost _ _ _ _ _ _ D); try apply C.
  - rewrite (is_sieve_cap s s' pol (dr_cap _ _ _ _ _ _ D)). apply C.
  - apply remz_NoDup; exact NT.
  - rewrite map_key_remove. apply remz_NoDup; exact NL.
  - intros k. rewrite map_key_remove, !remz_In by assumption. rewrite (ci_dom _ _ C k). tauto.
  - rewrite (ci_size _ _ C), !zlen_sumZ, (sumZ_remove _ _ _ _ Hf). reflexivity.
  - rewrite (ci_scost _ _ C). symmetry. apply (sumZ_remove cost _ _ _ Hf).
  - apply Forall_remove_key, C.
  - intros Hp. rewrite (dr_lfu _ _ _ _ _ _ D), (Hlf Hp). apply LfuOK_remove; [exact NT|apply C, Hp].
Qed.

(* the side condition of CInv_drop when lf is computed from the policy *)
Lemma drops_lf pol : (pol = policyLFU -> (pol =? policyLFU) = true).
Proof. intros ->. reflexivity. Qed.

Lemma Ledger_drop lf m r it s s' :
  0 <= r -> find_item (lst s) (key it) = Some it -> DropRel lf m r it s s' -> Ledger s -> Ledger s'.
Proof.
  intros Hr Hf D L k v. rewrite (dr_glog _ _ _ _ _ _ D), (dr_lst _ _ _ _ _ _ D), !cnt_app.
  rewrite (cnt_sumZ _ (remove_key _ _)), (sumZ_remove _ _ _ _ Hf), <- cnt_sumZ. specialize (L k v).
  cbn [cnt is_tag is_drop]. unfold is_kv in *.
  replace (10 + r =? 0) with false by lia. replace (10 + r =? 1) with false by lia.
  replace (10 + r =? 2) with false by lia. replace (10 <=? 10 + r) with true by lia.
  cbn [andb]. destruct ((key it =? k) && (val it =? v)); lia.
Qed.

Lemma NotifLog_drop lf m r it s s' : DropRel lf m r it s s' -> NotifLog m s -> NotifLog m s'.
Proof.
  unfold NotifLog. intros D L. rewrite (dr_glog _ _ _ _ _ _ D), (dr_nlog _ _ _ _ _ _ D), notifs_of_app, L.
  f_equal. unfold notifs_of. cbn [flat_map notif_of]. rewrite app_nil_r.
  replace (10 + r - 10) with r by lia. unfold mk_notif.
  destruct (Z.leb_spec 10 (10 + r)) as [G|G]; cbn [andb]; [reflexivity|].
  unfold mask_has. rewrite Z.testbit_neg_r by lia. reflexivity.
Qed.

Definition Stable (pol m r : Z) (P : shard -> Prop) : Prop :=
  (forall s s', Frame s s' -> P s -> P s') /\
  (forall it s s', CInv pol s -> find_item (lst s) (key it) = Some it ->
                   DropRel (pol =? policyLFU) m r it s s' -> P s -> P s').

Lemma Stable_and pol m r (P Q : shard -> Prop) :
  Stable pol m r P -> Stable pol m r Q -> Stable pol m r (fun s => P s /\ Q s).
Proof. intros [P1 P2] [Q1 Q2]. split; [intros s s' F [? ?]|intros it s s' C Hf D [? ?]]; split; eauto. Qed.

Lemma Stable_imp pol m r (A : Prop) (P : shard -> Prop) :
  (A -> Stable pol m r P) -> Stable pol m r (fun s => A -> P s).
Proof. intros SP. split; [intros s s' F H a|intros it s s' C Hf D H a]; destruct (SP a) as [P1 P2]; eauto. Qed.

Lemma CInv_stable pol m r : Stable pol m r (CInv pol).
Proof. split; [apply CInv_frame|]. intros it s s' _. apply CInv_drop, drops_lf. Qed.

Lemma Good_stable pol m r : 0 <= r -> Stable pol m r (Good pol m).
Proof.
  intros Hr. apply Stable_and; [apply CInv_stable|apply Stable_and].
  - split; [apply Ledger_frame|]. intros it s s' _. apply Ledger_drop, Hr.
  - split; [apply NotifLog_frame|]. intros it s s' _ _. apply NotifLog_drop.
Qed.

Lemma Good_frame pol m s s' : Frame s s' -> Good pol m s -> Good pol m s'.
Proof. apply (Good_stable pol m 0). lia. Qed.

Lemma tabk_notin_stable pol m r k : Stable pol m r (fun s => ~ In k (tabk s)).
Proof.
  split; [intros s s' F; rewrite (fr_tabk _ _ F); tauto|].
  intros it s s' _ _ D H Hi. rewrite (dr_tabk _ _ _ _ _ _ D) in Hi. exact (H (remz_In_weak _ _ _ Hi)).
Qed.

Theorem lookup_spec pol s k :
  CInv pol s ->
  lookup s pol k = find_item (lst s) k /\ ((exists it, lookup s pol k = Some it) <-> In k (tabk s)).
Proof.
  intros C. unfold lookup. rewrite (ci_classic _ _ C).
  destruct (memz (tabk s) k) eqn:E; cbn [negb].
  - apply memz_In in E. split; [reflexivity|]. split; [intros _; exact E|]. intros _.
    apply find_item_In_key. apply (ci_dom _ _ C). exact E.
  - apply memz_false in E. split.
    + symmetry. apply find_item_none. rewrite <- (ci_dom _ _ C). exact E.
    + split; [intros [it H]; discriminate|tauto].
Qed.

Lemma lookup_find pol s k : CInv pol s -> lookup s pol k = find_item (lst s) k.
Proof. intros C. apply (lookup_spec pol s k C). Qed.

Lemma absent_not_in pol s k : CInv pol s -> find_item (lst s) k = None -> ~ In k (tabk s).
Proof. intros C H Hi. apply (ci_dom _ _ C) in Hi. apply find_item_none in H. tauto. Qed.

Lemma resident_ok pol s it :
  CInv pol s -> find_item (lst s) (key it) = Some it -> In (key it) (tabk s) /\ unpub it = false /\ 0 <= cost it.
Proof.
  intros C H. destruct (find_item_some _ _ _ H) as [Hi _].
  pose proof (ci_items _ _ C) as F. rewrite Forall_forall in F. destruct (F it Hi) as [F1 F2].
  repeat split; try assumption. apply (ci_dom _ _ C). apply in_map. exact Hi.
Qed.

Lemma lookup_resident pol s k it :
  CInv pol s -> lookup s pol k = Some it ->
  find_item (lst s) (key it) = Some it /\ key it = k /\ In k (tabk s) /\ In it (lst s) /\ item_ok it.
Proof.
  intros C H. rewrite (lookup_find _ _ _ C) in H. destruct (find_item_some _ _ _ H) as [Hi <-].
  destruct (resident_ok _ _ _ C H) as (R1 & R2 & R3). repeat split; assumption.
Qed.

Lemma tabk_lst_nil pol s : CInv pol s -> (tabk s = [] <-> lst s = []).
Proof.
  intros C. pose proof (ci_dom _ _ C) as D. split; intros E; rewrite E in D.
  - destruct (lst s) as [|it r]; [reflexivity|]. destruct (proj2 (D (key it)) (or_introl eq_refl)).
  - destruct (tabk s) as [|k r]; [reflexivity|]. destruct (proj1 (D k) (or_introl eq_refl)).
Qed.

Lemma empty_sizes pol s : CInv pol s -> tabk s = [] -> size s = 0 /\ scost s = 0.
Proof.
  intros C T. rewrite (ci_size _ _ C), (ci_scost _ _ C), (proj1 (tabk_lst_nil pol s C) T). split; reflexivity.
Qed.

Lemma drop_item_rel e s it r s' ok d :
  is_sieve s (e_pol e) = false -> unpub it = false -> In (key it) (tabk s) ->
  drop_item e s it r = (s', ok, d) ->
  DropRel (e_pol e =? policyLFU) (e_mask e) r it s s' /\ ok = true /\
  d = (if e_stats e && (r =? reasonCapacity) then 1 else 0) /\ serr s' = serr s /\ evs s' = evs s /\ pend s' = pend s.
Proof.
  intros Hs Hu Hk. apply memz_In in Hk. unfold drop_item. rewrite Hu, Hk, Hs. cbn [andb negb].
  intros H. injection H as <- <- <-.
  split; [|repeat split; reflexivity].
  constructor; sfld; try reflexivity; unfold mk_notif; destruct (mask_has (e_mask e) r); rewrite ?app_nil_r; reflexivity.
Qed.

Lemma drop_item_absent e s it r : unpub it = false -> ~ In (key it) (tabk s) -> drop_item e s it r = (s, false, 0).
Proof.
  intros Hu Hk. apply memz_false in Hk. unfold drop_item. rewrite Hu, Hk. reflexivity.
Qed.

Lemma drop_item_stable P e s it r s' ok d :
  Stable (e_pol e) (e_mask e) r P -> CInv (e_pol e) s -> find_item (lst s) (key it) = Some it ->
  drop_item e s it r = (s', ok, d) -> P s -> P s'.
Proof.
  intros [_ HD] C Hf H. destruct (resident_ok _ _ _ C Hf) as (R1 & R2 & _).
  apply drop_item_rel in H; [|apply (ci_classic _ _ C)|exact R2|exact R1]. exact (HD it s s' C Hf (proj1 H)).
Qed.

(* serr records the first error only.  The only codes the classic write path can add are the LFU oracle
   ones: event missing (205), event of another kind (105), victim outside the minimum bucket (302). *)
Definition OracleErr (pol : Z) (s s' : shard) : Prop :=
  serr s' = serr s \/ (serr s = 0 /\ pol = policyLFU /\ (serr s' = 105 \/ serr s' = 205 \/ serr s' = 302)).

Lemma OracleErr_trans pol s1 s2 s3 : OracleErr pol s1 s2 -> OracleErr pol s2 s3 -> OracleErr pol s1 s3.
Proof.
  unfold OracleErr. intros [A|A] [B|B]; [left; congruence|right; rewrite <- A; exact B|right; rewrite B; exact A|lia].
Qed.

Lemma sh_err_serr s c : c <> 0 ->
  serr (sh_err s c) <> 0 /\ (serr (sh_err s c) = serr s \/ serr s = 0 /\ serr (sh_err s c) = c).
Proof. intros Hc. sfld. destruct (Z.eqb_spec (serr s) 0); lia. Qed.

Lemma pop_ev_spec s kind :
  0 <= kind ->
  let '(s1, v) := pop_ev s kind in
  Frame s s1 /\
  match v with
  | Some _ => serr s1 = serr s
  | None => serr s1 <> 0 /\ (serr s1 = serr s \/ serr s = 0 /\ (serr s1 = 100 + kind \/ serr s1 = 200 + kind))
  end.
Proof.
  intros Hk. unfold pop_ev. destruct (evs s) as [|[kd a] r]; [|destruct (kd =? kind)].
  - split; [apply Frame_sh_err|]. destruct (sh_err_serr s (200 + kind)) as [A [B|[B1 B2]]]; [lia| |].
    + exact (conj A (or_introl B)).
    + exact (conj A (or_intror (conj B1 (or_intror B2)))).
  - split; [apply Frame_sh_evs|reflexivity].
  - split; [apply Frame_sh_err|]. destruct (sh_err_serr s (100 + kind)) as [A [B|[B1 B2]]]; [lia| |].
    + exact (conj A (or_introl B)).
    + exact (conj A (or_intror (conj B1 (or_introl B2)))).
Qed.

Lemma DropRel_lfu_pre m r it s s3 :
  DropRel false m r it
    (sh_set s (tabk s) (lst s) (lfu_remove (lfu s) (key it)) (prob s) (main s) (hand s) (size s) (scost s) (staged s)) s3 ->
  DropRel true m r it s s3.
Proof. intros []. constructor; assumption. Qed.

(* the capacity drop of evict_one: drop_item is run under the LRU environment, so it leaves the LFU buckets alone *)
Lemma drop_capacity_rel e s it :
  unpub it = false -> In (key it) (tabk s) ->
  let '(s3, _, d) := drop_item {| e_pol := policyLRU; e_stats := e_stats e; e_mask := e_mask e |} s it reasonCapacity in
  DropRel false (e_mask e) reasonCapacity it s s3 /\ serr s3 = serr s /\ d = (if e_stats e then 1 else 0).
Proof.
  intros Hu Hk. destruct (drop_item _ s it reasonCapacity) as [[s3 ok] d] eqn:DI.
  apply drop_item_rel in DI; [|reflexivity|exact Hu|exact Hk]. destruct DI as (DR & _ & Hd & Hs & _).
  split; [exact DR|]. split; [exact Hs|]. rewrite Hd. cbn [e_stats]. rewrite Z.eqb_refl, andb_true_r. reflexivity.
Qed.

(** evict_one: either drops one resident item (the list tail, or an oracle-chosen member of the
    minimum LFU bucket), or changes nothing but the oracle queue and serr; on a non-empty shard the
    latter happens only when LFU refuses the oracle event, and then serr is set. *)
Lemma evict_one_spec pol e s s1 d :
  e_pol e = pol -> CInv pol s -> evict_one e s = (s1, d) ->
  (exists it, find_item (lst s) (key it) = Some it /\
              DropRel (pol =? policyLFU) (e_mask e) reasonCapacity it s s1 /\
              serr s1 = serr s /\ d = (if e_stats e then 1 else 0) /\
              (pol <> policyLFU -> last_item (lst s) = Some it) /\
              (pol = policyLFU -> In (key it) (lfu_min_bucket (lfu s))))
  \/ (Frame s s1 /\ d = 0 /\ OracleErr pol s s1 /\ (tabk s <> [] -> pol = policyLFU /\ serr s1 <> 0)).
Proof.
  intros Hp C. unfold evict_one. rewrite Hp.
  assert (Nop : (s, 0) = (s1, d) -> tabk s = [] ->
                Frame s s1 /\ d = 0 /\ OracleErr pol s s1 /\ (tabk s <> [] -> pol = policyLFU /\ serr s1 <> 0)).
  { intros H T. injection H as <- <-. split; [apply Frame_refl|]. split; [reflexivity|]. split; [left; reflexivity|tauto]. }
  destruct (Z.eqb_spec pol policyLFU) as [PL|PL].
  - pose proof (ci_lfu _ _ C PL) as LO.
    destruct (lfu s) as [|b0 br] eqn:EL.
    { intros H. right. apply (Nop H). destruct (tabk s) as [|k r]; [reflexivity|].
      destruct (proj2 (lo_union _ _ LO k) (or_introl eq_refl)). }
    pose proof (pop_ev_spec s evLfu ltac:(discriminate)) as P.
    destruct (pop_ev s evLfu) as [s0 v]. destruct P as [F P]. destruct v as [a|].
    + rewrite (fr_lfu _ _ F).
      destruct (memz (lfu_min_bucket (lfu s)) a) eqn:M; cbn [negb].
      * apply memz_In in M.
        assert (Ia : In a (tabk s)) by (apply (lo_union _ _ LO); rewrite <- EL; apply lfu_min_bucket_sub; exact M).
        destruct (find_item_In_key _ _ (proj1 (ci_dom _ _ C a) Ia)) as [it Hit].
        sfld. rewrite (fr_lst _ _ F), Hit. destruct (find_item_some _ _ _ Hit) as [_ <-].
        destruct (resident_ok _ _ _ C Hit) as (R1 & R2 & _).
        match goal with |- context [drop_item ?e' ?s2 it reasonCapacity] =>
          pose proof (drop_capacity_rel e s2 it R2) as DC; destruct (drop_item e' s2 it reasonCapacity) as [[s3 ok] d3] end.
        destruct DC as (DR & Hs & Hd); [sfld; rewrite (fr_tabk _ _ F); exact R1|].
        intros H. injection H as <- <-. left. exists it. split; [exact Hit|]. split.
        { apply (DropRel_frame_l _ _ _ _ s s0 s3 F), DropRel_lfu_pre.
          rewrite <- (fr_lst _ _ F), <- (fr_lfu _ _ F) in DR. exact DR. }
        split; [exact (eq_trans Hs P)|]. split; [exact Hd|]. split; [congruence|]. intros _. rewrite <- EL. exact M.
      * intros H. injection H as <- <-. right.
        destruct (sh_err_serr s0 302) as [A B]; [discriminate|].
        split; [exact (Frame_trans _ _ _ F (Frame_sh_err s0 302))|]. split; [reflexivity|].
        split; [unfold OracleErr; clear - P B PL; lia|tauto].
    + intros H. injection H as <- <-. right. split; [exact F|]. split; [reflexivity|].
      split; [unfold OracleErr, evLfu in *; clear - P PL; lia|tauto].
  - destruct (last_item (lst s)) as [it|] eqn:L.
    + pose proof (find_item_unique (ci_lst_nodup _ _ C) (last_item_In _ _ L) eq_refl) as Hit.
      destruct (resident_ok _ _ _ C Hit) as (R1 & R2 & _).
      pose proof (drop_capacity_rel e s it R2 R1) as DC.
      destruct (drop_item _ s it reasonCapacity) as [[s3 ok] d3]. destruct DC as (DR & Hs & Hd).
      intros H. injection H as <- <-. left. exists it.
      split; [exact Hit|]. split; [exact DR|]. split; [exact Hs|]. split; [exact Hd|]. split; [intros _; reflexivity|congruence].
    + intros H. right. apply (Nop H). apply (tabk_lst_nil pol s C). apply last_item_None. exact L.
Qed.

Definition ew_cond (pre : bool) (add : Z) (s : shard) : bool :=
  (if pre then would_over s add else over_capacity s) && (0 <? zlen (tabk s)).

Lemma ew_cond_frame pre add s s' : Frame s s' -> ew_cond pre add s' = ew_cond pre add s.
Proof.
  intros F. unfold ew_cond, would_over, over_capacity.
  rewrite (fr_cap _ _ F), (fr_costcap _ _ F), (fr_tabk _ _ F), (fr_size _ _ F), (fr_scost _ _ F). reflexivity.
Qed.

Lemma ew_cond_false pol pre add s :
  CInv pol s -> ew_cond pre add s = false ->
  (if pre then would_over s add else over_capacity s) = false \/ (size s = 0 /\ scost s = 0).
Proof.
  unfold ew_cond. intros C H. apply andb_false_iff in H. destruct H as [H|H]; [left; exact H|right].
  apply (empty_sizes pol s C). destruct (tabk s); [reflexivity|]. unfold zlen in H. cbn [length] in H. lia.
Qed.

Lemma ew_cond_tabk pre add s : ew_cond pre add s = true -> tabk s <> [].
Proof.
  unfold ew_cond. intros H E. rewrite E in H. unfold zlen in H. cbn [length] in H.
  rewrite andb_true_iff in H. destruct H as [_ H]. discriminate.
Qed.

(* Drops G lf m s l s' : from s, the items l are dropped in this order for reason capacity (each one
   resident when dropped, each drop taken in a state where the guard G holds), reaching s'
   (modulo frames: oracle queue, serr). *)
Inductive Drops (G : shard -> bool) (lf : bool) (m : Z) : shard -> list item -> shard -> Prop :=
| Drops_nil s s' : Frame s s' -> Drops G lf m s [] s'
| Drops_cons s it s1 l s' :
    G s = true -> find_item (lst s) (key it) = Some it -> DropRel lf m reasonCapacity it s s1 ->
    Drops G lf m s1 l s' -> Drops G lf m s (it :: l) s'.

Lemma Drops_frame_l G lf m s0 s l s' :
  (forall a b, Frame a b -> G b = G a) -> Frame s0 s -> Drops G lf m s l s' -> Drops G lf m s0 l s'.
Proof.
  intros HG F D. destruct D as [s s' F'|s it s1 l s' g Hf DR D].
  - constructor. eapply Frame_trans; eauto.
  - econstructor.
    + rewrite <- (HG _ _ F). exact g.
    + rewrite <- (fr_lst _ _ F). exact Hf.
    + eapply DropRel_frame_l; eauto.
    + exact D.
Qed.

Lemma Drops_weaken G G' lf m s l s' : (forall a, G a = true -> G' a = true) -> Drops G lf m s l s' -> Drops G' lf m s l s'.
Proof. intros HG. induction 1; [constructor; assumption|econstructor; eauto]. Qed.

Lemma Drops_nil_inv G lf m s l s' : G s = false -> Drops G lf m s l s' -> l = [] /\ Frame s s'.
Proof. intros Hg D. destruct D as [s s' F|s it s1 l s' g Hf DR D]; [tauto|congruence]. Qed.

Lemma Drops_stable G pol m P s l s' :
  Stable pol m reasonCapacity P -> Drops G (pol =? policyLFU) m s l s' -> CInv pol s -> P s -> CInv pol s' /\ P s'.
Proof.
  intros [HF HD]. induction 1 as [s s' F|s it s1 l s' g Hf DR D IH]; intros C Ps.
  - split; [eapply CInv_frame|eapply HF]; eauto.
  - apply IH; [exact (CInv_drop _ _ _ _ _ _ _ (drops_lf pol) Hf DR C)|exact (HD _ _ _ C Hf DR Ps)].
Qed.

Definition drop_entry (it : item) : Z * Z * Z := (10 + reasonCapacity, key it, val it).

Record DropsEff (lf : bool) (m : Z) (s : shard) (l : list item) (s' : shard) : Prop := {
  de_cap : cap s' = cap s; de_costcap : costcap s' = costcap s;
  de_glog : glog s' = glog s ++ map drop_entry l;
  de_staged : staged s' = staged s ++ (if mask_has m reasonCapacity then map (fun it => mk_notif it reasonCapacity) l else []);
  de_nlog : nlog s' = nlog s ++ (if mask_has m reasonCapacity then map (fun it => mk_notif it reasonCapacity) l else []);
  de_find : forall k, find_item (lst s') k = if memz (map key l) k then None else find_item (lst s) k
}.

Lemma Drops_eff G pol lf m s l s' : (pol = policyLFU -> lf = true) -> Drops G lf m s l s' -> CInv pol s -> DropsEff lf m s l s'.
Proof.
  intros Hlf. induction 1 as [s s' F|s it s1 l s' g Hf DR D IH]; intros C.
  - constructor; cbn [map memz].
    + apply F.
    + apply F.
    + rewrite app_nil_r. apply F.
    + destruct (mask_has m reasonCapacity); rewrite app_nil_r; apply F.
    + destruct (mask_has m reasonCapacity); rewrite app_nil_r; apply F.
    + intros k. rewrite (fr_lst _ _ F). reflexivity.
  - specialize (IH (CInv_drop _ _ _ _ _ _ _ Hlf Hf DR C)). constructor.
    + rewrite (de_cap _ _ _ _ _ IH). apply DR.
    + rewrite (de_costcap _ _ _ _ _ IH). apply DR.
    + rewrite (de_glog _ _ _ _ _ IH), (dr_glog _ _ _ _ _ _ DR). cbn [map]. rewrite <- app_assoc. reflexivity.
    + rewrite (de_staged _ _ _ _ _ IH), (dr_staged _ _ _ _ _ _ DR).
      destruct (mask_has m reasonCapacity); cbn [map]; rewrite <- app_assoc; reflexivity.
    + rewrite (de_nlog _ _ _ _ _ IH), (dr_nlog _ _ _ _ _ _ DR).
      destruct (mask_has m reasonCapacity); cbn [map]; rewrite <- app_assoc; reflexivity.
    + intros k. rewrite (de_find _ _ _ _ _ IH), (dr_lst _ _ _ _ _ _ DR). cbn [map memz].
      destruct (Z.eqb_spec (key it) k) as [Ek|Ek]; cbn [orb].
      * subst k. rewrite find_remove_same by apply (ci_lst_nodup _ _ C). destruct (memz (map key l) (key it)); reflexivity.
      * rewrite find_remove_other by congruence. reflexivity.
Qed.

Lemma evict_while_unfold f e s pre add acc :
  evict_while (S f) e s pre add acc =
  if ew_cond pre add s then let '(s1, d) := evict_one e s in evict_while f e s1 pre add (acc + d) else (s, acc).
Proof. reflexivity. Qed.

(** evict_while: always a guarded drop sequence.  With fuel above the table size the fuel is never the reason
    it stops: the only new error codes are the oracle ones, and without an oracle error the loop condition is
    false at the end (second alternative of the premise; evict_while_enough below is that case).  The first
    alternative only carries the induction past a refused oracle event: that step uses fuel without shrinking the
    table, but it sets serr, which stays set, so the first conclusion holds and the second is void from there on. *)
Lemma evict_while_spec pol e : e_pol e = pol ->
  forall fuel s pre add acc s' acc',
  CInv pol s -> evict_while fuel e s pre add acc = (s', acc') ->
  exists l, Drops (ew_cond pre add) (pol =? policyLFU) (e_mask e) s l s' /\
            acc' = acc + (if e_stats e then zlen l else 0) /\
            (((pol = policyLFU /\ serr s <> 0) \/ (length (tabk s) < fuel)%nat) ->
             OracleErr pol s s' /\ ((pol <> policyLFU \/ serr s' = 0) -> ew_cond pre add s' = false)).
Proof.
  intros Hp. induction fuel as [|f IH]; intros s pre add acc s' acc' C H.
  - cbn [evict_while] in H. injection H as <- <-.
    exists []. split; [constructor; apply Frame_sh_err|].
    split; [destruct (e_stats e); symmetry; apply Z.add_0_r|].
    intros [[PL Hs]|Hl]; [|inversion Hl]. destruct (sh_err_serr s 304) as [A [B|[B _]]]; [discriminate| |contradiction].
    split; [left; exact B|]. intros [Q|Q]; [congruence|contradiction].
  - rewrite evict_while_unfold in H. destruct (ew_cond pre add s) eqn:Cd.
    + destruct (evict_one e s) as [s1 d] eqn:E1.
      destruct (evict_one_spec pol e s s1 d Hp C E1) as [(it & Hf & DR & Hs & Hd & _)|(F & Hd & Hc & Hn)].
      * destruct (IH s1 pre add (acc + d) s' acc' (CInv_drop _ _ _ _ _ _ _ (drops_lf pol) Hf DR C) H) as (l & D & Ha & Hrest).
        exists (it :: l). split; [econstructor; eauto|].
        split; [rewrite Ha, Hd, zlen_cons; destruct (e_stats e); ring|].
        intros Hfuel. unfold OracleErr. rewrite <- Hs. apply Hrest.
        destruct Hfuel as [[PL Hs0]|Hl]; [left; split; [exact PL|congruence]|right].
        destruct (resident_ok _ _ _ C Hf) as (R1 & _).
        rewrite (dr_tabk _ _ _ _ _ _ DR). rewrite <- (remz_length_nat _ _ R1) in Hl. apply Nat.succ_lt_mono, Hl.
      * destruct (IH s1 pre add (acc + d) s' acc' (CInv_frame _ _ _ F C) H) as (l & D & Ha & Hrest).
        exists l. split; [exact (Drops_frame_l _ _ _ _ _ _ _ (ew_cond_frame pre add) F D)|].
        split; [rewrite Ha, Hd; ring|]. intros _.
        destruct Hrest as (Hse & Hfin); [left; exact (Hn (ew_cond_tabk _ _ _ Cd))|].
        split; [exact (OracleErr_trans _ _ _ _ Hc Hse)|exact Hfin].
    + injection H as <- <-. exists []. split; [constructor; apply Frame_refl|].
      split; [destruct (e_stats e); symmetry; apply Z.add_0_r|]. intros _. split; [left; reflexivity|]. intros _. exact Cd.
Qed.

(* the form the write path uses: its fuel is one more than the table size *)
Lemma evict_while_enough pol e s pre add s' d :
  e_pol e = pol -> CInv pol s -> evict_while (S (length (tabk s))) e s pre add 0 = (s', d) ->
  exists l, Drops (ew_cond pre add) (pol =? policyLFU) (e_mask e) s l s' /\
            d = (if e_stats e then zlen l else 0) /\ OracleErr pol s s' /\
            ((pol <> policyLFU \/ serr s' = 0) -> ew_cond pre add s' = false).
Proof.
  intros Hp C H. destruct (evict_while_spec pol e Hp _ _ _ _ _ _ _ C H) as (l & D & Hd & Hrest).
  destruct Hrest as [He Hfin]; [right; apply Nat.lt_succ_diag_r|]. exists l. auto.
Qed.

Definition new_item (k v ex c : Z) : item :=
  {| key := k; val := v; exp := ex; cost := c; reuse := 0; visited := false; unpub := false |}.

(* state after the update of a resident key, before any eviction *)
Definition upd_state (pol : Z) (s : shard) (old : item) (k v ex c : Z) : shard :=
  sh_ghost (sh_set s (tabk s)
              (if pol =? policyLRU then new_item k v ex c :: remove_key (lst s) k else replace_item (lst s) (new_item k v ex c))
              (if pol =? policyLFU then lfu_add (lfu_remove (lfu s) k) k else lfu s)
              (prob s) (main s) (hand s) (size s) (scost s + (c - cost old)) (staged s))
           [(1, k, val old); (0, k, v)] [].

(* state after inserting a new key into s1 (the state after pre-eviction) *)
Definition ins_state (pol : Z) (s1 : shard) (k v ex c : Z) : shard :=
  sh_ghost (sh_set s1 (k :: tabk s1) (new_item k v ex c :: lst s1)
              (if pol =? policyLFU then lfu_add (lfu s1) k else lfu s1)
              (prob s1) (main s1) (hand s1) (size s1 + 1) (scost s1 + c) (staged s1)) [(0, k, v)] [].

(* the test [over_capacity s1] before the loop of the update path is the loop's own first test *)
Lemma apply_classic_hit e s k v ex c old :
  lookup s (e_pol e) k = Some old ->
  apply_classic e s k v ex c =
  let s1 := upd_state (e_pol e) s old k v ex c in
  let '(s2, d) := evict_while (S (length (tabk s1))) e s1 false 0 0 in (s2, true, d).
Proof.
  intros H. cbv zeta. set (s1 := upd_state (e_pol e) s old k v ex c).
  transitivity (if over_capacity s1 then let '(s2, d) := evict_while (S (length (tabk s1))) e s1 false 0 0 in (s2, true, d)
                else (s1, true, 0)).
  - unfold apply_classic. rewrite H. reflexivity.
  - destruct (over_capacity s1) eqn:O; [reflexivity|]. rewrite evict_while_unfold. unfold ew_cond. rewrite O. reflexivity.
Qed.

Lemma apply_classic_miss e s k v ex c :
  lookup s (e_pol e) k = None ->
  apply_classic e s k v ex c =
  let '(s1, d) := evict_while (S (length (tabk s))) e s true c 0 in
  (ins_state (e_pol e) s1 k v ex c, true, d).
Proof. intros H. unfold apply_classic. rewrite H. reflexivity. Qed.

(* decide the tests of is_tag / is_drop on the literal tags 0, 1, 2 *)
Ltac tagsimp :=
  change (0 =? 0) with true; change (1 =? 1) with true; change (2 =? 2) with true;
  change (1 =? 0) with false; change (0 =? 1) with false; change (2 =? 0) with false; change (0 =? 2) with false;
  change (1 =? 2) with false; change (2 =? 1) with false; change (10 <=? 0) with false; change (10 <=? 1) with false;
  change (10 <=? 2) with false; cbn [andb].

Lemma CInv_upd pol s old k v ex c :
  CInv pol s -> find_item (lst s) k = Some old -> 0 <= c -> CInv pol (upd_state pol s old k v ex c).
Proof.
  intros C Hf Hc.
  destruct (relist_spec (pol =? policyLRU) (lst s) (new_item k v ex c) old Hf (ci_lst_nodup _ _ C)) as (HP & HW & HF).
  cbn [key new_item] in HP, HW, HF. apply CInv_sh_ghost, CInv_relist; [exact C|exact HP| | |].
  - unfold sum_cost. rewrite (HW cost), (ci_scost _ _ C). cbn [cost new_item]. unfold sum_cost. ring.
  - apply HF; [split; [exact Hc|reflexivity]|apply (ci_items _ _ C)].
  - intros PL. rewrite PL, Z.eqb_refl. destruct (find_item_some _ _ _ Hf) as [Hin Hk].
    apply LfuOK_readd; [apply (ci_tab_nodup _ _ C)| |lia|apply (ci_lfu _ _ C PL)].
    apply (ci_dom _ _ C). rewrite <- Hk. apply in_map. exact Hin.
Qed.

Lemma Good_upd pol m s old k v ex c :
  Good pol m s -> find_item (lst s) k = Some old -> 0 <= c -> Good pol m (upd_state pol s old k v ex c).
Proof.
  intros (C & L & N) Hf Hc. apply Good_intro; [apply CInv_upd; assumption| |].
  - intros k' v'. destruct (find_item_some _ _ _ Hf) as [_ Hk].
    destruct (relist_spec (pol =? policyLRU) (lst s) (new_item k v ex c) old Hf (ci_lst_nodup _ _ C)) as (_ & HW & _).
    cbn [key new_item] in HW. unfold upd_state. sfld. specialize (L k' v').
    rewrite !cnt_app, (cnt_sumZ (is_kv k' v')), HW, <- cnt_sumZ.
    cbn [cnt is_tag is_drop]. tagsimp. unfold is_kv in *. cbn [key val new_item]. rewrite Hk.
    clear - L. destruct ((k =? k') && (val old =? v')), ((k =? k') && (v =? v')); lia.
  - unfold NotifLog, upd_state in *. sfld. rewrite N, notifs_of_app. reflexivity.
Qed.

Lemma CInv_ins pol s k v ex c :
  CInv pol s -> ~ In k (tabk s) -> 0 <= c -> CInv pol (ins_state pol s k v ex c).
Proof.
  intros C Hk Hc. unfold ins_state. constructor; sfld; try apply C.
  - constructor; [exact Hk|apply C].
  - cbn [map key new_item]. constructor; [rewrite <- (ci_dom _ _ C k); exact Hk|apply C].
  - intros x. cbn [map key new_item In]. rewrite (ci_dom _ _ C x). tauto.
  - rewrite (ci_size _ _ C), zlen_cons. reflexivity.
  - rewrite (ci_scost _ _ C). unfold sum_cost. cbn [map sumZ cost new_item]. ring.
  - constructor; [split; [exact Hc|reflexivity]|apply C].
  - intros PL. rewrite PL, Z.eqb_refl. unfold lfu_add. apply LfuOK_add_at; [lia|exact Hk|apply C, PL].
Qed.

Lemma Good_ins pol m s k v ex c :
  Good pol m s -> ~ In k (tabk s) -> 0 <= c -> Good pol m (ins_state pol s k v ex c).
Proof.
  intros (C & L & N) Hk Hc. apply Good_intro; [apply CInv_ins; assumption| |].
  - intros k' v'. unfold ins_state. sfld. rewrite !cnt_app. specialize (L k' v').
    cbn [cnt is_tag is_drop]. tagsimp. unfold is_kv in *. cbn [key val new_item].
    clear - L. destruct ((k =? k') && (v =? v')); lia.
  - unfold NotifLog, ins_state in *. sfld. rewrite N, notifs_of_app. reflexivity.
Qed.

(** A complete description of apply_classic.  The fuel always suffices, so the only new error codes are the
    LFU oracle ones (never 303, never 304), and without an oracle error the loop ends with its condition false. *)
Lemma apply_classic_full pol e s k v ex c s' cm d :
  e_pol e = pol -> CInv pol s -> 0 <= c -> apply_classic e s k v ex c = (s', cm, d) ->
  cm = true /\ OracleErr pol s s' /\ CInv pol s' /\
  match find_item (lst s) k with
  | Some old =>
      exists l, Drops (ew_cond false 0) (pol =? policyLFU) (e_mask e) (upd_state pol s old k v ex c) l s' /\
                d = (if e_stats e then zlen l else 0) /\
                ((pol <> policyLFU \/ serr s' = 0) -> ew_cond false 0 s' = false)
  | None =>
      exists l s1, Drops (ew_cond true c) (pol =? policyLFU) (e_mask e) s l s1 /\
                   s' = ins_state pol s1 k v ex c /\
                   d = (if e_stats e then zlen l else 0) /\
                   ((pol <> policyLFU \/ serr s' = 0) -> ew_cond true c s1 = false)
  end.
Proof.
  intros Hp C Hc H. rewrite <- (lookup_find pol s k C).
  destruct (lookup s pol k) as [old|] eqn:LK; rewrite <- Hp in LK.
  - rewrite (apply_classic_hit _ _ _ _ _ _ _ LK) in H. cbv zeta in H. rewrite Hp in *.
    rewrite (lookup_find _ _ _ C) in LK.
    destruct (evict_while _ e _ false 0 0) as [s2 d2] eqn:EW. injection H as <- <- <-.
    pose proof (CInv_upd pol s old k v ex c C LK Hc) as C0.
    destruct (evict_while_enough pol e _ _ _ _ _ Hp C0 EW) as (l & D & Hd & He & Hfin).
    split; [reflexivity|]. split; [exact He|]. split; [exact (proj1 (Drops_stable _ _ _ _ _ _ _ (CInv_stable _ _ _) D C0 C0))|].
    exists l. split; [exact D|]. split; [exact Hd|exact Hfin].
  - rewrite (apply_classic_miss _ _ _ _ _ _ LK) in H. rewrite Hp in *.
    destruct (evict_while _ e s true c 0) as [s1 d1] eqn:EW. injection H as <- <- <-.
    destruct (evict_while_enough pol e _ _ _ _ _ Hp C EW) as (l & D & Hd & He & Hfin).
    destruct (Drops_stable _ _ _ _ _ _ _ (tabk_notin_stable _ _ _ k) D C (absent_not_in pol s k C (eq_trans (eq_sym (lookup_find pol s k C)) LK))) as [C1 N1].
    split; [reflexivity|]. split; [exact He|]. split; [apply CInv_ins; assumption|].
    exists l, s1. split; [exact D|]. split; [reflexivity|]. split; [exact Hd|exact Hfin].
Qed.

(* apply_classic_full without the error codes and the invariant of the result *)
Lemma apply_classic_spec pol e s k v ex c s' cm d :
  e_pol e = pol -> CInv pol s -> 0 <= c -> apply_classic e s k v ex c = (s', cm, d) ->
  cm = true /\
  match find_item (lst s) k with
  | Some old =>
      exists l, Drops (ew_cond false 0) (pol =? policyLFU) (e_mask e) (upd_state pol s old k v ex c) l s' /\
                d = (if e_stats e then zlen l else 0) /\
                ((pol <> policyLFU \/ serr s' = 0) -> ew_cond false 0 s' = false)
  | None =>
      exists l s1, Drops (ew_cond true c) (pol =? policyLFU) (e_mask e) s l s1 /\
                   s' = ins_state pol s1 k v ex c /\
                   d = (if e_stats e then zlen l else 0) /\
                   ((pol <> policyLFU \/ serr s' = 0) -> ew_cond true c s1 = false)
  end.
Proof. intros Hp C Hc H. destruct (apply_classic_full _ _ _ _ _ _ _ _ _ _ Hp C Hc H) as (A & _ & _ & B). exact (conj A B). Qed.

(* a write takes P to Q when the update and the insert do and both are Stable *)
Lemma apply_classic_stable (P Q : shard -> Prop) pol e s k v ex c s' cm d :
  e_pol e = pol -> CInv pol s -> 0 <= c -> apply_classic e s k v ex c = (s', cm, d) ->
  Stable pol (e_mask e) reasonCapacity P -> Stable pol (e_mask e) reasonCapacity Q ->
  (forall old, find_item (lst s) k = Some old -> P s -> Q (upd_state pol s old k v ex c)) ->
  (forall s1, CInv pol s1 -> find_item (lst s) k = None -> ~ In k (tabk s1) -> P s1 -> Q (ins_state pol s1 k v ex c)) ->
  P s -> Q s'.
Proof.
  intros Hp C Hc H SP SQ HU HI Ps.
  destruct (apply_classic_spec pol e s k v ex c s' cm d Hp C Hc H) as (_ & S).
  destruct (find_item (lst s) k) as [old|] eqn:Hf.
  - destruct S as (l & D & _).
    exact (proj2 (Drops_stable _ _ _ _ _ _ _ SQ D (CInv_upd _ _ _ _ _ _ _ C Hf Hc) (HU old eq_refl Ps))).
  - destruct S as (l & s1 & D & -> & _).
    destruct (Drops_stable _ _ _ _ _ _ _ (Stable_and _ _ _ _ _ SP (tabk_notin_stable _ _ _ k)) D C
                (conj Ps (absent_not_in pol s k C Hf))) as (C1 & P1 & N1).
    apply HI; auto.
Qed.

(* any reason; the Ledger needs a non-negative reason code, see drop_item_negative_reason_refuted *)
Theorem drop_item_preserves e s it r s' ok d :
  CInv (e_pol e) s -> find_item (lst s) (key it) = Some it -> drop_item e s it r = (s', ok, d) ->
  CInv (e_pol e) s' /\ (0 <= r -> Ledger s -> Ledger s') /\ (NotifLog (e_mask e) s -> NotifLog (e_mask e) s').
Proof.
  intros C Hf H. destruct (resident_ok _ _ _ C Hf) as (R1 & R2 & R3).
  apply drop_item_rel in H; [|apply (ci_classic _ _ C)|exact R2|exact R1]. destruct H as (DR & _).
  split; [|split].
  - exact (CInv_drop _ _ _ _ _ _ _ (drops_lf _) Hf DR C).
  - intros Hr. exact (Ledger_drop _ _ _ _ _ _ Hr Hf DR).
  - exact (NotifLog_drop _ _ _ _ _ _ DR).
Qed.

Theorem evict_one_good pol m e s s1 d :
  e_pol e = pol -> e_mask e = m -> Good pol m s -> evict_one e s = (s1, d) -> Good pol m s1.
Proof.
  intros Hp <- G H. destruct (Good_stable pol (e_mask e) reasonCapacity) as [SF SD]; [reflexivity|].
  destruct (evict_one_spec pol e s s1 d Hp (proj1 G) H) as [(it & Hf & DR & _)|(F & _)].
  - exact (SD it s s1 (proj1 G) Hf DR G).
  - exact (SF s s1 F G).
Qed.

Theorem apply_classic_good pol m e s k v ex c s' cm d :
  e_pol e = pol -> e_mask e = m -> 0 <= c -> Good pol m s ->
  apply_classic e s k v ex c = (s', cm, d) -> Good pol m s'.
Proof.
  intros Hp <- Hc G H. pose proof (Good_stable pol (e_mask e) reasonCapacity ltac:(reflexivity)) as SG.
  apply (apply_classic_stable _ (Good pol (e_mask e)) pol e s k v ex c s' cm d Hp (proj1 G) Hc H SG SG); [| |exact G].
  - intros old Hf G0. apply Good_upd; assumption.
  - intros s1 _ _ N1 G1. apply Good_ins; assumption.
Qed.

(* dropping a looked-up item: the shard update of op_get (expired), op_exists (expired), op_delete, cleanup *)
Lemma lookup_drop_stable P e s k it r s' ok d :
  Stable (e_pol e) (e_mask e) r P -> CInv (e_pol e) s -> lookup s (e_pol e) k = Some it ->
  drop_item e s it r = (s', ok, d) -> P s -> P s'.
Proof. intros SP C LK. exact (drop_item_stable P e s it r s' ok d SP C (proj1 (lookup_resident _ _ _ _ C LK))). Qed.

Theorem lookup_drop_good e s k it r s' ok d :
  0 <= r -> Good (e_pol e) (e_mask e) s -> lookup s (e_pol e) k = Some it ->
  drop_item e s it r = (s', ok, d) ->
  Good (e_pol e) (e_mask e) s' /\ ok = true /\ d = (if e_stats e && (r =? reasonCapacity) then 1 else 0).
Proof.
  intros Hr G LK H. split; [exact (lookup_drop_stable _ _ _ _ _ _ _ _ _ (Good_stable _ _ r Hr) (proj1 G) LK H G)|].
  pose proof (resident_ok _ _ _ (proj1 G) (proj1 (lookup_resident _ _ _ _ (proj1 G) LK))) as (Hkt & Hu & _).
  apply drop_item_rel in H; [|apply (ci_classic _ _ (proj1 G))|exact Hu|exact Hkt].
  destruct H as (_ & H1 & H2 & _). split; assumption.
Qed.

Lemma cleanup_fold_stable P e nw ks : Stable (e_pol e) (e_mask e) reasonExpired P ->
  forall s ev ex s' ev' ex',
  CInv (e_pol e) s -> P s -> fold_left (cleanup_shard e nw) ks (s, ev, ex) = (s', ev', ex') ->
  CInv (e_pol e) s' /\ P s'.
Proof.
  intros SP. pose proof (Stable_and _ _ _ _ _ (CInv_stable (e_pol e) (e_mask e) reasonExpired) SP) as SCP.
  induction ks as [|k r IH]; intros s ev ex s' ev' ex' C Ps H; cbn [fold_left] in H.
  - injection H as <- _ _. tauto.
  - destruct (cleanup_shard e nw (s, ev, ex) k) as [[s1 ev1] ex1] eqn:E.
    assert (C1 : CInv (e_pol e) s1 /\ P s1); [|exact (IH _ _ _ _ _ _ (proj1 C1) (proj2 C1) H)].
    unfold cleanup_shard in E. destruct (lookup s (e_pol e) k) as [it|] eqn:LK; [destruct (expired it nw)|].
    + destruct (drop_item e s it reasonExpired) as [[s2 ok] d] eqn:DI. injection E as <- _ _.
      exact (lookup_drop_stable _ _ _ _ _ _ _ _ _ SCP C LK DI (conj C Ps)).
    + injection E as <- _ _. tauto.
    + injection E as <- _ _. tauto.
Qed.

(* the read-hit update of op_get: get_hit_upd copies the hit branch of CacheModel.op_get for a shard on the
   classic path; op_get_classic (through gstep) ties the two *)
Definition get_hit_upd (pol : Z) (s : shard) (it : item) (k : Z) : shard :=
  if pol =? policyLRU then
    sh_set s (tabk s) (it :: remove_key (lst s) k) (lfu s) (prob s) (main s) (hand s) (size s) (scost s) (staged s)
  else if pol =? policyLFU then
    sh_set s (tabk s) (lst s) (lfu_increment (lfu s) k) (prob s) (main s) (hand s) (size s) (scost s) (staged s)
  else s.

Theorem get_hit_good pol m s k it :
  Good pol m s -> lookup s pol k = Some it -> Good pol m (get_hit_upd pol s it k).
Proof.
  intros G LK. pose proof G as (C & L & N).
  destruct (lookup_resident _ _ _ _ C LK) as (Hf & Hk & Hkt & _ & Hok).
  unfold get_hit_upd. destruct (Z.eqb_spec pol policyLRU) as [P1|P1].
  - rewrite <- Hk.
    destruct (relist_spec true (lst s) it it Hf (ci_lst_nodup _ _ C)) as (HP & HW & HF). apply Good_intro.
    + apply CInv_relist; [exact C|exact HP| |apply HF; [exact Hok|apply (ci_items _ _ C)]|intros PL; apply (ci_lfu _ _ C PL)].
      unfold sum_cost. rewrite (HW cost), (ci_scost _ _ C). unfold sum_cost. ring.
    + intros k' v'. sfld. rewrite (cnt_sumZ _ (it :: _)), HW, <- cnt_sumZ. specialize (L k' v'). clear - L. lia.
    + exact N.
  - destruct (Z.eqb_spec pol policyLFU) as [P2|P2]; [|exact G].
    apply Good_intro; [|exact L|exact N].
    constructor; sfld; try apply C. intros _. apply lfu_increment_spec; [apply C|exact Hkt|apply C, P2].
Qed.

Lemma clear_items pol s : CInv pol s -> filter (fun it => memz (tabk s) (key it)) (shard_items s pol) = lst s.
Proof.
  intros C. unfold shard_items. rewrite (ci_classic _ _ C). apply filter_all.
  intros it Hi. apply memz_In. apply (ci_dom _ _ C). apply in_map. exact Hi.
Qed.

(* a counter that tests tag, key and value, run over the entries Clear writes (tag 2): it sees the items
   when it accepts tag 2 and nothing otherwise *)
Lemma cnt_cleared (f : Z * Z * Z -> bool) (b : bool) k v l :
  (forall k' v', f (2, k', v') = b && (k' =? k) && (v' =? v)) ->
  cnt f (map (fun it => (2, key it, val it)) l) = if b then cnt (is_kv k v) l else 0.
Proof.
  intros Hf. induction l as [|x r IH]; cbn [map cnt]; [destruct b; reflexivity|].
  rewrite IH, Hf. unfold is_kv. destruct b; reflexivity.
Qed.

Lemma notifs_of_cleared m l : notifs_of m (map (fun it : item => (2, key it, val it)) l) = [].
Proof. induction l as [|x r IH]; [reflexivity|]. unfold notifs_of in *. cbn [map flat_map notif_of]. tagsimp. exact IH. Qed.

Theorem clear_shard_good pol m s : Good pol m s -> Good pol m (clear_shard pol s).
Proof.
  intros (C & L & N). unfold clear_shard. rewrite (clear_items _ _ C). apply Good_intro.
  - apply CInv_empty; try reflexivity. rewrite <- (ci_classic _ _ C). reflexivity.
  - intros k v. sfld. rewrite !cnt_app. specialize (L k v).
    rewrite (cnt_cleared (is_tag 0 k v) false k v), (cnt_cleared (is_tag 1 k v) false k v),
      (cnt_cleared (is_tag 2 k v) true k v), (cnt_cleared (is_drop k v) false k v) by (intros; reflexivity).
    cbn [cnt]. clear - L. lia.
  - unfold NotifLog in *. sfld. rewrite notifs_of_app, notifs_of_cleared, N. reflexivity.
Qed.

Definition empty_shard (cp ccp : Z) (ev : list (Z * Z)) : shard :=
  {| cap := cp; costcap := ccp; tabk := []; lst := []; lfu := []; prob := []; main := []; hand := None;
     pcap := 0; mcap := 0; pmin := 0; pmax := 0; size := 0; scost := 0; staged := []; evs := ev; pend := [];
     admits := 0; rejects := 0; ghosthits := 0; promos := 0; pevicts := 0; mevicts := 0; serr := 0;
     glog := []; nlog := [] |}.

Lemma empty_good pol m cp ccp ev :
  is_sieve (empty_shard cp ccp ev) pol = false -> Good pol m (empty_shard cp ccp ev).
Proof.
  intros HS. apply Good_intro.
  - apply CInv_empty; try reflexivity. exact HS.
  - intros k v. reflexivity.
  - reflexivity.
Qed.

(* adapts runs at the end of every Get, also on classic shards *)
Lemma apply_adapts_frame fuel : forall s, Frame s (apply_adapts fuel s).
Proof.
  induction fuel as [|f IH]; intros s; cbn [apply_adapts]; [apply Frame_refl|].
  destruct (evs s) as [|[k a] r]; [apply Frame_refl|].
  destruct (k =? evAdapt); [|apply Frame_refl].
  destruct ((pmin s <=? a) && (a <=? pmax s)).
  - eapply Frame_trans; [|apply IH]. eapply Frame_trans; [apply Frame_sh_evs|apply Frame_sh_caps].
  - eapply Frame_trans; [apply Frame_sh_evs|apply Frame_sh_err].
Qed.

Lemma adapts_good pol m s : Good pol m s -> Good pol m (adapts s).
Proof. apply Good_frame. apply apply_adapts_frame. Qed.

(** Budget: after a write without oracle failure the shard is within its caps, whether or not it was before. *)
Theorem apply_classic_budget_strong pol e s k v ex c s' cm d :
  e_pol e = pol -> CInv pol s -> 0 <= c -> (costcap s <= 0 \/ c <= costcap s) -> 0 <= cap s ->
  apply_classic e s k v ex c = (s', cm, d) ->
  (pol <> policyLFU \/ serr s' = 0) ->
  CInv pol s' /\ over_capacity s' = false /\ cm = true.
Proof.
  intros Hp C Hc Hcc Hcap H Herr. destruct (apply_classic_full pol e s k v ex c s' cm d Hp C Hc H) as (-> & _ & C' & S).
  split; [exact C'|]. split; [|reflexivity].
  destruct (find_item (lst s) k) as [old|] eqn:Hf.
  - destruct S as (l & _ & _ & Hfin). destruct (ew_cond_false pol _ _ s' C' (Hfin Herr)) as [O|[S1 S2]]; [exact O|].
    unfold over_capacity. clear - S1 S2. lia.
  - destruct S as (l & s1 & D & -> & _ & Hfin).
    destruct (Drops_stable _ _ _ _ _ _ _ (CInv_stable pol (e_mask e) reasonCapacity) D C C) as [C1 _].
    pose proof (Drops_eff _ pol _ _ _ _ _ (drops_lf pol) D C) as EF.
    unfold ins_state, over_capacity. sfld. rewrite (de_cap _ _ _ _ _ EF), (de_costcap _ _ _ _ _ EF).
    destruct (ew_cond_false pol _ _ s1 C1 (Hfin Herr)) as [W|[S1 S2]]; [|clear - S1 S2 Hcc Hcap Hc; lia].
    unfold would_over in W. rewrite (de_cap _ _ _ _ _ EF), (de_costcap _ _ _ _ _ EF) in W. clear - W Hcc Hcap Hc. lia.
Qed.

Theorem apply_classic_budget pol e s k v ex c s' cm d :
  e_pol e = pol -> CInv pol s -> over_capacity s = false -> 0 <= c ->
  (costcap s = 0 \/ c <= costcap s) -> (cap s = 0 \/ 1 <= cap s) ->
  apply_classic e s k v ex c = (s', cm, d) ->
  serr s' = 0 ->
  CInv pol s' /\ over_capacity s' = false /\ cm = true.
Proof.
  intros Hp C _ Hc Hcc Hcap H Herr. eapply apply_classic_budget_strong; eauto; lia.
Qed.

(** Without LFU there is no oracle, so the budget holds unconditionally *)
Corollary apply_classic_budget_no_oracle pol e s k v ex c s' cm d :
  e_pol e = pol -> pol <> policyLFU -> CInv pol s -> 0 <= c ->
  (costcap s = 0 \/ c <= costcap s) -> (cap s = 0 \/ 1 <= cap s) ->
  apply_classic e s k v ex c = (s', cm, d) ->
  CInv pol s' /\ over_capacity s' = false /\ cm = true.
Proof.
  intros Hp PL C Hc Hcc Hcap H. eapply apply_classic_budget_strong; eauto; lia.
Qed.

(** Neither 304 (fuel exhausted) nor 303 (oracle victim missing from the list) is ever recorded *)
Corollary apply_classic_never_304 pol e s k v ex c s' cm d :
  e_pol e = pol -> CInv pol s -> 0 <= c -> apply_classic e s k v ex c = (s', cm, d) ->
  serr s <> 304 -> serr s' <> 304 /\ (serr s <> 303 -> serr s' <> 303).
Proof.
  intros Hp C Hc H Hs. destruct (apply_classic_full pol e s k v ex c s' cm d Hp C Hc H) as (_ & E & _).
  unfold OracleErr in E. lia.
Qed.

Corollary apply_classic_no_oracle_no_error pol e s k v ex c s' cm d :
  e_pol e = pol -> pol <> policyLFU -> CInv pol s -> 0 <= c -> apply_classic e s k v ex c = (s', cm, d) ->
  serr s' = serr s.
Proof.
  intros Hp PL C Hc H. destruct (apply_classic_full pol e s k v ex c s' cm d Hp C Hc H) as (_ & [E|E] & _); [exact E|tauto].
Qed.

Lemma find_upd_state pol s old k v ex c k' :
  find_item (lst s) k = Some old ->
  find_item (lst (upd_state pol s old k v ex c)) k' = if k' =? k then Some (new_item k v ex c) else find_item (lst s) k'.
Proof.
  intros Hf. unfold upd_state. sfld. destruct (Z.eqb_spec k' k) as [->|N].
  - destruct (pol =? policyLRU).
    + cbn [find_item key new_item]. rewrite Z.eqb_refl. reflexivity.
    + apply (find_replace_same (lst s) (new_item k v ex c) old). exact Hf.
  - destruct (pol =? policyLRU).
    + cbn [find_item key new_item]. destruct (Z.eqb_spec k k'); [congruence|]. apply find_remove_other. exact N.
    + apply find_replace_other. cbn [key new_item]. exact N.
Qed.

Lemma find_ins_state pol s1 k v ex c k' :
  find_item (lst (ins_state pol s1 k v ex c)) k' = if k' =? k then Some (new_item k v ex c) else find_item (lst s1) k'.
Proof.
  unfold ins_state. sfld. cbn [find_item key new_item]. rewrite (Z.eqb_sym k k'). reflexivity.
Qed.

(* what a write does when the eviction loop does not start *)
Lemma apply_classic_nodrop pol e s k v ex c s' cm d :
  e_pol e = pol -> CInv pol s -> 0 <= c -> apply_classic e s k v ex c = (s', cm, d) ->
  match find_item (lst s) k with
  | Some old => ew_cond false 0 (upd_state pol s old k v ex c)
  | None => ew_cond true c s
  end = false ->
  d = 0 /\ staged s' = staged s /\ nlog s' = nlog s /\
  glog s' = glog s ++ match find_item (lst s) k with Some old => [(1, k, val old); (0, k, v)] | None => [(0, k, v)] end /\
  (forall k', lookup s' pol k' = if k' =? k then Some (new_item k v ex c) else lookup s pol k') /\
  (find_item (lst s) k = None -> lst s' = new_item k v ex c :: lst s /\ tabk s' = k :: tabk s).
Proof.
  intros Hp C Hc H Hg. destruct (apply_classic_full pol e s k v ex c s' cm d Hp C Hc H) as (_ & _ & C' & S).
  destruct (find_item (lst s) k) as [old|] eqn:Hf.
  - destruct S as (l & D & Hd & _). destruct (Drops_nil_inv _ _ _ _ _ _ Hg D) as [-> F].
    split; [rewrite Hd; destruct (e_stats e); reflexivity|].
    split; [exact (fr_staged _ _ F)|]. split; [rewrite (fr_nlog _ _ F); apply app_nil_r|]. split; [exact (fr_glog _ _ F)|].
    split; [|discriminate].
    intros k'. rewrite (lookup_find _ _ _ C'), (lookup_find _ _ _ C), (fr_lst _ _ F). apply find_upd_state. exact Hf.
  - destruct S as (l & s1 & D & -> & Hd & _). destruct (Drops_nil_inv _ _ _ _ _ _ Hg D) as [-> F].
    split; [rewrite Hd; destruct (e_stats e); reflexivity|]. split; [exact (fr_staged _ _ F)|].
    split; [unfold ins_state; sfld; rewrite (fr_nlog _ _ F); apply app_nil_r|].
    split; [unfold ins_state; sfld; rewrite (fr_glog _ _ F); reflexivity|]. split.
    + intros k'. rewrite (lookup_find _ _ _ C'), (lookup_find _ _ _ C), find_ins_state, (fr_lst _ _ F). reflexivity.
    + intros _. unfold ins_state. sfld. rewrite (fr_lst _ _ F), (fr_tabk _ _ F). split; reflexivity.
Qed.

Lemma apply_classic_effect pol e s k v ex c s' cm d :
  e_pol e = pol -> CInv pol s -> 0 <= c -> apply_classic e s k v ex c = (s', cm, d) ->
  exists l, let notes := if mask_has (e_mask e) reasonCapacity then map (fun it => mk_notif it reasonCapacity) l else [] in
    d = (if e_stats e then zlen l else 0) /\
    glog s' = glog s ++ match find_item (lst s) k with
                        | Some old => [(1, k, val old); (0, k, v)] ++ map drop_entry l
                        | None => map drop_entry l ++ [(0, k, v)]
                        end /\
    nlog s' = nlog s ++ notes /\ staged s' = staged s ++ notes /\
    forall k', lookup s' pol k' = None \/
               lookup s' pol k' = if k' =? k then Some (new_item k v ex c) else lookup s pol k'.
Proof.
  intros Hp C Hc H. destruct (apply_classic_full pol e s k v ex c s' cm d Hp C Hc H) as (_ & _ & C' & S).
  destruct (find_item (lst s) k) as [old|] eqn:Hf.
  - destruct S as (l & D & Hd & _). exists l.
    pose proof (Drops_eff _ pol _ _ _ _ _ (drops_lf pol) D (CInv_upd pol s old k v ex c C Hf Hc)) as EF.
    split; [exact Hd|]. split; [rewrite (de_glog _ _ _ _ _ EF); unfold upd_state; sfld; rewrite <- app_assoc; reflexivity|].
    split; [rewrite (de_nlog _ _ _ _ _ EF); unfold upd_state; sfld; rewrite app_nil_r; reflexivity|].
    split; [exact (de_staged _ _ _ _ _ EF)|].
    intros k'. rewrite (lookup_find _ _ _ C'), (lookup_find _ _ _ C), (de_find _ _ _ _ _ EF), (find_upd_state _ _ _ _ _ _ _ _ Hf).
    destruct (memz (map key l) k'); tauto.
  - destruct S as (l & s1 & D & -> & Hd & _). exists l.
    pose proof (Drops_eff _ pol _ _ _ _ _ (drops_lf pol) D C) as EF.
    split; [exact Hd|].
    split; [unfold ins_state; sfld; rewrite (de_glog _ _ _ _ _ EF), <- app_assoc; reflexivity|].
    split; [unfold ins_state; sfld; rewrite (de_nlog _ _ _ _ _ EF); apply app_nil_r|].
    split; [exact (de_staged _ _ _ _ _ EF)|].
    intros k'. rewrite (lookup_find _ _ _ C'), (lookup_find _ _ _ C), find_ins_state, (de_find _ _ _ _ _ EF).
    destruct (k' =? k); [tauto|]. destruct (memz (map key l) k'); tauto.
Qed.

Theorem room_no_drop pol e s k v ex c s' cm d :
  e_pol e = pol -> CInv pol s -> 0 <= c -> lookup s pol k = None -> would_over s c = false ->
  apply_classic e s k v ex c = (s', cm, d) ->
  staged s' = staged s /\ nlog s' = nlog s /\ glog s' = glog s ++ [(0, k, v)] /\ d = 0 /\
  lst s' = new_item k v ex c :: lst s /\ tabk s' = k :: tabk s /\
  (forall k', k' <> k -> lookup s' pol k' = lookup s pol k') /\
  lookup s' pol k = Some (new_item k v ex c).
Proof.
  intros Hp C Hc LK W H. rewrite (lookup_find pol s k C) in LK.
  destruct (apply_classic_nodrop pol e s k v ex c s' cm d Hp C Hc H) as (Hd & Hstaged & Hnlog & Hglog & Hlook & Hlists);
    rewrite LK in *; [unfold ew_cond; rewrite W; reflexivity|].
  destruct (Hlists eq_refl) as [Hlst Htabk]. repeat split; try assumption.
  - intros k' Hk. rewrite Hlook. destruct (Z.eqb_spec k' k); [congruence|reflexivity].
  - rewrite Hlook, Z.eqb_refl. reflexivity.
Qed.

Theorem unweighted_at_most_one pol e s k v ex c s' cm d :
  e_pol e = pol -> CInv pol s -> 0 <= c -> costcap s <= 0 -> over_capacity s = false -> lookup s pol k = None ->
  apply_classic e s k v ex c = (s', cm, d) ->
  exists l, (length l <= 1)%nat /\ glog s' = glog s ++ map drop_entry l ++ [(0, k, v)] /\
            d = (if e_stats e then zlen l else 0) /\
            (size s = cap s -> 0 < cap s -> (pol <> policyLFU \/ serr s' = 0) -> length l = 1%nat).
Proof.
  intros Hp C Hc Hcc O LK H.
  destruct (apply_classic_spec pol e s k v ex c s' cm d Hp C Hc H) as (_ & S).
  rewrite (lookup_find pol s k C) in LK. rewrite LK in S. destruct S as (l & s1 & D & -> & Hd & Hfin).
  pose proof (Drops_eff _ pol _ _ _ _ _ (drops_lf pol) D C) as EF.
  destruct (Drops_stable _ _ _ _ _ _ _ (CInv_stable pol (e_mask e) reasonCapacity) D C C) as [C1 _].
  (* one drop makes room, so the loop condition is false after it *)
  assert (One : forall it s2 l2, DropRel (pol =? policyLFU) (e_mask e) reasonCapacity it s s2 ->
                                 Drops (ew_cond true c) (pol =? policyLFU) (e_mask e) s2 l2 s1 -> l2 = []).
  { intros it s2 l2 DR D2. apply Drops_nil_inv in D2; [tauto|].
    unfold ew_cond, would_over. rewrite (dr_cap _ _ _ _ _ _ DR), (dr_costcap _ _ _ _ _ _ DR), (dr_size _ _ _ _ _ _ DR).
    unfold over_capacity in O. clear - O Hcc. destruct (0 <? zlen (tabk s2)); lia. }
  exists l. split; [|split; [|split; [exact Hd|]]].
  - destruct D as [s s1 F|s it s2 l s1 g Hf DR D]; [apply Nat.le_0_l|]. rewrite (One _ _ _ DR D). apply le_n.
  - unfold ins_state. sfld. rewrite (de_glog _ _ _ _ _ EF), <- app_assoc. reflexivity.
  - intros Hsz Hcap Herr. destruct D as [s s1 F|s it s2 l s1 g Hf DR D]; [exfalso|rewrite (One _ _ _ DR D); reflexivity].
    destruct (ew_cond_false pol true c s1 C1 (Hfin Herr)) as [W|[S1 _]].
    + unfold would_over in W. rewrite (fr_cap _ _ F), (fr_size _ _ F) in W. clear - W Hsz Hcap. lia.
    + rewrite (fr_size _ _ F) in S1. clear - S1 Hsz Hcap. lia.
Qed.

(** an update of a resident key is effective (or the key itself was evicted) *)
Theorem update_effective pol e s k v ex c s' cm d old :
  e_pol e = pol -> CInv pol s -> 0 <= c -> lookup s pol k = Some old ->
  apply_classic e s k v ex c = (s', cm, d) ->
  (lookup s' pol k = None \/ lookup s' pol k = Some (new_item k v ex c)) /\
  (over_capacity s = false -> (costcap s <= 0 \/ c <= cost old) -> lookup s' pol k = Some (new_item k v ex c) /\ d = 0).
Proof.
  intros Hp C Hc LK H. split.
  - destruct (apply_classic_effect pol e s k v ex c s' cm d Hp C Hc H) as (l & _ & _ & _ & _ & E).
    specialize (E k). rewrite Z.eqb_refl in E. exact E.
  - intros O Hcost. rewrite (lookup_find pol s k C) in LK.
    destruct (apply_classic_nodrop pol e s k v ex c s' cm d Hp C Hc H) as (Hd & _ & _ & _ & Hlook & _).
    + rewrite LK. unfold ew_cond, over_capacity, upd_state. sfld. unfold over_capacity in O.
      clear - O Hcost. destruct (0 <? zlen (tabk s)); lia.
    + rewrite Hlook, Z.eqb_refl. split; [reflexivity|exact Hd].
Qed.

Theorem others_unchanged_or_lost pol e s k v ex c s' cm d k' :
  e_pol e = pol -> CInv pol s -> 0 <= c -> k' <> k ->
  apply_classic e s k v ex c = (s', cm, d) ->
  lookup s' pol k' = lookup s pol k' \/ lookup s' pol k' = None.
Proof.
  intros Hp C Hc Hk H. destruct (apply_classic_effect pol e s k v ex c s' cm d Hp C Hc H) as (l & _ & _ & _ & _ & E).
  specialize (E k'). destruct (Z.eqb_spec k' k); [congruence|tauto].
Qed.

Corollary nothing_new_appears pol e s k v ex c s' cm d k' it :
  e_pol e = pol -> CInv pol s -> 0 <= c -> k' <> k ->
  apply_classic e s k v ex c = (s', cm, d) -> lookup s' pol k' = Some it -> lookup s pol k' = Some it.
Proof.
  intros Hp C Hc Hk H L. destruct (others_unchanged_or_lost pol e s k v ex c s' cm d k' Hp C Hc Hk H); congruence.
Qed.

Theorem unbounded_never_drops pol e s k v ex c s' cm d :
  e_pol e = pol -> CInv pol s -> 0 <= c -> cap s = 0 -> costcap s = 0 ->
  apply_classic e s k v ex c = (s', cm, d) ->
  d = 0 /\ staged s' = staged s /\ nlog s' = nlog s /\
  glog s' = glog s ++ match lookup s pol k with Some old => [(1, k, val old); (0, k, v)] | None => [(0, k, v)] end /\
  (forall k', k' <> k -> lookup s' pol k' = lookup s pol k') /\
  lookup s' pol k = Some (new_item k v ex c).
Proof.
  intros Hp C Hc Hcap Hcc H. rewrite (lookup_find pol s k C).
  destruct (apply_classic_nodrop pol e s k v ex c s' cm d Hp C Hc H) as (Hd & Hstaged & Hnlog & Hglog & Hlook & _).
  { destruct (find_item (lst s) k); unfold ew_cond, over_capacity, would_over, upd_state; sfld; rewrite Hcap, Hcc; reflexivity. }
  repeat split; try assumption.
  - intros k' Hk. rewrite Hlook. destruct (Z.eqb_spec k' k); [congruence|reflexivity].
  - rewrite Hlook, Z.eqb_refl. reflexivity.
Qed.

Definition is_dropped (x : Z * Z * Z) : bool := let '(t, _, _) := x in 10 <=? t.

Lemma cnt_dropped_entries l : cnt is_dropped (map drop_entry l) = zlen l.
Proof. unfold zlen. induction l as [|x r IH]; cbn [map cnt length]; [reflexivity|]. rewrite IH. change (is_dropped (drop_entry x)) with true. lia. Qed.

(** the evictions counter, and every drop of apply_classic is a capacity drop *)
Theorem apply_classic_counters pol e s k v ex c s' cm d :
  e_pol e = pol -> CInv pol s -> 0 <= c -> apply_classic e s k v ex c = (s', cm, d) ->
  exists delta, glog s' = glog s ++ delta /\
                d = (if e_stats e then cnt is_dropped delta else 0) /\
                Forall (fun x => is_dropped x = true -> fst (fst x) = 10 + reasonCapacity) delta /\
                exists l, nlog s' = nlog s ++ (if mask_has (e_mask e) reasonCapacity then map (fun it => mk_notif it reasonCapacity) l else []) /\
                          staged s' = staged s ++ (if mask_has (e_mask e) reasonCapacity then map (fun it => mk_notif it reasonCapacity) l else []) /\
                          cnt is_dropped delta = zlen l.
Proof.
  intros Hp C Hc H. destruct (apply_classic_effect pol e s k v ex c s' cm d Hp C Hc H) as (l & Hd & Hg & Hn & Hs & _).
  assert (FD : Forall (fun x => is_dropped x = true -> fst (fst x) = 10 + reasonCapacity) (map drop_entry l)).
  { apply Forall_forall. intros x Hx. apply in_map_iff in Hx. destruct Hx as (it & <- & _). reflexivity. }
  eexists. split; [exact Hg|].
  assert (E : cnt is_dropped (match find_item (lst s) k with
                              | Some old => [(1, k, val old); (0, k, v)] ++ map drop_entry l
                              | None => map drop_entry l ++ [(0, k, v)] end) = zlen l).
  { destruct (find_item (lst s) k); rewrite cnt_app, cnt_dropped_entries; cbn; lia. }
  split; [rewrite E; exact Hd|]. split; [|exists l; split; [exact Hn|split; [exact Hs|exact E]]].
  destruct (find_item (lst s) k); apply Forall_app; split; try exact FD; repeat constructor; cbn; discriminate.
Qed.

Definition upd (f : Z -> Z) (k x : Z) : Z -> Z := fun k' => if k' =? k then x else f k'.

Lemma upd_same f k x : upd f k x k = x.
Proof. unfold upd. rewrite Z.eqb_refl. reflexivity. Qed.
Lemma upd_other f k x k' : k' <> k -> upd f k x k' = f k'.
Proof. unfold upd. intros H. destruct (Z.eqb_spec k' k); [congruence|reflexivity]. Qed.

(* the key list is sorted by strictly decreasing stamp (head = largest stamp) *)
Definition DecBy (f : Z -> Z) (ks : list Z) : Prop := StronglySorted (fun a b => f b < f a) ks.

Definition OrdInv (f : Z -> Z) (clk : Z) (s : shard) : Prop :=
  DecBy f (map key (lst s)) /\ Forall (fun k => f k < clk) (map key (lst s)).

Lemma Forall_remz (P : Z -> Prop) l k : Forall P l -> Forall P (remz l k).
Proof.
  intros H. apply Forall_forall. intros x Hx. rewrite Forall_forall in H. apply H. eapply remz_In_weak; eauto.
Qed.

Lemma DecBy_remz f ks k : DecBy f ks -> DecBy f (remz ks k).
Proof.
  unfold DecBy. induction 1 as [|x r Hr IH Hx]; cbn [remz]; [constructor|].
  destruct (x =? k); [exact Hr|]. constructor; [exact IH|]. apply Forall_remz. exact Hx.
Qed.

Lemma DecBy_ext f g ks : (forall k, In k ks -> g k = f k) -> DecBy f ks -> DecBy g ks.
Proof.
  unfold DecBy. intros E H. induction H as [|x r Hr IH Hx]; [constructor|].
  constructor.
  - apply IH. intros k Hk. apply E. right; exact Hk.
  - rewrite Forall_forall in *. intros y Hy. rewrite (E x (or_introl eq_refl)), (E y (or_intror Hy)). apply Hx. exact Hy.
Qed.

Lemma DecBy_last_min f l x : DecBy f (l ++ [x]) -> forall y, In y (l ++ [x]) -> f x <= f y.
Proof.
  unfold DecBy. induction l as [|a l IH]; cbn [app]; intros H y Hy.
  - destruct Hy as [<-|[]]. lia.
  - inversion H as [|? ? Hr Ha]; subst. destruct Hy as [<-|Hy]; [|apply IH; assumption].
    rewrite Forall_forall in Ha. specialize (Ha x (in_or_app l [x] x (or_intror (or_introl eq_refl)))). lia.
Qed.

Lemma OrdInv_stable f clk pol m r : Stable pol m r (OrdInv f clk).
Proof.
  unfold OrdInv. split; [intros s s' F; rewrite (fr_lst _ _ F); tauto|].
  intros it s s' _ _ D [H1 H2]. rewrite (dr_lst _ _ _ _ _ _ D), map_key_remove.
  split; [apply DecBy_remz; exact H1|apply Forall_remz; exact H2].
Qed.

Lemma OrdInv_clock f clk clk' s : clk <= clk' -> OrdInv f clk s -> OrdInv f clk' s.
Proof.
  unfold OrdInv. intros Hc [H1 H2]. split; [exact H1|]. eapply Forall_impl; [|exact H2]. cbn. intros; lia.
Qed.

(* k is stamped with the clock and moved (or, when it is new, put) to the head *)
Lemma OrdInv_push f clk ks k :
  NoDup ks -> DecBy f ks /\ Forall (fun x => f x < clk) ks ->
  DecBy (upd f k clk) (k :: remz ks k) /\ Forall (fun x => upd f k clk x < clk + 1) (k :: remz ks k).
Proof.
  intros ND [H1 H2]. apply (DecBy_remz f ks k) in H1. apply (Forall_remz _ ks k) in H2.
  assert (E : forall x, In x (remz ks k) -> upd f k clk x = f x).
  { intros x Hx. apply upd_other. intros ->. exact (remz_not_self ks k ND Hx). }
  rewrite Forall_forall in H2. split; constructor; rewrite ?upd_same; try lia.
  - apply (DecBy_ext f); assumption.
  - apply Forall_forall. intros y Hy. rewrite (E y Hy). apply H2; exact Hy.
  - apply Forall_forall. intros y Hy. rewrite (E y Hy). specialize (H2 y Hy). lia.
Qed.

Lemma OrdInv_ins pol f clk s k v ex c :
  CInv pol s -> ~ In k (tabk s) -> OrdInv f clk s -> OrdInv (upd f k clk) (clk + 1) (ins_state pol s k v ex c).
Proof.
  intros C N O. unfold OrdInv, ins_state. sfld. cbn [map key new_item].
  rewrite <- (remz_notin (map key (lst s)) k) by (rewrite <- (ci_dom _ _ C); exact N).
  exact (OrdInv_push f clk _ k (ci_lst_nodup _ _ C) O).
Qed.

(* LRU: touch k = clock of the last successful write or read hit of k *)
Theorem lru_apply_classic e s k v ex c s' cm d touch clk :
  e_pol e = policyLRU -> CInv policyLRU s -> 0 <= c -> OrdInv touch clk s ->
  apply_classic e s k v ex c = (s', cm, d) ->
  OrdInv (upd touch k clk) (clk + 1) s'.
Proof.
  intros Hp C Hc O H.
  apply (apply_classic_stable (OrdInv touch clk) (OrdInv (upd touch k clk) (clk + 1)) policyLRU e s k v ex c s' cm d Hp C Hc H);
    try apply OrdInv_stable; [| |exact O].
  - intros old _ O0. unfold OrdInv, upd_state. sfld. change (policyLRU =? policyLRU) with true. cbn [map key new_item].
    rewrite map_key_remove. exact (OrdInv_push _ _ _ k (ci_lst_nodup _ _ C) O0).
  - intros s1 C1 _. apply OrdInv_ins. exact C1.
Qed.

Theorem lru_get_hit s k it touch clk :
  CInv policyLRU s -> OrdInv touch clk s -> lookup s policyLRU k = Some it ->
  OrdInv (upd touch k clk) (clk + 1) (get_hit_upd policyLRU s it k).
Proof.
  intros C O LK. destruct (lookup_resident _ _ _ _ C LK) as (_ & Hk & _).
  unfold OrdInv, get_hit_upd. change (policyLRU =? policyLRU) with true. sfld. cbn [map]. rewrite Hk, map_key_remove.
  exact (OrdInv_push _ _ _ k (ci_lst_nodup _ _ C) O).
Qed.

(* FIFO, and in fact every policy but LRU: born k = clock of the insertion of k; neither read hits nor updates of a
   resident key change the list order *)
Theorem fifo_apply_classic pol e s k v ex c s' cm d born clk :
  e_pol e = pol -> pol <> policyLRU -> CInv pol s -> 0 <= c -> OrdInv born clk s ->
  apply_classic e s k v ex c = (s', cm, d) ->
  OrdInv (match lookup s pol k with Some _ => born | None => upd born k clk end) (clk + 1) s'.
Proof.
  intros Hp PL C Hc O H. rewrite (lookup_find _ _ _ C).
  apply (apply_classic_stable (OrdInv born clk) (OrdInv _ (clk + 1)) pol e s k v ex c s' cm d Hp C Hc H);
    try apply OrdInv_stable; [| |exact O].
  - intros old Hf O0. rewrite Hf. apply (OrdInv_clock born clk); [lia|].
    unfold OrdInv, upd_state. sfld. destruct (Z.eqb_spec pol policyLRU); [congruence|].
    rewrite map_key_replace. exact O0.
  - intros s1 C1 Hf. rewrite Hf. apply OrdInv_ins. exact C1.
Qed.

Theorem fifo_get_hit pol s k it born clk :
  pol <> policyLRU -> OrdInv born clk s -> OrdInv born clk (get_hit_upd pol s it k).
Proof.
  intros PL O. unfold get_hit_upd. destruct (Z.eqb_spec pol policyLRU); [congruence|].
  destruct (pol =? policyLFU); exact O.
Qed.

Theorem order_lookup_drop e s k it r s' ok dd f clk :
  CInv (e_pol e) s -> lookup s (e_pol e) k = Some it -> drop_item e s it r = (s', ok, dd) ->
  OrdInv f clk s -> OrdInv f clk s'.
Proof. apply lookup_drop_stable, OrdInv_stable. Qed.

Lemma order_clear pol s f clk : OrdInv f clk (clear_shard pol s).
Proof. unfold OrdInv, clear_shard. sfld. cbn [map]. split; constructor. Qed.

Lemma victim_spec pol e s s1 d :
  e_pol e = pol -> CInv pol s -> tabk s <> [] -> evict_one e s = (s1, d) -> (pol = policyLFU -> serr s1 = 0) ->
  exists it, (lookup s pol (key it) = Some it /\ lookup s1 pol (key it) = None /\
              (forall k', k' <> key it -> lookup s1 pol k' = lookup s pol k') /\
              glog s1 = glog s ++ [drop_entry it]) /\
             (pol <> policyLFU -> last_item (lst s) = Some it) /\
             (pol = policyLFU -> In (key it) (lfu_min_bucket (lfu s))).
Proof.
  intros Hp C Hne H Hs.
  destruct (evict_one_spec pol e s s1 d Hp C H) as [(it & Hf & DR & _ & _ & HL)|(_ & _ & _ & Q)];
    [|destruct (Q Hne) as [PL Q']; destruct (Q' (Hs PL))].
  exists it. split; [|exact HL].
  pose proof (CInv_drop _ _ _ _ _ _ _ (drops_lf pol) Hf DR C) as C1.
  rewrite (lookup_find _ _ _ C), (lookup_find _ _ _ C1), (dr_lst _ _ _ _ _ _ DR).
  split; [exact Hf|]. split; [apply find_remove_same; apply (ci_lst_nodup _ _ C)|]. split; [|apply (dr_glog _ _ _ _ _ _ DR)].
  intros k' Hk'. rewrite (lookup_find _ _ _ C1), (lookup_find _ _ _ C), (dr_lst _ _ _ _ _ _ DR).
  apply find_remove_other. exact Hk'.
Qed.

(* the victim of evict_one (every policy but LFU) carries the minimum stamp among the residents: LRU evicts the
   least recently read or written entry, FIFO the earliest inserted one *)
Theorem tail_victim_min pol e s s1 d f clk :
  e_pol e = pol -> pol <> policyLFU -> CInv pol s -> tabk s <> [] -> OrdInv f clk s ->
  evict_one e s = (s1, d) ->
  exists it, lookup s pol (key it) = Some it /\ lookup s1 pol (key it) = None /\
             (forall k', In k' (tabk s) -> f (key it) <= f k') /\
             (forall k', k' <> key it -> lookup s1 pol k' = lookup s pol k') /\
             glog s1 = glog s ++ [drop_entry it].
Proof.
  intros Hp PL C Hne [O1 _] H.
  destruct (victim_spec pol e s s1 d Hp C Hne H) as (it & (V1 & V2 & V3 & V4) & HL & _); [tauto|].
  exists it. repeat split; try assumption.
  intros k' Hk'. apply (ci_dom _ _ C) in Hk'.
  destruct (last_item_split _ _ (HL PL)) as [l0 E]. rewrite E, map_app in O1, Hk'.
  exact (DecBy_last_min f _ _ O1 _ Hk').
Qed.

(* LFU: reads k = number of read hits of k since its last write *)
Definition ReadsInv (reads : Z -> Z) (s : shard) : Prop :=
  forall k, In k (tabk s) -> lfu_freq (lfu s) k = 1 + reads k.

Lemma ReadsInv_stable reads m r : Stable policyLFU m r (ReadsInv reads).
Proof.
  unfold ReadsInv. split; [intros s s' F H k; rewrite (fr_tabk _ _ F), (fr_lfu _ _ F); apply H|].
  intros it s s' C _ D H k. rewrite (dr_tabk _ _ _ _ _ _ D), (dr_lfu _ _ _ _ _ _ D).
  rewrite remz_In by apply (ci_tab_nodup _ _ C). intros [Hk Hn]. change (policyLFU =? policyLFU) with true. cbv iota.
  rewrite lfu_freq_remove by apply (lo_nodup _ _ (ci_lfu _ _ C eq_refl)).
  destruct (Z.eqb_spec k (key it)); [congruence|]. apply H; exact Hk.
Qed.

Theorem lfu_apply_classic e s k v ex c s' cm d reads :
  e_pol e = policyLFU -> CInv policyLFU s -> 0 <= c -> ReadsInv reads s ->
  apply_classic e s k v ex c = (s', cm, d) ->
  ReadsInv (upd reads k 0) s'.
Proof.
  intros Hp C Hc R H.
  apply (apply_classic_stable (ReadsInv reads) (ReadsInv (upd reads k 0)) policyLFU e s k v ex c s' cm d Hp C Hc H).
  - apply ReadsInv_stable.
  - apply ReadsInv_stable.
  - pose proof (lo_nodup _ _ (ci_lfu _ _ C eq_refl)) as ND. intros old _ R0 k' Hk'.
    unfold upd_state, lfu_add, upd. sfld. change (policyLFU =? policyLFU) with true. cbv iota.
    rewrite lfu_freq_readd by exact ND. destruct (k' =? k); [lia|]. apply R0; exact Hk'.
  - intros s1 C1 _ N1 R1 k' Hk'.
    unfold ins_state, lfu_add, upd in *. sfld. cbn [tabk sh_set sh_ghost] in Hk'. change (policyLFU =? policyLFU) with true. cbv iota.
    rewrite lfu_freq_add_at by (rewrite (lo_union _ _ (ci_lfu _ _ C1 eq_refl)); exact N1).
    destruct (Z.eqb_spec k' k) as [E|E]; [lia|].
    apply R1. destruct Hk' as [Hk'|Hk']; [congruence|exact Hk'].
  - exact R.
Qed.

Theorem lfu_get_hit s k it reads :
  CInv policyLFU s -> ReadsInv reads s -> lookup s policyLFU k = Some it ->
  ReadsInv (upd reads k (reads k + 1)) (get_hit_upd policyLFU s it k).
Proof.
  intros C R LK. destruct (lookup_resident _ _ _ _ C LK) as (_ & _ & Hkt & _).
  unfold ReadsInv, get_hit_upd. change (policyLFU =? policyLRU) with false. change (policyLFU =? policyLFU) with true.
  cbv iota. sfld. intros k' Hk'.
  rewrite (proj2 (lfu_increment_spec _ _ _ (ci_tab_nodup _ _ C) Hkt (ci_lfu _ _ C eq_refl))).
  unfold upd. destruct (Z.eqb_spec k' k) as [E|E]; [|apply R; exact Hk'].
  rewrite (R k Hkt). lia.
Qed.

Lemma reads_clear s reads : ReadsInv reads (clear_shard policyLFU s).
Proof. unfold ReadsInv, clear_shard. sfld. intros k []. Qed.

(** The LFU victim has the fewest reads since its last write among all residents.  The hypothesis
    [serr s1 = 0] says that the oracle event was accepted AND that no error was recorded earlier: serr keeps
    the first code, so on a shard with an old error acceptance and refusal both leave serr as it was. *)
Theorem lfu_victim_min e s s1 d reads :
  e_pol e = policyLFU -> CInv policyLFU s -> tabk s <> [] -> ReadsInv reads s ->
  evict_one e s = (s1, d) -> serr s1 = 0 ->
  exists it, lookup s policyLFU (key it) = Some it /\ lookup s1 policyLFU (key it) = None /\
             (forall k', In k' (tabk s) -> reads (key it) <= reads k') /\
             (forall k', k' <> key it -> lookup s1 policyLFU k' = lookup s policyLFU k') /\
             glog s1 = glog s ++ [drop_entry it].
Proof.
  intros Hp C Hne R H Hs.
  destruct (victim_spec policyLFU e s s1 d Hp C Hne H (fun _ => Hs)) as (it & (V1 & V2 & V3 & V4) & _ & HM).
  exists it. repeat split; try assumption.
  intros k' Hk'. pose proof (ci_lfu _ _ C eq_refl) as LO.
  rewrite (lookup_find _ _ _ C) in V1. destruct (resident_ok _ _ _ C V1) as (R1 & _).
  pose proof (lfu_min_bucket_min (lfu s) k' (key it) (lo_sorted _ _ LO) (HM eq_refl) (proj2 (lo_union _ _ LO k') Hk')) as Hmin.
  rewrite (R _ Hk'), (R _ R1) in Hmin. lia.
Qed.

Record gstate := { g_sh : shard; g_touch : Z -> Z; g_born : Z -> Z; g_reads : Z -> Z; g_clk : Z }.

Inductive gop :=
| GSet (k v ex c : Z)        (* Set, or a SetAsync command applied by the drain *)
| GGet (k nw : Z)            (* Get / GetWithTTL at time nw *)
| GExists (k nw : Z)
| GDelete (k : Z)
| GCleanup (nw : Z)
| GKeys                      (* Keys / Size / Stats: no state change at all *)
| GClear.

Definition g_with (g : gstate) (s : shard) : gstate :=
  {| g_sh := s; g_touch := g_touch g; g_born := g_born g; g_reads := g_reads g; g_clk := g_clk g |}.

(* the fold that op_cleanup runs on one shard, with the counters dropped *)
Definition cleanup_of (e : env) (nw : Z) (s : shard) : shard :=
  fst (fst (fold_left (cleanup_shard e nw) (tabk s) (s, 0, 0))).

(* the shard updates are exactly the classic branches of op_set / op_get / op_exists / op_delete /
   op_cleanup / op_clear; the ghost fields change ONLY on a write and on a successful read *)
Definition gstep (e : env) (g : gstate) (op : gop) : gstate :=
  let s := g_sh g in
  let pol := e_pol e in
  match op with
  | GSet k v ex c =>
    let resident := match lookup s pol k with Some _ => true | None => false end in
    let '(s', _, _) := apply_classic e s k v ex c in
    {| g_sh := s'; g_touch := upd (g_touch g) k (g_clk g);
       g_born := if resident then g_born g else upd (g_born g) k (g_clk g);
       g_reads := upd (g_reads g) k 0; g_clk := g_clk g + 1 |}
  | GGet k nw =>
    match lookup s pol k with
    | None => g_with g s
    | Some it =>
      if expired it nw then let '(s1, _, _) := drop_item e s it reasonExpired in g_with g (adapts s1)
      else {| g_sh := adapts (get_hit_upd pol s it k); g_touch := upd (g_touch g) k (g_clk g);
              g_born := g_born g; g_reads := upd (g_reads g) k (g_reads g k + 1); g_clk := g_clk g + 1 |}
    end
  | GExists k nw =>
    match lookup s pol k with
    | None => g
    | Some it => if expired it nw then let '(s1, _, _) := drop_item e s it reasonExpired in g_with g s1 else g
    end
  | GDelete k =>
    match lookup s pol k with
    | None => g
    | Some it => let '(s1, _, _) := drop_item e s it reasonDeleted in g_with g s1
    end
  | GCleanup nw => let '(s1, _, _) := fold_left (cleanup_shard e nw) (tabk s) (s, 0, 0) in g_with g s1
  | GKeys => g
  | GClear => g_with g (clear_shard pol s)
  end.

Lemma gstep_cleanup_shard e g nw : g_sh (gstep e g (GCleanup nw)) = cleanup_of e nw (g_sh g).
Proof.
  cbn [gstep]. unfold cleanup_of.
  destruct (fold_left (cleanup_shard e nw) (tabk (g_sh g)) (g_sh g, 0, 0)) as [[s1 a] b]. reflexivity.
Qed.

Lemma gstep_clear_shard e g : g_sh (gstep e g GClear) = clear_shard (e_pol e) (g_sh g).
Proof. reflexivity. Qed.

Definition gop_ok (op : gop) : Prop := match op with GSet _ _ _ c => 0 <= c | _ => True end.

Record GInv (pol m : Z) (g : gstate) : Prop := {
  gi_good : Good pol m (g_sh g);
  gi_lru : pol = policyLRU -> OrdInv (g_touch g) (g_clk g) (g_sh g);     (* list sorted by last touch *)
  gi_fifo : pol <> policyLRU -> OrdInv (g_born g) (g_clk g) (g_sh g);    (* list sorted by insertion *)
  gi_lfu : pol = policyLFU -> ReadsInv (g_reads g) (g_sh g)              (* bucket = 1 + reads since last write *)
}.

(* GInv as a predicate of the shard, the stamps fixed: Stable, so every operation that only drops looked-up
   items keeps it *)
Definition StampInv (pol m : Z) (g : gstate) (s : shard) : Prop :=
  Good pol m s /\ (pol = policyLRU -> OrdInv (g_touch g) (g_clk g) s) /\
  (pol <> policyLRU -> OrdInv (g_born g) (g_clk g) s) /\ (pol = policyLFU -> ReadsInv (g_reads g) s).

Lemma GInv_stamp pol m g : GInv pol m g -> StampInv pol m g (g_sh g).
Proof. intros [A B C D]. exact (conj A (conj B (conj C D))). Qed.

Lemma GInv_with pol m g s : StampInv pol m g s -> GInv pol m (g_with g s).
Proof. intros (A & B & C & D). constructor; assumption. Qed.

Lemma StampInv_stable pol m g r : 0 <= r -> Stable pol m r (StampInv pol m g).
Proof.
  intros Hr. apply Stable_and; [apply Good_stable, Hr|]. apply Stable_and; [|apply Stable_and].
  - apply (Stable_imp _ _ _ (pol = policyLRU) (OrdInv (g_touch g) (g_clk g))). intros _. apply OrdInv_stable.
  - apply (Stable_imp _ _ _ (pol <> policyLRU) (OrdInv (g_born g) (g_clk g))). intros _. apply OrdInv_stable.
  - apply (Stable_imp _ _ _ (pol = policyLFU) (ReadsInv (g_reads g))). intros ->. apply ReadsInv_stable.
Qed.

Theorem gstep_inv pol m e g op :
  e_pol e = pol -> e_mask e = m -> gop_ok op -> GInv pol m g -> GInv pol m (gstep e g op).
Proof.
  intros <- <- Hok I. pose proof (GInv_stamp _ _ _ I) as SI. pose proof (gi_good _ _ _ I) as G. pose proof G as (C & _).
  assert (Drop : forall r, 0 <= r -> forall k it s1 ok d, lookup (g_sh g) (e_pol e) k = Some it ->
                 drop_item e (g_sh g) it r = (s1, ok, d) -> StampInv (e_pol e) (e_mask e) g s1).
  { intros r Hr k it s1 ok d LK DI. exact (lookup_drop_stable _ _ _ _ _ _ _ _ _ (StampInv_stable _ _ g r Hr) C LK DI SI). }
  destruct op as [k v ex c|k nw|k nw|k|nw| |]; cbn [gstep gop_ok] in *.
  - destruct (apply_classic e (g_sh g) k v ex c) as [[s' cm] d] eqn:E.
    constructor; cbn [g_sh g_touch g_born g_reads g_clk].
    + eapply apply_classic_good; eauto.
    + intros PL. rewrite PL in *. eapply lru_apply_classic; eauto. apply (gi_lru _ _ _ I eq_refl).
    + intros PL.
      pose proof (fifo_apply_classic _ e (g_sh g) k v ex c s' cm d (g_born g) (g_clk g) eq_refl PL C Hok (gi_fifo _ _ _ I PL) E) as O.
      destruct (lookup (g_sh g) (e_pol e) k); exact O.
    + intros PL. rewrite PL in *. eapply lfu_apply_classic; eauto. apply (gi_lfu _ _ _ I eq_refl).
  - destruct (lookup (g_sh g) (e_pol e) k) as [it|] eqn:LK; [destruct (expired it nw)|destruct g; exact I].
    + destruct (drop_item e (g_sh g) it reasonExpired) as [[s1 ok] d] eqn:DI. apply GInv_with.
      apply (proj1 (StampInv_stable _ _ g 0 ltac:(reflexivity)) s1 _ (apply_adapts_frame _ s1)).
      exact (Drop reasonExpired ltac:(discriminate) k it s1 ok d LK DI).
    + constructor; cbn [g_sh g_touch g_born g_reads g_clk].
      * apply adapts_good. apply get_hit_good; assumption.
      * intros PL. apply (proj1 (OrdInv_stable _ _ (e_pol e) 0 0) _ _ (apply_adapts_frame _ _)).
        rewrite PL in *. apply lru_get_hit; [exact C|apply (gi_lru _ _ _ I eq_refl)|exact LK].
      * intros PL. apply (proj1 (OrdInv_stable _ _ (e_pol e) 0 0) _ _ (apply_adapts_frame _ _)).
        apply (OrdInv_clock _ (g_clk g)); [lia|]. apply fifo_get_hit; [exact PL|apply (gi_fifo _ _ _ I PL)].
      * intros PL. apply (proj1 (ReadsInv_stable _ 0 0) _ _ (apply_adapts_frame _ _)). rewrite PL in *.
        apply lfu_get_hit; [exact C|apply (gi_lfu _ _ _ I eq_refl)|exact LK].
  - destruct (lookup (g_sh g) (e_pol e) k) as [it|] eqn:LK; [|exact I].
    destruct (expired it nw); [|exact I].
    destruct (drop_item e (g_sh g) it reasonExpired) as [[s1 ok] d] eqn:DI.
    exact (GInv_with _ _ _ _ (Drop reasonExpired ltac:(discriminate) k it s1 ok d LK DI)).
  - destruct (lookup (g_sh g) (e_pol e) k) as [it|] eqn:LK; [|exact I].
    destruct (drop_item e (g_sh g) it reasonDeleted) as [[s1 ok] d] eqn:DI.
    exact (GInv_with _ _ _ _ (Drop reasonDeleted ltac:(discriminate) k it s1 ok d LK DI)).
  - destruct (fold_left (cleanup_shard e nw) (tabk (g_sh g)) (g_sh g, 0, 0)) as [[s1 ev1] ex1] eqn:E.
    apply GInv_with.
    apply (cleanup_fold_stable _ e nw _ (StampInv_stable _ _ g reasonExpired ltac:(discriminate)) _ _ _ _ _ _ C SI E).
  - exact I.
  - apply GInv_with. split; [apply clear_shard_good; exact G|]. split; [|split]; intros PL.
    + apply order_clear.
    + apply order_clear.
    + rewrite PL. apply reads_clear.
Qed.

Definition grun (e : env) (g : gstate) (ops : list gop) : gstate := fold_left (gstep e) ops g.

Theorem grun_inv pol m e ops : forall g,
  e_pol e = pol -> e_mask e = m -> Forall gop_ok ops -> GInv pol m g -> GInv pol m (grun e g ops).
Proof.
  unfold grun. induction ops as [|op r IH]; intros g Hp Hm Hok I; cbn [fold_left]; [exact I|].
  inversion Hok as [|? ? H1 H2]; subst. apply IH; auto. eapply gstep_inv; eauto.
Qed.

Definition g_init (s : shard) : gstate :=
  {| g_sh := s; g_touch := fun _ => 0; g_born := fun _ => 0; g_reads := fun _ => 0; g_clk := 0 |}.

Lemma g_init_inv pol m cp ccp ev :
  is_sieve (empty_shard cp ccp ev) pol = false -> GInv pol m (g_init (empty_shard cp ccp ev)).
Proof.
  intros HS. constructor; cbn [g_init g_sh g_touch g_born g_reads g_clk].
  - apply empty_good. exact HS.
  - intros _. split; constructor.
  - intros _. split; constructor.
  - intros _ k [].
Qed.

(** Every operation but a write and a read hit (Exists, Keys, a failed or expired Get, Delete, Cleanup, Clear)
    leaves the ghost stamps, hence the policy order, as they are *)
Theorem gstep_stamps_unchanged e g op :
  match op with
  | GSet _ _ _ _ => True
  | GGet k nw => match lookup (g_sh g) (e_pol e) k with Some it => expired it nw = true | None => True end
  | _ => True
  end ->
  match op with GSet _ _ _ _ => True | _ =>
    g_touch (gstep e g op) = g_touch g /\ g_born (gstep e g op) = g_born g /\
    g_reads (gstep e g op) = g_reads g /\ g_clk (gstep e g op) = g_clk g end.
Proof.
  destruct op as [k v ex c|k nw|k nw|k|nw| |]; cbn [gstep]; intros H; try exact I.
  - destruct (lookup (g_sh g) (e_pol e) k) as [it|]; [|cbn; tauto].
    rewrite H. destruct (drop_item e (g_sh g) it reasonExpired) as [[s1 ok] d]. cbn. tauto.
  - destruct (lookup (g_sh g) (e_pol e) k) as [it|]; [|tauto].
    destruct (expired it nw); [|tauto]. destruct (drop_item e (g_sh g) it reasonExpired) as [[s1 ok] d]. cbn. tauto.
  - destruct (lookup (g_sh g) (e_pol e) k) as [it|]; [|tauto].
    destruct (drop_item e (g_sh g) it reasonDeleted) as [[s1 ok] d]. cbn. tauto.
  - destruct (fold_left (cleanup_shard e nw) (tabk (g_sh g)) (g_sh g, 0, 0)) as [[s1 ev1] ex1]. cbn. tauto.
  - tauto.
  - cbn. tauto.
Qed.

(* shard-level Set (ttl stamp 0) and read hit *)
Definition cset (e : env) (s : shard) (k v c : Z) : shard := fst (fst (apply_classic e s k v 0 c)).
Definition cget (pol : Z) (s : shard) (k : Z) : shard :=
  match lookup s pol k with Some it => get_hit_upd pol s it k | None => s end.

Lemma cset_good e s k v c : 0 <= c -> Good (e_pol e) (e_mask e) s -> Good (e_pol e) (e_mask e) (cset e s k v c).
Proof.
  intros Hc G. unfold cset. destruct (apply_classic e s k v 0 c) as [[s' cm] d] eqn:E. cbn [fst].
  eapply apply_classic_good; eauto.
Qed.

Lemma cget_good pol m s k : Good pol m s -> Good pol m (cget pol s k).
Proof.
  intros G. unfold cget. destruct (lookup s pol k) as [it|] eqn:E; [|exact G]. apply get_hit_good; assumption.
Qed.

Definition env_of_pol (pol : Z) : env := {| e_pol := pol; e_stats := true; e_mask := 1 |}.

(* Set 1, Set 2, Set 3, Get 1, Set 4 on a shard of capacity 3 *)
Definition ex_run (pol : Z) (ev : list (Z * Z)) : shard :=
  let e := env_of_pol pol in
  cset e (cget pol (cset e (cset e (cset e (empty_shard 3 0 ev) 1 10 1) 2 20 1) 3 30 1) 1) 4 40 1.

Lemma ex_run_good pol ev : (pol =? policySieve) = false -> Good pol 1 (ex_run pol ev).
Proof.
  intros HS. unfold ex_run.
  apply (cset_good (env_of_pol pol)); [discriminate|]. apply cget_good.
  do 3 (apply (cset_good (env_of_pol pol)); [discriminate|]).
  cbn [e_pol e_mask env_of_pol]. apply empty_good. unfold is_sieve. rewrite HS. reflexivity.
Qed.

(** LRU: the read of key 1 saves it; key 2 (least recently used) is evicted *)
Example lru_example :
  Good policyLRU 1 (ex_run policyLRU []) /\
  map key (lst (ex_run policyLRU [])) = [4; 1; 3] /\
  glog (ex_run policyLRU []) = [(0, 1, 10); (0, 2, 20); (0, 3, 30); (10, 2, 20); (0, 4, 40)] /\
  nlog (ex_run policyLRU []) = [{| nkey := 2; nval := 20; nreason := 0 |}] /\
  size (ex_run policyLRU []) = 3 /\ serr (ex_run policyLRU []) = 0.
Proof. split; [apply ex_run_good; reflexivity|]. vm_compute. repeat split; reflexivity. Qed.

(** FIFO: the read of key 1 does not matter; key 1 (earliest inserted) is evicted *)
Example fifo_example :
  Good policyFIFO 1 (ex_run policyFIFO []) /\
  map key (lst (ex_run policyFIFO [])) = [4; 3; 2] /\
  glog (ex_run policyFIFO []) = [(0, 1, 10); (0, 2, 20); (0, 3, 30); (10, 1, 10); (0, 4, 40)] /\
  nlog (ex_run policyFIFO []) = [{| nkey := 1; nval := 10; nreason := 0 |}] /\
  size (ex_run policyFIFO []) = 3 /\ serr (ex_run policyFIFO []) = 0.
Proof. split; [apply ex_run_good; reflexivity|]. vm_compute. repeat split; reflexivity. Qed.

(** LFU: key 1 has frequency 2; the oracle picks key 3 inside the minimum bucket {3, 2} *)
Example lfu_example :
  Good policyLFU 1 (ex_run policyLFU [(evLfu, 3)]) /\
  map key (lst (ex_run policyLFU [(evLfu, 3)])) = [4; 2; 1] /\
  lfu (ex_run policyLFU [(evLfu, 3)]) = [(1, [4; 2]); (2, [1])] /\
  glog (ex_run policyLFU [(evLfu, 3)]) = [(0, 1, 10); (0, 2, 20); (0, 3, 30); (10, 3, 30); (0, 4, 40)] /\
  size (ex_run policyLFU [(evLfu, 3)]) = 3 /\ serr (ex_run policyLFU [(evLfu, 3)]) = 0.
Proof. split; [apply ex_run_good; reflexivity|]. vm_compute. repeat split; reflexivity. Qed.

(** LFU refuses a victim outside the minimum bucket (key 1 has frequency 2): serr = 302, nothing dropped *)
Example lfu_bad_oracle_example :
  Good policyLFU 1 (ex_run policyLFU [(evLfu, 1)]) /\
  serr (ex_run policyLFU [(evLfu, 1)]) = 302 /\ size (ex_run policyLFU [(evLfu, 1)]) = 4 /\
  over_capacity (ex_run policyLFU [(evLfu, 1)]) = true.
Proof. split; [apply ex_run_good; reflexivity|]. vm_compute. repeat split; reflexivity. Qed.

(** Weighted (cost cap 10, LRU): updating key 1 from cost 4 to cost 8 grows the total to 12 and evicts key 2 *)
Definition ex_weighted : shard :=
  let e := env_of_pol policyLRU in
  cset e (cset e (cset e (empty_shard 0 10 []) 1 10 4) 2 20 4) 1 11 8.

Example weighted_example :
  Good policyLRU 1 ex_weighted /\
  map key (lst ex_weighted) = [1] /\ scost ex_weighted = 8 /\ size ex_weighted = 1 /\
  glog ex_weighted = [(0, 1, 10); (0, 2, 20); (1, 1, 10); (0, 1, 11); (10, 2, 20)] /\
  over_capacity ex_weighted = false.
Proof.
  split.
  - unfold ex_weighted. repeat (apply (cset_good (env_of_pol policyLRU)); [discriminate|]). apply empty_good. reflexivity.
  - vm_compute. repeat split; reflexivity.
Qed.

(** "drop_item preserves the Ledger for ANY reason" is false for negative reason codes:
    reason -10 writes tag 0, which reads as a second write of the value.  (NotifLog and CInv still hold.) *)
Example drop_item_negative_reason_refuted :
  let e := env_of_pol policyLRU in
  let s := cset e (empty_shard 3 0 []) 1 10 1 in
  Ledger s /\
  forall it, find_item (lst s) 1 = Some it ->
    let '(s', _, _) := drop_item e s it (-10) in ~ Ledger s'.
Proof.
  cbv zeta. split.
  - refine (proj1 (proj2 (_ : Good policyLRU 1 _))). apply (cset_good (env_of_pol policyLRU)); [discriminate|].
    apply empty_good. reflexivity.
  - intros it H. vm_compute in H. injection H as <-. vm_compute. intros L. specialize (L 1 10). vm_compute in L. discriminate.
Qed.

(** "at most one drop without a cost cap" needs [over_capacity s = false]: CInv alone allows
    a shard holding more than its capacity, and then the insertion drops several entries. *)
Definition recap (s : shard) (cp : Z) : shard :=
  {| cap := cp; costcap := 0; tabk := tabk s; lst := lst s; lfu := lfu s; prob := []; main := []; hand := None;
     pcap := 0; mcap := 0; pmin := 0; pmax := 0; size := size s; scost := scost s; staged := []; evs := []; pend := [];
     admits := 0; rejects := 0; ghosthits := 0; promos := 0; pevicts := 0; mevicts := 0; serr := 0;
     glog := glog s; nlog := nlog s |}.

Lemma CInv_recap pol s cp : (pol =? policySieve) = false -> CInv pol s -> CInv pol (recap s cp).
Proof.
  intros HS C. unfold recap.
  constructor; cbn [cap tabk lst lfu prob main hand size scost]; try apply C; try reflexivity.
  unfold is_sieve. rewrite HS. reflexivity.
Qed.

Definition ex_over : shard :=
  let e := env_of_pol policyLRU in
  recap (cset e (cset e (cset e (empty_shard 0 0 []) 1 10 1) 2 20 1) 3 30 1) 1.

Example at_most_one_needs_not_over_refuted :
  CInv policyLRU ex_over /\ costcap ex_over = 0 /\ lookup ex_over policyLRU 4 = None /\
  over_capacity ex_over = true /\
  cnt is_dropped (glog (cset (env_of_pol policyLRU) ex_over 4 40 1)) = 3.
Proof.
  split; [|vm_compute; repeat split; reflexivity].
  unfold ex_over. apply CInv_recap; [reflexivity|]. refine (proj1 (_ : Good policyLRU 1 _)).
  repeat (apply (cset_good (env_of_pol policyLRU)); [discriminate|]). apply empty_good. reflexivity.
Qed.

(** In the budget theorem "serr s' = serr s" is NOT enough (serr is sticky, so an oracle failure is
    invisible when an error is already recorded): the hypothesis has to be [serr s' = 0]. *)
Example budget_needs_serr_zero_refuted :
  let e := env_of_pol policyLFU in
  let s := sh_err (cset e (empty_shard 1 0 []) 1 10 1) 7 in
  CInv policyLFU s /\ over_capacity s = false /\
  let '(s', _, _) := apply_classic e s 2 20 0 1 in serr s' = serr s /\ over_capacity s' = true.
Proof.
  cbv zeta. split; [|vm_compute; repeat split; reflexivity].
  eapply CInv_frame; [apply Frame_sh_err|]. refine (proj1 (_ : Good policyLFU 1 _)).
  apply (cset_good (env_of_pol policyLFU)); [discriminate|]. apply empty_good. reflexivity.
Qed.

(** The second half of [update_effective] ("the update sticks whenever costcap = 0 or the cost does
    not grow") also needs [over_capacity s = false]: on an over-full FIFO shard the updated key may be the tail. *)
Definition ex_over_fifo : shard :=
  let e := env_of_pol policyFIFO in
  recap (cset e (cset e (cset e (empty_shard 0 0 []) 1 10 1) 2 20 1) 3 30 1) 1.

Example update_effective_needs_not_over_refuted :
  CInv policyFIFO ex_over_fifo /\ costcap ex_over_fifo = 0 /\
  (exists old, lookup ex_over_fifo policyFIFO 1 = Some old /\ 1 <= cost old) /\
  lookup (cset (env_of_pol policyFIFO) ex_over_fifo 1 11 1) policyFIFO 1 = None.
Proof.
  split; [|vm_compute; repeat split; try reflexivity; eexists; split; [reflexivity|discriminate]].
  unfold ex_over_fifo. apply CInv_recap; [reflexivity|]. refine (proj1 (_ : Good policyFIFO 1 _)).
  repeat (apply (cset_good (env_of_pol policyFIFO)); [discriminate|]). apply empty_good. reflexivity.
Qed.

(** Sieve with cap = 0 takes the classic (FIFO-like) path: CInv applies, and with costcap = 0 nothing is ever dropped *)
Definition ex_sieve0 : shard :=
  let e := env_of_pol policySieve in
  cset e (cget policySieve (cset e (cset e (empty_shard 0 0 []) 1 10 1) 2 20 1) 1) 1 11 1.

Example sieve_cap0_example :
  Good policySieve 1 ex_sieve0 /\ map key (lst ex_sieve0) = [2; 1] /\
  glog ex_sieve0 = [(0, 1, 10); (0, 2, 20); (1, 1, 10); (0, 1, 11)] /\ nlog ex_sieve0 = [] /\ serr ex_sieve0 = 0.
Proof.
  split; [|vm_compute; repeat split; reflexivity].
  unfold ex_sieve0. apply (cset_good (env_of_pol policySieve)); [discriminate|]. apply cget_good.
  do 2 (apply (cset_good (env_of_pol policySieve)); [discriminate|]). apply empty_good. reflexivity.
Qed.

(* cache level: the classic branches of op_get / op_exists / op_delete / op_set act on their shard exactly like the
   wrapper steps GGet / GExists / GDelete / GSet *)

Lemma get_put_same c sh s s1 h m ev ex :
  get_shard c sh = Some s -> get_shard (put_shard c sh s1 h m ev ex) sh = Some s1.
Proof. unfold get_shard, put_shard. cbn [shards]. apply nth_error_set_nth_eq. Qed.

Theorem op_get_classic c k sh s g :
  closed c = false -> get_shard c sh = Some s -> is_sieve s (policy c) = false -> g_sh g = s ->
  get_shard (fst (fst (fst (op_get c k sh)))) sh = Some (g_sh (gstep (env_of c) g (GGet k (now c)))).
Proof.
  intros Hc Hg Hs <-. unfold op_get. rewrite Hc, Hg. cbv zeta. rewrite Hs. cbn [andb]. rewrite Hg.
  cbn [gstep]. change (e_pol (env_of c)) with (policy c).
  destruct (lookup (g_sh g) (policy c) k) as [it|]; [destruct (expired it (now c))|].
  - destruct (drop_item (env_of c) (g_sh g) it reasonExpired) as [[s1 ok] d]. exact (get_put_same _ _ _ _ _ _ _ _ Hg).
  - exact (get_put_same _ _ _ _ _ _ _ _ Hg).
  - exact (get_put_same _ _ _ _ _ _ _ _ Hg).
Qed.

Theorem op_exists_classic c k sh s g :
  closed c = false -> get_shard c sh = Some s -> g_sh g = s ->
  get_shard (fst (op_exists c k sh)) sh = Some (g_sh (gstep (env_of c) g (GExists k (now c)))).
Proof.
  intros Hc Hg <-. unfold op_exists. rewrite Hc, Hg. cbn [gstep]. change (e_pol (env_of c)) with (policy c).
  destruct (lookup (g_sh g) (policy c) k) as [it|]; [|exact Hg]. destruct (expired it (now c)); [|exact Hg].
  destruct (drop_item (env_of c) (g_sh g) it reasonExpired) as [[s1 ok] d]. exact (get_put_same _ _ _ _ _ _ _ _ Hg).
Qed.

Lemma drain_shard_quiescent c sh s : get_shard c sh = Some s -> pend s = [] -> drain_shard c sh = c.
Proof. intros Hg Hp. unfold drain_shard. rewrite Hg, Hp. reflexivity. Qed.

Theorem op_delete_classic c k sh s g :
  closed c = false -> get_shard c sh = Some s -> pend s = [] -> g_sh g = s ->
  get_shard (fst (op_delete c k sh)) sh = Some (g_sh (gstep (env_of c) g (GDelete k))).
Proof.
  intros Hc Hg Hp <-. unfold op_delete. rewrite Hc. cbv zeta. rewrite (drain_shard_quiescent c sh _ Hg Hp), Hg.
  cbn [gstep]. change (e_pol (env_of c)) with (policy c).
  destruct (lookup (g_sh g) (policy c) k) as [it|]; [|exact Hg].
  destruct (drop_item (env_of c) (g_sh g) it reasonDeleted) as [[s1 ok] d]. exact (get_put_same _ _ _ _ _ _ _ _ Hg).
Qed.

Theorem op_set_classic c k v ttl cst sh s g :
  get_shard c sh = Some s -> pend s = [] -> is_sieve s (policy c) = false -> g_sh g = s ->
  set_check c sh cst = 0 ->
  0 <= cst /\
  get_shard (fst (op_set c k v ttl cst sh)) sh =
    Some (g_sh (gstep (env_of c) g (GSet k v (stamp (norm_ttl c ttl) (now c)) cst))).
Proof.
  intros Hg Hp Hs <- Hck. split.
  - unfold set_check in Hck. destruct (Z.ltb_spec cst 0); [discriminate|lia].
  - unfold op_set. rewrite Hck. cbn [Z.eqb negb]. rewrite (drain_shard_quiescent c sh _ Hg Hp).
    unfold apply_cmd. rewrite Hg. unfold apply_set. change (e_pol (env_of c)) with (policy c). rewrite Hs.
    cbn [gstep]. change (e_pol (env_of c)) with (policy c).
    destruct (apply_classic _ (g_sh g) k v (stamp (norm_ttl c ttl) (now c)) cst) as [[s1 cm] d].
    exact (get_put_same _ _ _ _ _ _ _ _ Hg).
Qed.

Lemma cleanup_shard_indep e nw s ev ex ev' ex' k :
  fst (fst (cleanup_shard e nw (s, ev, ex) k)) = fst (fst (cleanup_shard e nw (s, ev', ex') k)).
Proof.
  unfold cleanup_shard. destruct (lookup s (e_pol e) k) as [it|]; [|reflexivity].
  destruct (expired it nw); [|reflexivity].
  destruct (drop_item e s it reasonExpired) as [[s1 ok] d]. reflexivity.
Qed.

Lemma cleanup_fold_indep e nw ks : forall s ev ex ev' ex',
  fst (fst (fold_left (cleanup_shard e nw) ks (s, ev, ex))) = fst (fst (fold_left (cleanup_shard e nw) ks (s, ev', ex'))).
Proof.
  induction ks as [|k r IH]; intros s ev ex ev' ex'; cbn [fold_left]; [reflexivity|].
  pose proof (cleanup_shard_indep e nw s ev ex ev' ex' k) as E.
  destruct (cleanup_shard e nw (s, ev, ex) k) as [[s1 a1] b1].
  destruct (cleanup_shard e nw (s, ev', ex') k) as [[s2 a2] b2]. cbn [fst] in E. subst s2. apply IH.
Qed.

Theorem op_cleanup_shards c :
  closed c = false -> shards (op_cleanup c) = map (cleanup_of (env_of c) (now c)) (shards c).
Proof.
  intros Hc. unfold op_cleanup. rewrite Hc.
  set (step := fun (acc : list shard * Z * Z) (s : shard) =>
    let '(l, ev, ex) := acc in
    let '(s1, ev1, ex1) := fold_left (cleanup_shard (env_of c) (now c)) (tabk s) (s, ev, ex) in
    (l ++ [s1], ev1, ex1)).
  assert (K : forall ss l ev ex, fst (fst (fold_left step ss (l, ev, ex))) = l ++ map (cleanup_of (env_of c) (now c)) ss).
  { induction ss as [|s ss IH]; intros l ev ex; cbn [fold_left map]; [rewrite app_nil_r; reflexivity|].
    unfold step at 2.
    pose proof (cleanup_fold_indep (env_of c) (now c) (tabk s) s ev ex 0 0) as E.
    destruct (fold_left (cleanup_shard (env_of c) (now c)) (tabk s) (s, ev, ex)) as [[s1 ev1] ex1].
    rewrite IH. unfold cleanup_of. rewrite <- E. cbn [fst]. rewrite <- app_assoc. reflexivity. }
  specialize (K (shards c) [] (evictions c) (expirations c)).
  destruct (fold_left step (shards c) ([], evictions c, expirations c)) as [[l ev] ex]. cbn [fst] in K.
  cbn [shards]. exact K.
Qed.

Lemma drain_all_quiescent c : (forall s, In s (shards c) -> pend s = []) -> drain_all c = c.
Proof.
  intros H. unfold drain_all.
  assert (K : forall l, fold_left drain_shard l c = c).
  { induction l as [|i l IH]; cbn [fold_left]; [reflexivity|].
    assert (E : drain_shard c i = c).
    { unfold drain_shard. destruct (get_shard c i) as [s|] eqn:G; [|reflexivity].
      rewrite (H s); [reflexivity|]. unfold get_shard in G. eapply nth_error_In; eauto. }
    rewrite E. exact IH. }
  apply K.
Qed.

Theorem op_clear_shards c :
  closed c = false -> (forall s, In s (shards c) -> pend s = []) ->
  shards (op_clear c) = map (clear_shard (policy c)) (shards c).
Proof. intros Hc H. unfold op_clear. rewrite Hc, (drain_all_quiescent c H). reflexivity. Qed.
