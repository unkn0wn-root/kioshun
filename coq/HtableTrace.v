(* Whole-history refinement: every protocol-respecting sequence of table operations,
   run on the concrete open-addressing table from [new_table c], is simulated step by step by an abstract
   association map with a probe/publish protocol phase.  Lifts the per-operation theorems of
   HtableProofs.v to every reachable table. *)
Require Import KV.Base KV.Gen.Consts KV.HtableModel KV.HtableProofs.
Require Import Lia List Arith ZArith Bool.
Import ListNotations.
Local Open Scope Z_scope.

Inductive top :=
| TStore (it : item) | TLookup (k : Z) | TProbe (k : Z) | TSwap (it : item)
| TPublish (it : item) | TUnpin | TRemove (it : item) | TClear.

Inductive tout :=
| OStore (prev : option item) | OLookup (r : option item) | OProbe (r : option item)
| ORemove (ok : bool) | OUnit.

Definition aget (m : list item) (k : Z) : option item := find (fun it => ikey it =? k) m.
Definition adel (m : list item) (k : Z) : list item := filter (fun it => negb (ikey it =? k)) m.
Definition aset (m : list item) (it : item) : list item := it :: adel m (ikey it).

Lemma aget_adel m kk k : aget (adel m kk) k = if k =? kk then None else aget m k.
Proof.
  unfold aget, adel. induction m as [|x m IH]; cbn [filter find]; [destruct (k =? kk); reflexivity|].
  destruct (Z.eqb_spec (ikey x) kk) as [E|E]; cbn [negb find]; rewrite IH;
    destruct (Z.eqb_spec k kk), (Z.eqb_spec (ikey x) k); congruence.
Qed.

Lemma aget_aset m it k : aget (aset m it) k = if k =? ikey it then Some it else aget m k.
Proof.
  unfold aset, aget. cbn [find]. fold (aget (adel m (ikey it)) k).
  rewrite aget_adel, (Z.eqb_sym (ikey it) k). destruct (k =? ikey it); reflexivity.
Qed.

Lemma In_adel m k x : In x (adel m k) -> In x m /\ ikey x <> k.
Proof. unfold adel. rewrite filter_In. cbn beta. rewrite negb_true_iff, Z.eqb_neq. tauto. Qed.

Lemma NoDup_adel m k : NoDup (map ikey m) -> NoDup (map ikey (adel m k)).
Proof.
  induction m as [|x m IH]; cbn [adel map filter]; intros N; [constructor|].
  inversion N as [|? ? NI N']; subst. fold (adel m k).
  destruct (negb (ikey x =? k)); [|apply IH; exact N'].
  cbn [map]. constructor; [|apply IH; exact N'].
  intros I. apply in_map_iff in I as (y & Ky & Iy). apply NI. rewrite <- Ky. apply in_map, (In_adel _ _ _ Iy).
Qed.

Lemma NoDup_aset m it : NoDup (map ikey m) -> NoDup (map ikey (aset m it)).
Proof.
  intros N. unfold aset. cbn [map]. constructor; [|apply NoDup_adel; exact N].
  intros I. apply in_map_iff in I as (y & Ky & Iy). apply (In_adel _ _ _ Iy), Ky.
Qed.

Lemma aget_some m k x : aget m k = Some x -> In x m /\ ikey x = k.
Proof. unfold aget. intros H. apply find_some in H. rewrite Z.eqb_eq in H. exact H. Qed.

Lemma aget_in_nodup m x : NoDup (map ikey m) -> In x m -> aget m (ikey x) = Some x.
Proof.
  unfold aget. induction m as [|y m IH]; cbn [map find]; intros N I; [destruct I|].
  inversion N as [|? ? NI N']; subst.
  destruct (Z.eqb_spec (ikey y) (ikey x)) as [E|E]; destruct I as [->|I]; auto; try contradiction.
  destruct NI. rewrite E. apply in_map, I.
Qed.

Lemma keyed_same_length (m1 m2 : list item) :
  NoDup (map ikey m1) -> NoDup (map ikey m2) ->
  (forall k, aget m1 k = aget m2 k) -> length m1 = length m2.
Proof.
  assert (I12 : forall a b, NoDup (map ikey a) -> (forall k, aget a k = aget b k) -> (length a <= length b)%nat).
  { intros a b Na Hab. apply NoDup_incl_length; [apply (NoDup_map_inv ikey), Na|].
    intros x Ix. apply (aget_some b (ikey x)). rewrite <- Hab. apply aget_in_nodup; assumption. }
  intros N1 N2 H. apply Nat.le_antisymm; apply I12; auto.
Qed.

Lemma gen_maybe_grow_ge t : gen t <= gen (maybe_grow t).
Proof.
  unfold maybe_grow. destruct (_ <? _); [lia|].
  unfold rehash. destruct (fold_left _ _ _) as [nl e]. cbn [gen]. lia.
Qed.

Lemma gen_store_ge t it : gen t <= gen (fst (store t it)).
Proof.
  unfold store. destruct (walk t (ihash it) (ikey it)) as [j tomb|s cur|]; cbn [fst].
  - eapply Z.le_trans; [|apply gen_maybe_grow_ge]. cbn [with_slots gen]. lia.
  - cbn [with_slots gen]. lia.
  - cbn [set_err gen]. lia.
Qed.

Lemma gen_publish_ge t it cur : gen t <= gen (publish t it cur).
Proof.
  unfold publish. destruct (negb (cgen cur =? gen t)).
  - eapply Z.le_trans; [|apply gen_store_ge]. cbn [with_slots gen]. lia.
  - eapply Z.le_trans; [|apply gen_maybe_grow_ge]. cbn [with_slots gen]. lia.
Qed.

Lemma gen_remove t it : gen (fst (remove_exact t it)) = gen t.
Proof.
  unfold remove_exact. destruct (find_exact _ _ _ _ _) as [[i|]|]; cbn [fst]; try reflexivity.
  destruct (reclaim_tombs _ _ _ _ _) as [l2 tb]. reflexivity.
Qed.

Lemma probe_found_cursor t h k t' x cur : probe t h k = (t', Some x, cur) -> cgen cur = -1.
Proof.
  unfold probe. destruct (walk t h k) as [j tomb|s c0|]; intros E; inversion E. reflexivity.
Qed.

Section Trace.
Variable hashf : Z -> Z.

(* the concrete machine: the model functions, called as the cache calls them under the shard lock *)
Record cstate := { ctab : htable; ccur : cursor; cfnd : option (nat * item) }.

Definition cstep (c : cstate) (op : top) : cstate * tout :=
  match op with
  | TStore it =>
      let '(t', prev) := store (ctab c) it in
      ({| ctab := t'; ccur := ccur c; cfnd := cfnd c |}, OStore prev)
  | TLookup k => (c, OLookup (lookup (ctab c) (hashf k) k))
  | TProbe k =>
      let '(t', found, cur) := probe (ctab c) (hashf k) k in
      ({| ctab := t'; ccur := cur; cfnd := found |}, OProbe (option_map snd found))
  | TSwap it =>
      ({| ctab := swap_at (ctab c) (match cfnd c with Some (s, _) => s | None => O end) it;
          ccur := ccur c; cfnd := cfnd c |}, OUnit)
  | TPublish it => ({| ctab := publish (ctab c) it (ccur c); ccur := ccur c; cfnd := cfnd c |}, OUnit)
  | TUnpin => ({| ctab := unpin (ctab c); ccur := ccur c; cfnd := cfnd c |}, OUnit)
  | TRemove it =>
      let '(t', ok) := remove_exact (ctab c) it in
      ({| ctab := t'; ccur := ccur c; cfnd := cfnd c |}, ORemove ok)
  | TClear => ({| ctab := clear (ctab c); ccur := ccur c; cfnd := cfnd c |}, OUnit)
  end.

Definition cinit (cap : Z) : cstate :=
  {| ctab := new_table cap; ccur := {| cgen := -1; cslot := O; ctomb := false |}; cfnd := None |}.

Definition crun (c : cstate) (ops : list top) : cstate * list tout := run cstep c ops.

(* The abstract machine: association map, protocol phase, ghost history of issued item objects.
   The phases mirror applySieve (writes.go): probe is followed at once by swapAt when it found the key
   (Found), and when it did not (Pending) by the admission decision and the evictions it causes, that
   is removals, lookups or a clear, and then by publish or unpin.  Hence no store or second probe while a
   probe is open, and no removal between a hit and its swap (it could empty the remembered slot). *)
Inductive phase := Idle | Pending (kc : Z) | Found (k : Z).

Record astate := {
  am : list item;
  aph : phase;
  astale : bool;           (* ghost: the remembered cursor is known to be stale *)
  aissued : list item      (* ghost: every item object ever inserted *)
}.

Definition item_eqb (a b : item) : bool :=
  (ikey a =? ikey b) && (ihash a =? ihash b) && (ival a =? ival b) && (iid a =? iid b).

Definition consb (it : item) : bool := ihash it =? hashf (ikey it).
(* a new object: its iid was never issued before *)
Definition fresh_iid (issued : list item) (it : item) : bool :=
  forallb (fun x => negb (iid x =? iid it)) issued.
(* an argument of remove: any issued object with its iid is that very object *)
Definition ident_ok (issued : list item) (it : item) : bool :=
  forallb (fun x => negb (iid x =? iid it) || item_eqb x it) issued.

Definition ins_ok (a : astate) (it : item) : bool := consb it && fresh_iid (aissued a) it.

Definition a_insert (a : astate) (it : item) (st : bool) : astate :=
  {| am := aset (am a) it; aph := Idle; astale := st; aissued := it :: aissued a |}.

Definition rem_ok (m : list item) (it : item) : bool :=
  match aget m (ikey it) with Some cur => iid cur =? iid it | None => false end.

Definition astep (a : astate) (op : top) : option (astate * tout) :=
  match op with
  | TLookup k => Some (a, OLookup (aget (am a) k))
  | TStore it =>
      match aph a with
      | Idle => if ins_ok a it then Some (a_insert a it (astale a), OStore (aget (am a) (ikey it))) else None
      | _ => None
      end
  | TProbe k =>
      match aph a with
      | Idle =>
          match aget (am a) k with
          | Some it => Some ({| am := am a; aph := Found k; astale := true; aissued := aissued a |},
                             OProbe (Some it))
          | None => Some ({| am := am a; aph := Pending k; astale := false; aissued := aissued a |},
                          OProbe None)
          end
      | _ => None
      end
  | TSwap it =>
      match aph a with
      | Found k => if ins_ok a it && (ikey it =? k) then Some (a_insert a it (astale a), OUnit) else None
      | _ => None
      end
  | TPublish it =>
      match aph a with
      | Pending kc => if ins_ok a it && (ikey it =? kc) then Some (a_insert a it false, OUnit) else None
      | Idle => (* defensive path of the Go code: a stale cursor degrades to a plain store *)
          if astale a && ins_ok a it then Some (a_insert a it true, OUnit) else None
      | Found _ => None
      end
  | TUnpin => Some ({| am := am a; aph := Idle; astale := astale a; aissued := aissued a |}, OUnit)
  | TRemove it =>
      match aph a with
      | Found _ => None
      | _ =>
          if consb it && ident_ok (aissued a) it then
            let ok := rem_ok (am a) it in
            Some ({| am := if ok then adel (am a) (ikey it) else am a; aph := aph a;
                     astale := astale a; aissued := aissued a |}, ORemove ok)
          else None
      end
  | TClear => Some ({| am := []; aph := Idle; astale := true; aissued := aissued a |}, OUnit)
  end.

Definition ainit : astate := {| am := []; aph := Idle; astale := true; aissued := [] |}.

Fixpoint arun (a : astate) (ops : list top) : option (astate * list tout) :=
  match ops with
  | [] => Some (a, [])
  | op :: r =>
      match astep a op with
      | None => None
      | Some (a1, o) =>
          match arun a1 r with
          | None => None
          | Some (a2, os) => Some (a2, o :: os)
          end
      end
  end.

(* a trace respects the protocol iff the abstract machine accepts it *)
Definition protocol_ok (ops : list top) : Prop := exists a outs, arun ainit ops = Some (a, outs).

Lemma item_eqb_eq a b : item_eqb a b = true -> a = b.
Proof.
  unfold item_eqb. rewrite !andb_true_iff, !Z.eqb_eq. destruct a, b. cbn. intros [[[-> ->] ->] ->].
  reflexivity.
Qed.

Lemma consb_true it : consb it = true -> consistent hashf it.
Proof. apply Z.eqb_eq. Qed.

Lemma fresh_iid_spec l it : fresh_iid l it = true -> forall x, In x l -> iid x <> iid it.
Proof.
  unfold fresh_iid. rewrite forallb_forall. intros H x I. apply Z.eqb_neq, negb_true_iff, H, I.
Qed.

Lemma ident_ok_spec l it : ident_ok l it = true -> forall x, In x l -> iid x = iid it -> x = it.
Proof.
  unfold ident_ok. rewrite forallb_forall. intros H x I E. specialize (H x I).
  rewrite E, Z.eqb_refl in H. apply item_eqb_eq, H.
Qed.

Lemma ins_ok_spec a it :
  ins_ok a it = true -> consistent hashf it /\ (forall x, In x (aissued a) -> iid x <> iid it).
Proof.
  unfold ins_ok. rewrite andb_true_iff. intros [H1 H2].
  split; [apply consb_true, H1|apply fresh_iid_spec, H2].
Qed.

Definition phase_inv (c : cstate) (ph : phase) : Prop :=
  match ph with
  | Idle => WF hashf (ctab c)
  | Found k =>
      WF hashf (ctab c) /\
      exists s it, cfnd c = Some (s, it) /\ getc (slots (ctab c)) s = Live it /\ ikey it = k
  | Pending kc =>
      WFpin hashf (ctab c) kc (cslot (ccur c)) /\ cgen (ccur c) = gen (ctab c) /\
      (getc (slots (ctab c)) (cslot (ccur c)) = Tomb -> ctomb (ccur c) = true)
  end.

(* The last three clauses are about the remembered cursor.  [cgen] stands for the array the cursor was
   taken on; the zero cursor a probe hit returns has cgen = -1, below every gen >= 0, so "stale" is
   cgen < gen, and a hit makes the remembered cursor stale (astale := true in astep). *)
Record Rel (c : cstate) (a : astate) : Prop := {
  r_phase : phase_inv c (aph a);
  r_map : forall k, amap (ctab c) k = aget (am a) k;
  r_nodup : NoDup (map ikey (am a));
  r_sub : forall x, In x (am a) -> In x (aissued a);
  r_ids : forall x y, In x (aissued a) -> In y (aissued a) -> iid x = iid y -> x = y;
  r_gen0 : 0 <= gen (ctab c);
  r_gen : cgen (ccur c) <= gen (ctab c);
  r_stale : astale a = true -> cgen (ccur c) < gen (ctab c)
}.

Lemma phase_core c ph : phase_inv c ph -> WFcore hashf (ctab c) /\ load_ok (ctab c).
Proof.
  destruct ph as [|kc|k]; cbn [phase_inv].
  - intros W. split; [apply (wf_core _ _ W)|apply (wf_load _ _ W)].
  - intros [W _]. split; [apply (wp_core _ _ _ _ W)|apply (wp_load _ _ _ _ W)].
  - intros [W _]. split; [apply (wf_core _ _ W)|apply (wf_load _ _ W)].
Qed.

Lemma Rel_phase c a ph : Rel c a -> aph a = ph -> phase_inv c ph.
Proof. intros R <-. apply (r_phase _ _ R). Qed.

Lemma Rel_core c a : Rel c a -> WFcore hashf (ctab c).
Proof. intros R. apply (phase_core c (aph a) (r_phase _ _ R)). Qed.

Lemma Rel_live c a : Rel c a -> live (ctab c) = Z.of_nat (length (am a)).
Proof.
  intros R. pose proof (Rel_core c a R) as C.
  rewrite (counts_match hashf (ctab c) C). f_equal.
  apply keyed_same_length; [apply uniq_NoDup, (WFcore_uniq _ _ C)|apply (r_nodup _ _ R)|].
  intros k. rewrite <- (r_map _ _ R k). reflexivity.
Qed.

Lemma Rel_lookup c a k : Rel c a -> lookup (ctab c) (hashf k) k = aget (am a) k.
Proof.
  intros R. destruct (phase_core c (aph a) (r_phase _ _ R)) as [C L].
  rewrite (lookup_core hashf (ctab c) k C L). apply (r_map _ _ R).
Qed.

Lemma Rel_iid_ok c a it : Rel c a -> ident_ok (aissued a) it = true -> iid_ok (ctab c) it.
Proof.
  intros R H cur Rc I.
  pose proof (amapl_present (slots (ctab c)) cur (WFcore_uniq _ _ (Rel_core c a R)) Rc) as A.
  fold (amap (ctab c) (ikey cur)) in A. rewrite (r_map _ _ R) in A. apply aget_some in A as [Im _].
  rewrite (ident_ok_spec _ _ H cur (r_sub _ _ R cur Im) I). reflexivity.
Qed.

Lemma Rel_init cap : Rel (cinit cap) ainit.
Proof.
  destruct (new_table_WF hashf cap) as [W A].
  constructor; cbn [cinit ainit ctab ccur am aph astale aissued phase_inv cgen new_table gen].
  - exact W.
  - intros k. rewrite A. reflexivity.
  - constructor.
  - intros x [].
  - intros x y [].
  - lia.
  - lia.
  - lia.
Qed.

(* every insertion-like step (store, swap, publish, stale publish) *)
Lemma Rel_insert c a t' it st :
  Rel c a -> ins_ok a it = true -> WF hashf t' ->
  (forall k, amap t' k = if k =? ikey it then Some it else amap (ctab c) k) ->
  gen (ctab c) <= gen t' -> (st = true -> astale a = true) ->
  Rel {| ctab := t'; ccur := ccur c; cfnd := cfnd c |} (a_insert a it st).
Proof.
  intros R Hi W A G St. destruct (ins_ok_spec a it Hi) as [_ Fr].
  pose proof (r_gen0 _ _ R) as G0. pose proof (r_gen _ _ R) as G1.
  constructor; cbn [a_insert ctab ccur cfnd am aph astale aissued phase_inv]; try lia.
  - exact W.
  - intros k. rewrite A, aget_aset, (r_map _ _ R). reflexivity.
  - apply NoDup_aset, (r_nodup _ _ R).
  - intros x [I|I]; [left; exact I|right]. apply (r_sub _ _ R x), (In_adel _ _ _ I).
  - intros x y [<-|Ix] [<-|Iy] E; [reflexivity|destruct (Fr y Iy (eq_sym E))|destruct (Fr x Ix E)|].
    apply (r_ids _ _ R x y Ix Iy E).
  - intros S. pose proof (r_stale _ _ R (St S)). lia.
Qed.

(* every step that binds no key and issues no object *)
Lemma Rel_no_insert c a c' m' ph st :
  Rel c a -> phase_inv c' ph ->
  (forall k, amap (ctab c') k = aget m' k) -> NoDup (map ikey m') -> incl m' (am a) ->
  0 <= gen (ctab c') -> cgen (ccur c') <= gen (ctab c') ->
  (st = true -> cgen (ccur c') < gen (ctab c')) ->
  Rel c' {| am := m'; aph := ph; astale := st; aissued := aissued a |}.
Proof.
  intros R P A N I G0 G1 St. constructor; cbn [am aph astale aissued]; try assumption.
  - intros x Ix. apply (r_sub _ _ R), I, Ix.
  - apply (r_ids _ _ R).
Qed.

Lemma rem_ok_iff c a it :
  Rel c a ->
  (rem_ok (am a) it = true <-> exists cur, amap (ctab c) (ikey it) = Some cur /\ iid cur = iid it).
Proof.
  intros R. unfold rem_ok. rewrite (r_map _ _ R).
  destruct (aget (am a) (ikey it)) as [cur|].
  - rewrite Z.eqb_eq. split; [eauto|]. intros (cur' & [= <-] & I). exact I.
  - split; [discriminate|]. intros (cur' & E & _). discriminate E.
Qed.

Lemma remove_phase c ph it :
  phase_inv c ph -> (forall k, ph <> Found k) -> consistent hashf it -> iid_ok (ctab c) it ->
  let (t', ok) := remove_exact (ctab c) it in
  phase_inv {| ctab := t'; ccur := ccur c; cfnd := cfnd c |} ph /\
  (ok = true <-> exists cur, amap (ctab c) (ikey it) = Some cur /\ iid cur = iid it) /\
  (forall k, amap t' k = if (ok && (k =? ikey it))%bool then None else amap (ctab c) k).
Proof.
  intros W NF Cit IO. destruct ph as [|kc|k]; cbn [phase_inv] in *; [| |destruct (NF k eq_refl)].
  - apply (remove_exact_spec hashf (ctab c) it W Cit IO).
  - destruct W as (Wp & Gc & Ct).
    pose proof (remove_exact_pin hashf (ctab c) kc _ it Wp Cit IO) as RS.
    destruct (remove_exact (ctab c) it) as [t' ok]. destruct RS as (Wp' & Gq & Gg & RS). cbn [ctab ccur].
    split; [|exact RS]. split; [exact Wp'|]. split; [lia|]. rewrite Gq. exact Ct.
Qed.

Lemma step_remove_ph c a it ph :
  Rel c a -> aph a = ph -> (forall k, ph <> Found k) ->
  consb it = true -> ident_ok (aissued a) it = true ->
  snd (cstep c (TRemove it)) = ORemove (rem_ok (am a) it) /\
  Rel (fst (cstep c (TRemove it)))
      {| am := if rem_ok (am a) it then adel (am a) (ikey it) else am a;
         aph := ph; astale := astale a; aissued := aissued a |}.
Proof.
  intros R Ph NF Hcons Hid.
  pose proof (remove_phase c ph it (Rel_phase c a ph R Ph) NF (consb_true it Hcons) (Rel_iid_ok c a it R Hid))
    as RP.
  pose proof (gen_remove (ctab c) it) as Gr.
  cbn [cstep]. destruct (remove_exact (ctab c) it) as [t' ok]. cbn [fst snd] in *.
  destruct RP as (P & Iff & A).
  assert (Eok : rem_ok (am a) it = ok).
  { destruct (rem_ok_iff c a it R) as [I1 I2], Iff as [I3 I4].
    destruct (rem_ok (am a) it), ok; auto. symmetry. auto. }
  rewrite Eok. split; [reflexivity|].
  apply (Rel_no_insert c a _ _ _ _ R); cbn [ctab ccur]; rewrite ?Gr;
    [exact P| | | |exact (r_gen0 _ _ R)|exact (r_gen _ _ R)|exact (r_stale _ _ R)].
  - intros k. rewrite A, (r_map _ _ R). destruct ok; cbn [andb]; [|reflexivity].
    rewrite aget_adel. reflexivity.
  - destruct ok; [apply NoDup_adel|]; apply (r_nodup _ _ R).
  - destruct ok; [|apply incl_refl]. intros x I. apply (In_adel _ _ _ I).
Qed.

Theorem step_refines c a op a' o :
  Rel c a -> astep a op = Some (a', o) ->
  snd (cstep c op) = o /\ Rel (fst (cstep c op)) a'.
Proof.
  intros R S. destruct op as [it|k|k|it|it| |it| ]; cbn [astep] in S.
  - destruct (aph a) eqn:Ph; try discriminate S.
    destruct (ins_ok a it) eqn:Hi; [|discriminate S]. injection S as <- <-.
    pose proof (Rel_phase c a _ R Ph) as W. cbn [phase_inv] in W.
    pose proof (store_spec hashf (ctab c) it W (proj1 (ins_ok_spec a it Hi))) as SS.
    pose proof (gen_store_ge (ctab c) it) as G.
    cbn [cstep]. destruct (store (ctab c) it) as [t' prev]. destruct SS as (W' & -> & A).
    split; [cbn [snd]; f_equal; apply (r_map _ _ R)|]. apply Rel_insert; auto.
  - injection S as <- <-. cbn [cstep fst snd]. rewrite (Rel_lookup c a k R). split; [reflexivity|exact R].
  - destruct (aph a) eqn:Ph; try discriminate S.
    pose proof (Rel_phase c a _ R Ph) as W. cbn [phase_inv] in W.
    pose proof (probe_spec hashf (ctab c) k W) as PS.
    pose proof (r_gen0 _ _ R) as G0. pose proof (r_nodup _ _ R) as N.
    cbn [cstep]. destruct (probe (ctab c) (hashf k) k) as [[t' found] cur] eqn:E. cbn [fst snd].
    destruct found as [[s x]|].
    + destruct PS as (-> & A & G). rewrite (r_map _ _ R) in A. rewrite A in S. injection S as <- <-.
      split; [reflexivity|]. pose proof (probe_found_cursor _ _ _ _ _ _ E) as Gc.
      apply (Rel_no_insert c a _ _ _ _ R); cbn [ctab ccur cfnd phase_inv];
        [|exact (r_map _ _ R)|exact N|apply incl_refl|exact G0|lia|intros _; lia].
      split; [exact W|]. exists s, x. repeat split; auto. apply (aget_some _ _ _ A).
    + destruct PS as (Wp & Gc & Gt & Ct & A).
      assert (NA : aget (am a) k = None).
      { rewrite <- (r_map _ _ R), <- A.
        apply (absent_iff_amapl _ _ (WFcore_uniq _ _ (wp_core _ _ _ _ Wp))), (wp_absent _ _ _ _ Wp). }
      rewrite NA in S. injection S as <- <-. split; [reflexivity|].
      apply (Rel_no_insert c a _ _ _ _ R); cbn [ctab ccur cfnd phase_inv];
        [|intros k'; rewrite A; apply (r_map _ _ R)|exact N|apply incl_refl|lia|lia|discriminate].
      split; [exact Wp|]. split; [exact Gc|]. intros T. rewrite Ct, T. reflexivity.
  - destruct (aph a) as [|kc|k] eqn:Ph; try discriminate S.
    destruct (ins_ok a it && (ikey it =? k))%bool eqn:Hc; [|discriminate S]. injection S as <- <-.
    apply andb_true_iff in Hc as [Hi Hk]. apply Z.eqb_eq in Hk.
    destruct (Rel_phase c a _ R Ph) as (W & s & old & Ef & G & <-).
    destruct (swap_at_spec hashf (ctab c) s old it W G Hk (proj1 (ins_ok_spec a it Hi))) as [W' A].
    cbn [cstep fst snd]. split; [reflexivity|].
    replace (match cfnd c with Some (s0, _) => s0 | None => O end) with s by (rewrite Ef; reflexivity).
    apply Rel_insert; auto. cbn [swap_at with_slots gen]. lia.
  - pose proof (gen_publish_ge (ctab c) it (ccur c)) as G.
    destruct (aph a) as [|kc|k] eqn:Ph; try discriminate S;
      pose proof (Rel_phase c a _ R Ph) as W; cbn [phase_inv] in W; cbn [cstep fst snd].
    + destruct (astale a && ins_ok a it)%bool eqn:Hc; [|discriminate S]. injection S as <- <-.
      apply andb_true_iff in Hc as [Hs Hi]. pose proof (r_stale _ _ R Hs) as Lt.
      destruct (publish_stale_spec hashf (ctab c) it (ccur c) W ltac:(lia) (proj1 (ins_ok_spec a it Hi)))
        as [W' A].
      split; [reflexivity|]. apply Rel_insert; auto.
    + destruct (ins_ok a it && (ikey it =? kc))%bool eqn:Hc; [|discriminate S]. injection S as <- <-.
      apply andb_true_iff in Hc as [Hi Hk]. apply Z.eqb_eq in Hk. destruct W as (Wp & Gc & Ct).
      destruct (publish_spec hashf (ctab c) kc (ccur c) it Wp Gc Ct (proj1 (ins_ok_spec a it Hi)) Hk) as [W' A].
      split; [reflexivity|]. apply Rel_insert; auto; [|discriminate]. intros k. rewrite A, Hk. reflexivity.
  - injection S as <- <-. cbn [cstep fst snd]. split; [reflexivity|].
    pose proof (r_phase _ _ R) as W.
    apply (Rel_no_insert c a _ _ _ _ R);
      [|exact (r_map _ _ R)|exact (r_nodup _ _ R)|apply incl_refl
       |exact (r_gen0 _ _ R)|exact (r_gen _ _ R)|exact (r_stale _ _ R)].
    cbn [ctab]. destruct (aph a) as [|kc|k]; cbn [phase_inv] in W.
    + rewrite (unpin_WF hashf _ W). exact W.
    + apply (unpin_spec hashf _ _ _ (proj1 W)).
    + rewrite (unpin_WF hashf _ (proj1 W)). apply W.
  - destruct (aph a) as [|kc|k] eqn:Ph; [| |discriminate S].
    + destruct (consb it && ident_ok (aissued a) it)%bool eqn:Hc; [|discriminate S]. injection S as <- <-.
      apply andb_true_iff in Hc as [Hcons Hid]. apply step_remove_ph; auto. discriminate.
    + destruct (consb it && ident_ok (aissued a) it)%bool eqn:Hc; [|discriminate S]. injection S as <- <-.
      apply andb_true_iff in Hc as [Hcons Hid]. apply step_remove_ph; auto. discriminate.
  - injection S as <- <-. cbn [cstep fst snd]. split; [reflexivity|].
    destruct (clear_core hashf (ctab c) (Rel_core c a R)) as (W & A & G).
    pose proof (r_gen0 _ _ R) as G0. pose proof (r_gen _ _ R) as G1.
    apply (Rel_no_insert c a _ _ _ _ R); cbn [ctab ccur phase_inv]; rewrite ?G;
      [exact W|exact A|constructor|apply incl_nil_l|lia|lia|intros _; lia].
Qed.

Lemma run_refines : forall ops c a a' outs,
  Rel c a -> arun a ops = Some (a', outs) ->
  snd (crun c ops) = outs /\ Rel (fst (crun c ops)) a'.
Proof.
  unfold crun. induction ops as [|op r IH]; intros c a a' outs R S; cbn [arun run] in *.
  - injection S as <- <-. split; [reflexivity|exact R].
  - destruct (astep a op) as [[a1 o]|] eqn:St; [|discriminate S].
    destruct (arun a1 r) as [[a2 os]|] eqn:Rn; [|discriminate S]. injection S as <- <-.
    destruct (step_refines c a op a1 o R St) as [Eo R1]. destruct (cstep c op) as [c1 o1].
    destruct (IH c1 a1 a2 os R1 Rn) as [Eos R2]. destruct (run cstep c1 r) as [c2 os2].
    cbn [fst snd] in *. subst o1 os2. split; [reflexivity|exact R2].
Qed.

(* what the refinement relation gives, as the C12 statements put it *)
Definition refined (c : cstate) (a : astate) : Prop :=
  (forall k, amap (ctab c) k = aget (am a) k) /\
  (forall k, lookup (ctab c) (hashf k) k = aget (am a) k) /\
  herr (ctab c) = false /\
  phase_inv c (aph a) /\
  live (ctab c) = Z.of_nat (length (am a)) /\
  NoDup (map ikey (am a)).

Lemma Rel_refined c a : Rel c a -> refined c a.
Proof.
  intros R. split; [apply (r_map _ _ R)|]. split; [intros k; apply Rel_lookup, R|].
  split; [apply (wc_err _ _ (Rel_core c a R))|]. split; [apply (r_phase _ _ R)|].
  split; [apply (Rel_live c a R)|apply (r_nodup _ _ R)].
Qed.

Theorem trace_refines cap ops a' outs :
  arun ainit ops = Some (a', outs) ->
  snd (crun (cinit cap) ops) = outs /\ refined (fst (crun (cinit cap) ops)) a'.
Proof.
  intros S. destruct (run_refines ops (cinit cap) ainit a' outs (Rel_init cap) S) as [E R].
  split; [exact E|apply Rel_refined; exact R].
Qed.

Lemma arun_app a : forall l1 l2,
  arun a (l1 ++ l2) =
  match arun a l1 with
  | Some (a1, o1) => match arun a1 l2 with Some (a2, o2) => Some (a2, o1 ++ o2) | None => None end
  | None => None
  end.
Proof.
  intros l1. revert a. induction l1 as [|op r IH]; intros a l2; cbn [app arun].
  - destruct (arun a l2) as [[a2 o2]|]; reflexivity.
  - destruct (astep a op) as [[a1 o]|]; [|reflexivity]. rewrite IH.
    destruct (arun a1 r) as [[a1' o1]|]; [|reflexivity]. destruct (arun a1' l2) as [[a2 o2]|]; reflexivity.
Qed.

Lemma crun_app c : forall l1 l2,
  crun c (l1 ++ l2) =
  (fst (crun (fst (crun c l1)) l2), snd (crun c l1) ++ snd (crun (fst (crun c l1)) l2)).
Proof.
  unfold crun. intros l1. revert c. induction l1 as [|op r IH]; intros c l2; cbn [app run].
  - cbn [fst snd app]. destruct (run cstep c l2); reflexivity.
  - destruct (cstep c op) as [c1 o]. rewrite IH. destruct (run cstep c1 r) as [c2 os]. reflexivity.
Qed.

(* the refinement holds after EVERY step of a protocol-respecting history, not only at its end *)
Theorem trace_refines_every_step cap ops1 ops2 a' outs :
  arun ainit (ops1 ++ ops2) = Some (a', outs) ->
  exists a1 o1 o2,
    arun ainit ops1 = Some (a1, o1) /\ outs = o1 ++ o2 /\
    snd (crun (cinit cap) ops1) = o1 /\ refined (fst (crun (cinit cap) ops1)) a1.
Proof.
  rewrite arun_app. destruct (arun ainit ops1) as [[a1 o1]|] eqn:E1; [|discriminate].
  destruct (arun a1 ops2) as [[a2 o2]|]; [|discriminate]. intros [= <- <-].
  exists a1, o1, o2. split; [reflexivity|]. split; [reflexivity|]. apply trace_refines, E1.
Qed.

(* the operation writes key k (or everything) *)
Definition touches (op : top) (k : Z) : bool :=
  match op with
  | TStore it | TSwap it | TPublish it | TRemove it => ikey it =? k
  | TClear => true
  | TLookup _ | TProbe _ | TUnpin => false
  end.

Lemma astep_untouched a op a' o k :
  astep a op = Some (a', o) -> touches op k = false -> aget (am a') k = aget (am a) k.
Proof.
  assert (Ins : forall it st, (ikey it =? k) = false -> aget (am (a_insert a it st)) k = aget (am a) k).
  { intros it st T. cbn [a_insert am]. rewrite aget_aset, Z.eqb_sym, T. reflexivity. }
  intros S T. destruct op as [it|k0|k0|it|it| |it| ]; cbn [touches astep] in T, S.
  - destruct (aph a); try discriminate S. destruct (ins_ok a it); [|discriminate S].
    injection S as <- _. auto.
  - injection S as <- _. reflexivity.
  - destruct (aph a); try discriminate S. destruct (aget (am a) k0); injection S as <- _; reflexivity.
  - destruct (aph a); try discriminate S. destruct (_ && _)%bool; [|discriminate S].
    injection S as <- _. auto.
  - destruct (aph a); try discriminate S; (destruct (_ && _)%bool; [|discriminate S]);
      injection S as <- _; auto.
  - injection S as <- _. reflexivity.
  - destruct (aph a); try discriminate S; (destruct (_ && _)%bool; [|discriminate S]);
      injection S as <- _; cbn [am]; (destruct (rem_ok (am a) it); [|reflexivity]);
      rewrite aget_adel, Z.eqb_sym, T; reflexivity.
  - discriminate T.
Qed.

Lemma arun_untouched k : forall ops a a' outs,
  arun a ops = Some (a', outs) -> Forall (fun op => touches op k = false) ops ->
  aget (am a') k = aget (am a) k.
Proof.
  induction ops as [|op r IH]; intros a a' outs S F; cbn [arun] in S.
  - injection S as <- _. reflexivity.
  - destruct (astep a op) as [[a1 o]|] eqn:St; [|discriminate S].
    destruct (arun a1 r) as [[a2 os]|] eqn:Rn; [|discriminate S]. injection S as <- _.
    inversion F as [|? ? F1 F2]; subst.
    rewrite (IH a1 a2 os Rn F2). apply (astep_untouched a op a1 o k St F1).
Qed.

(* Across any suffix of operations that do not write key k — stores, swaps, publishes, removals, probes
   of OTHER (possibly colliding) keys, lookups, unpins — lookup of k on the concrete table keeps returning
   exactly what the abstract map held for k before the suffix. *)
Theorem key_stable cap ops1 ops2 a1 o1 a2 o2 k :
  arun ainit ops1 = Some (a1, o1) -> arun a1 ops2 = Some (a2, o2) ->
  Forall (fun op => touches op k = false) ops2 ->
  lookup (ctab (fst (crun (cinit cap) (ops1 ++ ops2)))) (hashf k) k = aget (am a1) k.
Proof.
  intros S1 S2 F.
  assert (S : arun ainit (ops1 ++ ops2) = Some (a2, o1 ++ o2)) by (rewrite arun_app, S1, S2; reflexivity).
  destruct (trace_refines cap _ _ _ S) as [_ (_ & L & _)].
  rewrite L. apply (arun_untouched k ops2 a1 a2 o2 S2 F).
Qed.

(* a key present before the suffix is still found after it *)
Corollary key_never_lost cap ops1 ops2 a1 o1 a2 o2 k x :
  arun ainit ops1 = Some (a1, o1) -> aget (am a1) k = Some x ->
  arun a1 ops2 = Some (a2, o2) -> Forall (fun op => touches op k = false) ops2 ->
  lookup (ctab (fst (crun (cinit cap) (ops1 ++ ops2)))) (hashf k) k = Some x.
Proof. intros S1 G S2 F. rewrite (key_stable cap ops1 ops2 a1 o1 a2 o2 k S1 S2 F). exact G. Qed.

(* ... and a TLookup operation issued after the suffix outputs that very item *)
Corollary key_never_lost_output cap ops1 ops2 a1 o1 a2 o2 k x :
  arun ainit ops1 = Some (a1, o1) -> aget (am a1) k = Some x ->
  arun a1 ops2 = Some (a2, o2) -> Forall (fun op => touches op k = false) ops2 ->
  snd (crun (cinit cap) (ops1 ++ ops2 ++ [TLookup k])) = o1 ++ o2 ++ [OLookup (Some x)].
Proof.
  intros S1 G S2 F. apply (trace_refines cap _ a2). rewrite arun_app, S1, arun_app, S2. cbn [arun astep].
  rewrite (arun_untouched k ops2 a1 a2 o2 S2 F), G. reflexivity.
Qed.

(* no resurrection: a key absent from the abstract map is not found, now ... *)
Corollary absent_not_found cap ops a outs k :
  arun ainit ops = Some (a, outs) -> aget (am a) k = None ->
  lookup (ctab (fst (crun (cinit cap) ops))) (hashf k) k = None.
Proof.
  intros S G. destruct (trace_refines cap _ _ _ S) as [_ (_ & L & _)]. rewrite L. exact G.
Qed.

(* ... nor after any suffix that does not write it *)
Corollary no_resurrection cap ops1 ops2 a1 o1 a2 o2 k :
  arun ainit ops1 = Some (a1, o1) -> aget (am a1) k = None ->
  arun a1 ops2 = Some (a2, o2) -> Forall (fun op => touches op k = false) ops2 ->
  lookup (ctab (fst (crun (cinit cap) (ops1 ++ ops2)))) (hashf k) k = None.
Proof. intros S1 G S2 F. rewrite (key_stable cap ops1 ops2 a1 o1 a2 o2 k S1 S2 F). exact G. Qed.

(* live always equals the number of entries (and of resident items) *)
Corollary live_is_count cap ops a outs :
  arun ainit ops = Some (a, outs) ->
  live (ctab (fst (crun (cinit cap) ops))) = Z.of_nat (length (am a)) /\
  live (ctab (fst (crun (cinit cap) ops))) = Z.of_nat (length (contents (ctab (fst (crun (cinit cap) ops))))).
Proof.
  intros S. destruct (run_refines ops (cinit cap) ainit a outs (Rel_init cap) S) as [_ R].
  split; [apply (Rel_live _ _ R)|apply (counts_match hashf _ (Rel_core _ _ R))].
Qed.

(* fuel always suffices on every reachable table *)
Corollary herr_never cap ops a outs :
  arun ainit ops = Some (a, outs) -> herr (ctab (fst (crun (cinit cap) ops))) = false.
Proof. intros S. destruct (trace_refines cap _ _ _ S) as [_ (_ & _ & H & _)]. exact H. Qed.

End Trace.

Module TraceExample.

(* every key hashes to 5: all keys collide (home slot 5 of 8) *)
Definition hf (k : Z) : Z := 5.
Definition mk (k v id : Z) : item := {| ikey := k; ihash := hf k; ival := v; iid := id |}.

Definition ops : list top :=
  [TStore (mk 1 10 100); TStore (mk 2 20 101); TStore (mk 3 30 102); TStore (mk 4 40 103);
   TRemove (mk 2 20 101);            (* tombstone in slot 6 *)
   TProbe 5;                         (* absent: Pending 5, cursor parked on the tombstone *)
   TRemove (mk 4 40 103); TRemove (mk 3 30 102);   (* removals while Pending: reclaim stops at the pin *)
   TLookup 1;
   TPublish (mk 5 50 104);           (* through the cursor *)
   TLookup 5;
   TProbe 1;                         (* present: Found 1 *)
   TSwap (mk 1 11 105);
   TLookup 1;
   TRemove (mk 1 10 100);            (* the replaced object is not resident any more: false *)
   TProbe 7;                         (* Pending 7 *)
   TClear;                           (* stale cursor *)
   TPublish (mk 6 60 106);           (* defensive path: behaves as a store *)
   TLookup 6; TLookup 1].

Definition outs : list tout :=
  [OStore None; OStore None; OStore None; OStore None;
   ORemove true; OProbe None; ORemove true; ORemove true;
   OLookup (Some (mk 1 10 100)); OUnit; OLookup (Some (mk 5 50 104));
   OProbe (Some (mk 1 10 100)); OUnit; OLookup (Some (mk 1 11 105));
   ORemove false; OProbe None; OUnit; OUnit;
   OLookup (Some (mk 6 60 106)); OLookup None].

Example ops_protocol_ok :
  exists a, arun hf ainit ops = Some (a, outs) /\ am a = [mk 6 60 106] /\ aph a = Idle.
Proof. eexists. split; [vm_compute; reflexivity|]. split; reflexivity. Qed.

(* the concrete machine produces the same outputs (here by the theorem, not by evaluation) *)
Example ops_refined :
  snd (crun hf (cinit 0) ops) = outs /\
  WF hf (ctab (fst (crun hf (cinit 0) ops))) /\
  live (ctab (fst (crun hf (cinit 0) ops))) = 1.
Proof.
  destruct ops_protocol_ok as (a & S & M & P).
  destruct (trace_refines hf 0 ops a outs S) as [E (_ & _ & _ & Ph & Lv & _)].
  rewrite P in Ph. rewrite M in Lv. split; [exact E|]. split; [exact Ph|exact Lv].
Qed.

(* in the middle of the history (after the two removals under the pin) the invariant is WFpin and the
   pinned tombstone survived the reclaim *)
Example ops_pending_state :
  let c8 := fst (crun hf (cinit 0) (firstn 8 ops)) in
  WFpin hf (ctab c8) 5 6 /\
  slots (ctab c8) = [Empty; Empty; Empty; Empty; Empty; Live (mk 1 10 100); Tomb; Empty] /\
  pinned (ctab c8) = Some 6%nat.
Proof.
  assert (S : exists a o, arun hf ainit (firstn 8 ops) = Some (a, o) /\ aph a = Pending 5).
  { eexists. eexists. split; [vm_compute; reflexivity|reflexivity]. }
  destruct S as (a & o & S & P).
  destruct (trace_refines hf 0 _ a o S) as [_ (_ & _ & _ & Ph & _)].
  rewrite P in Ph. cbn [phase_inv] in Ph. destruct Ph as (Wp & _).
  cbv zeta. split; [|split; vm_compute; reflexivity].
  replace (cslot (ccur (fst (crun hf (cinit 0) (firstn 8 ops))))) with 6%nat in Wp
    by (vm_compute; reflexivity).
  exact Wp.
Qed.

(* protocol violations are rejected by the abstract machine *)
Example store_while_pending_rejected :
  arun hf ainit [TProbe 5; TStore (mk 1 10 100)] = None.
Proof. vm_compute. reflexivity. Qed.

Example reused_iid_rejected :
  arun hf ainit [TStore (mk 1 10 100); TStore (mk 2 20 100)] = None.
Proof. vm_compute. reflexivity. Qed.

End TraceExample.

Print Assumptions trace_refines.
Print Assumptions trace_refines_every_step.
Print Assumptions key_never_lost_output.
Print Assumptions no_resurrection.
Print Assumptions live_is_count.
Print Assumptions TraceExample.ops_pending_state.
