(* AliasBody.v: the captured body is exactly the bytes passed to Write, whatever the handler does with the slices
   it holds, up to the first policy call that retains its arguments (operation [4; 1]): that call hands out the
   buffer's own array, and from then on a write through it changes the buffer (retain_ends_bufpriv at the end).
   Proved about AliasModel.v, reusing AliasProofs.v. *)
From Coq Require Import List ZArith Bool Lia.
From KV Require Import AliasModel AliasProofs.
Import ListNotations.
Open Scope Z_scope.

Definition body (s : ast) : list Z := arr s (bufarr s).               (* the capture buffer's contents *)
Definition BufPriv (s : ast) : Prop := ~ In (bufarr s) (adv_arr s).   (* nobody outside holds the buffer's array *)

(* bytes an operation hands to Write *)
Definition written (op : list Z) : list Z :=
  match op with [3; b1; b2; b3] => [b1; b2; b3] | _ => [] end.

Lemma grows_body d s s' : Bnd s -> BufPriv s -> grows d s s' -> body s' = body s ++ d /\ BufPriv s'.
Proof.
  intros B P G. pose proof (b_buf _ B) as Hb. unfold body, BufPriv. rewrite (g_buf G).
  split; [exact (g_body G Hb P)|exact (old_aarr G Hb P)].
Qed.

Lemma store_facts s retain : Bnd s ->
  bufarr (store s retain) = bufarr s /\
  arr (store s retain) (bufarr s) = arr s (bufarr s) /\
  adv_arr (store s retain) = adv_arr (st_pre (commit s 200) retain) /\
  exists st m b, stored (store s retain) = Some (st, m, b) /\ arr (store s retain) b = arr s (bufarr s).
Proof.
  intros B. pose proof (b_buf _ B) as Hbuf. pose proof (commit_grows s 200) as G.
  destruct (store_ext s retain) as (_ & Ha & _). specialize (Ha _ Hbuf). revert Ha.
  destruct (store_eq s retain) as (a & n & es & E & Hn & _). cbv zeta in E, Hn. rewrite E.
  destruct (st_pre_eq (commit s 200) retain) as (aa & am & Es). rewrite Es in *. fld. intros Ha.
  split; [apply G|]. split; [exact Ha|]. split; [reflexivity|].
  exists (status (commit s 200)), n, (n + 1). split; [reflexivity|].
  rewrite aupd_same, (g_buf G), <- Ha. symmetry. apply aupd_other. pose proof (g_nxt G). lia.
Qed.

Theorem body_step s op : WF s -> BufPriv s -> op <> [4; 1] ->
  body (step s op) = body s ++ written op /\ BufPriv (step s op).
Proof.
  intros [B _] P N. destruct (step_grows s op) as [[r ->]|G]; [|exact (grows_body _ _ _ B P G)].
  unfold step. cbn [al_step fst written]. rewrite app_nil_r.
  destruct (Z.eqb_spec r 1) as [->|Hr]; [contradiction|].
  destruct (store_facts s false B) as (Hb & Ha & Haa & _).
  unfold body, BufPriv. rewrite Hb, Ha, Haa. unfold st_pre.
  split; [reflexivity|exact (old_aarr (commit_grows s 200) (b_buf _ B) P)].
Qed.

Lemma body_steps ops : forall s, WF s -> BufPriv s -> Forall (fun op => op <> [4; 1]) ops ->
  body (steps s ops) = body s ++ flat_map written ops /\ BufPriv (steps s ops) /\ WF (steps s ops).
Proof.
  induction ops as [|op ops IH]; intros s W P F.
  - simpl. rewrite app_nil_r. split; [reflexivity|split; assumption].
  - inversion F; subst. destruct (body_step s op W P H1) as [Hb Hp].
    assert (W' : WF (step s op)) by (apply al_step_wf, W).
    destruct (IH (step s op) W' Hp H2) as (Hb' & Hp' & Hw').
    change (steps s (op :: ops)) with (steps (step s op) ops).
    split; [|split; assumption].
    rewrite Hb', Hb. simpl. rewrite app_assoc. reflexivity.
Qed.

Lemma init_bufpriv ign : BufPriv (init ign).
Proof. unfold BufPriv. simpl. tauto. Qed.

Theorem body_is_written_bytes ign ops : Forall (fun op => op <> [4; 1]) ops ->
  body (steps (init ign) ops) = flat_map written ops.
Proof.
  intros F. destruct (body_steps ops (init ign) (init_wf ign) (init_bufpriv ign) F) as (Hb & _).
  rewrite Hb. reflexivity.
Qed.

Theorem stored_body_is_written_bytes ign ops r : Forall (fun op => op <> [4; 1]) ops ->
  exists st m b, stored (step (steps (init ign) ops) [4; r]) = Some (st, m, b) /\
                 arr (step (steps (init ign) ops) [4; r]) b = flat_map written ops.
Proof.
  intros F. destruct (body_steps ops (init ign) (init_wf ign) (init_bufpriv ign) F) as (Hb & _ & [B _]).
  set (s := steps (init ign) ops) in *. clearbody s.
  change (step s [4; r]) with (store s (r =? 1)).
  destruct (store_facts s (r =? 1) B) as (_ & _ & _ & st & m & b & Hst & Harr).
  exists st, m, b. split; [exact Hst|]. rewrite Harr. exact Hb.
Qed.

(* the retaining store is excluded from body_step for a reason: it ends the privacy, and the next handler/reader
   write through the retained reference does change the buffer (the stored clone is untouched, by view_stable) *)
Example retain_ends_bufpriv :
  let s := step (steps (init []) [[3; 7; 8; 9]]) [4; 1] in
  body s = [7; 8; 9] /\ In (bufarr s) (adv_arr s) /\ body (step s [5; 0; 0; 99]) = [99; 8; 9] /\
  view (step s [5; 0; 0; 99]) = view s.
Proof. vm_compute. repeat split. left. reflexivity. Qed.

Print Assumptions body_step.
Print Assumptions body_is_written_bytes.
Print Assumptions stored_body_is_written_bytes.
