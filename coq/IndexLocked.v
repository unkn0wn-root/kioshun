(* IndexLocked.v — the locks of the middleware's store and Clear: clearMu (RWMutex) + 64 striped store mutexes, on top
   of IndexLts (they are what fix 1836925 added against defect family F5).

   Go code modelled (httpcache/middleware.go):
     store(key,resp):  clearMu.RLock(); storeMu[stripe(key)].Lock();  A: addKey;  B: cache.Set(..) (/B': removeKeyByIdentity);
                       storeMu[stripe(key)].Unlock(); clearMu.RUnlock()
     Clear():          clearMu.Lock();  1: cache.Clear();  2: patternIdx.clear();  clearMu.Unlock()
     Delete / Invalidate / Close / eviction / notifier delivery: no locks.

   Result: the locked system ENFORCES hypothesis H of IndexLts by itself (locked_enforces_H), so the theorems of
   IndexLtsProofs hold for it without assuming H (quiescent_agreement_locked, invalidate_complete_locked);
   the lock order is deadlock free (deadlock_free_holder, deadlock_free_no_lock, progress) and all locks are released at
   quiescence (locks_released).

   The stripe function is a Section variable: every theorem holds for EVERY `stripe : Z -> nat`
   (in particular for the FNV-1a hash mod 64 of the Go code, which is not modelled, and for a single global stripe). *)
From KV Require Import Base IndexLts IndexLtsProofs.

Definition tid := nat.

(* position of a thread in the lock protocol (its position in the index/cache protocol is IndexLts.t_pc) *)
Inductive lphase :=
| LIdle                 (* holds nothing *)
| LWaitS (k : Z)        (* store: holds clearMu (read), next: acquire stripe k's mutex *)
| LHold (k : Z)         (* store: holds clearMu (read) + the stripe of k; steps A, B, B' happen here *)
| LDone (k : Z)         (* store: A and B (/B') done, still holds both; next: release the stripe *)
| LRelR                 (* store: stripe released; next: release clearMu (read) *)
| LHoldW                (* Clear: holds clearMu (write); the two Clear steps happen here *)
| LDoneW.               (* Clear: both steps done; next: release clearMu (write) *)

Record lstate := mkL {
  base : state;                        (* the IndexLts state: this is the projection *)
  clearW : option tid;                 (* clearMu: the writer *)
  clearR : list tid;                   (* clearMu: the readers *)
  stripeOwner : nat -> option tid;     (* storeMu[n]: the owner *)
  lph : nat -> lphase                  (* per-thread lock phase (ghost program counter of the lock protocol) *)
}.

Inductive llabel :=
| LLock (i : tid)      (* thread i performs its next lock operation (acquire or release); None when blocked *)
| LBase (l : label).   (* a step of IndexLts: thread step A/B/B'/Delete/..., eviction, delivery *)

Definition updf {A} (f : nat -> A) (i : nat) (x : A) : nat -> A := fun j => if Nat.eqb j i then x else f j.
Definition drop (i : tid) (l : list tid) : list tid := filter (fun j => negb (Nat.eqb j i)) l.

Definition needs_lock (t : thread) : bool :=
  match t_pc t, t_script t with
  | PIdle, OStore _ _ :: _ => true
  | PIdle, OClear :: _ => true
  | _, _ => false
  end.

Section Locked.
Variable stripe : Z -> nat.

(* lock operations of thread i (whose IndexLts-local state is t).  The two releases of a store come in the order of
   Go's deferred calls: the stripe first, then clearMu.RUnlock.  RLock is blocked only while a writer HOLDS clearMu;
   that sync.RWMutex also keeps new readers out while a writer is waiting is not modelled.  That removes behaviours,
   so H is unaffected; the progress theorems below do not speak of that blocked state, which cannot last because a
   store takes RLock once and never while it holds it. *)
Definition lock_step (s : lstate) (i : tid) (t : thread) : option lstate :=
  match lph s i with
  | LIdle =>
      match t_pc t, t_script t with
      | PIdle, OStore k _ :: _ =>                                   (* clearMu.RLock: blocked while a writer holds it *)
          match clearW s with
          | None => Some (mkL (base s) None (i :: clearR s) (stripeOwner s) (updf (lph s) i (LWaitS k)))
          | Some _ => None
          end
      | PIdle, OClear :: _ =>                                       (* clearMu.Lock: blocked while any reader or writer *)
          match clearW s, clearR s with
          | None, [] => Some (mkL (base s) (Some i) [] (stripeOwner s) (updf (lph s) i LHoldW))
          | _, _ => None
          end
      | _, _ => None
      end
  | LWaitS k =>                                                     (* storeMu[stripe k].Lock: blocked while owned *)
      match stripeOwner s (stripe k) with
      | None => Some (mkL (base s) (clearW s) (clearR s) (updf (stripeOwner s) (stripe k) (Some i))
                          (updf (lph s) i (LHold k)))
      | Some _ => None
      end
  | LDone k =>                                                      (* storeMu[stripe k].Unlock *)
      Some (mkL (base s) (clearW s) (clearR s) (updf (stripeOwner s) (stripe k) None) (updf (lph s) i LRelR))
  | LRelR =>                                                        (* clearMu.RUnlock *)
      Some (mkL (base s) (clearW s) (drop i (clearR s)) (stripeOwner s) (updf (lph s) i LIdle))
  | LDoneW =>                                                       (* clearMu.Unlock *)
      Some (mkL (base s) None (clearR s) (stripeOwner s) (updf (lph s) i LIdle))
  | LHold _ | LHoldW => None                                        (* next step is an IndexLts step *)
  end.

(* IndexLts steps of thread i: allowed only in the phases where the Go code performs them *)
Definition thread_step (s : lstate) (i : tid) (t : thread) (o : outcome) : option lstate :=
  let go (f : pc -> lphase) :=
    match tstep (base s) t o with
    | None => None
    | Some (b1, t1) =>
        Some (mkL (set_threads b1 (upd i t1 (threads (base s)))) (clearW s) (clearR s) (stripeOwner s)
                  (updf (lph s) i (f (t_pc t1))))
    end in
  match lph s i with
  | LIdle => if needs_lock t then None else go (fun _ => LIdle)            (* Delete, Invalidate, Close: no locks *)
  | LHold k => go (fun p => if idle_pc p then LDone k else LHold k)        (* steps A, B, B' *)
  | LHoldW => go (fun p => if idle_pc p then LDoneW else LHoldW)           (* Clear steps 1, 2 *)
  | _ => None
  end.

Definition lstep (s : lstate) (l : llabel) : option lstate :=
  match l with
  | LLock i =>
      match nth_error (threads (base s)) i with
      | None => None
      | Some t => lock_step s i t
      end
  | LBase (LT i o) =>
      match nth_error (threads (base s)) i with
      | None => None
      | Some t => thread_step s i t o
      end
  | LBase l' =>                                                            (* eviction, delivery: environment *)
      match step (base s) l' with
      | None => None
      | Some b => Some (mkL b (clearW s) (clearR s) (stripeOwner s) (lph s))
      end
  end.

Definition linit (scripts : list (list op)) : lstate :=
  mkL (init scripts) None [] (fun _ => None) (fun _ => LIdle).

Inductive lreachable (s0 : lstate) : lstate -> Prop :=
| LR_init : lreachable s0 s0
| LR_step s l s' : lreachable s0 s -> lstep s l = Some s' -> lreachable s0 s'.

Fixpoint lexec (s : lstate) (ls : list llabel) : option lstate :=
  match ls with
  | [] => Some s
  | l :: r => match lstep s l with Some s' => lexec s' r | None => None end
  end.

Definition erase (ls : list llabel) : list label :=
  flat_map (fun l => match l with LBase b => [b] | LLock _ => [] end) ls.

Lemma lexec_lreachable s0 ls : forall s s', lreachable s0 s -> lexec s ls = Some s' -> lreachable s0 s'.
Proof.
  induction ls as [|l r IH]; intros s s' Hr He; cbn in He.
  - inversion He; subst; exact Hr.
  - destruct (lstep s l) as [s1|] eqn:Es; [|discriminate].
    apply (IH s1); [|exact He]. eapply LR_step; [exact Hr|exact Es].
Qed.

Lemma lexec_app a : forall s b,
  lexec s (a ++ b) = match lexec s a with Some s1 => lexec s1 b | None => None end.
Proof.
  induction a as [|l a IH]; intros s b; cbn; [reflexivity|].
  destruct (lstep s l); [apply IH|reflexivity].
Qed.

Lemma lock_step_base s i t s' : lock_step s i t = Some s' -> base s' = base s.
Proof.
  unfold lock_step. intros E.
  destruct (lph s i); try discriminate.
  - destruct (t_pc t); try discriminate. destruct (t_script t) as [|[k id|k|ks| |] r]; try discriminate.
    + destruct (clearW s); inversion E; reflexivity.
    + destruct (clearW s); [discriminate|]. destruct (clearR s); inversion E; reflexivity.
  - destruct (stripeOwner s (stripe k)); inversion E; reflexivity.
  - inversion E; reflexivity.
  - inversion E; reflexivity.
  - inversion E; reflexivity.
Qed.

Lemma thread_step_base s i t o s' :
  nth_error (threads (base s)) i = Some t -> thread_step s i t o = Some s' ->
  step (base s) (LT i o) = Some (base s').
Proof.
  intros Hn E. cbn [step]. rewrite Hn. unfold thread_step in E.
  destruct (tstep (base s) t o) as [[b1 t1]|].
  - destruct (lph s i); try discriminate; [destruct (needs_lock t); [discriminate|]| |]; inversion E; reflexivity.
  - destruct (lph s i); try discriminate. destruct (needs_lock t); discriminate.
Qed.

Lemma lstep_lock_base s i s' : lstep s (LLock i) = Some s' -> base s' = base s.
Proof.
  cbn. destruct (nth_error (threads (base s)) i) as [t|]; [|discriminate]. apply lock_step_base.
Qed.

Lemma lstep_base_step s l s' : lstep s (LBase l) = Some s' -> step (base s) l = Some (base s').
Proof.
  destruct l as [i o|k|]; cbn [lstep].
  - destruct (nth_error (threads (base s)) i) as [t|] eqn:Hn; [|discriminate]. apply thread_step_base; exact Hn.
  - destruct (step (base s) (LEvict k)) as [b|]; [|discriminate]. intros E; inversion E; reflexivity.
  - destruct (step (base s) LDeliver) as [b|]; [|discriminate]. intros E; inversion E; reflexivity.
Qed.

Theorem locked_refines ls : forall s s',
  lexec s ls = Some s' -> exec (base s) (erase ls) = Some (base s').
Proof.
  induction ls as [|l r IH]; intros s s' He; cbn in He.
  - inversion He; reflexivity.
  - destruct (lstep s l) as [s1|] eqn:Es; [|discriminate]. destruct l as [i|b].
    + cbn [erase flat_map app]. rewrite <- (lstep_lock_base _ _ _ Es). apply IH; exact He.
    + cbn [erase flat_map app]. change (exec (base s) (b :: erase r) = Some (base s')).
      cbn [exec]. rewrite (lstep_base_step _ _ _ Es). apply IH; exact He.
Qed.

Definition reader (p : lphase) : bool :=
  match p with LWaitS _ | LHold _ | LDone _ | LRelR => true | _ => false end.
Definition writer (p : lphase) : bool :=
  match p with LHoldW | LDoneW => true | _ => false end.
Definition held (p : lphase) : option nat :=
  match p with LHold k | LDone k => Some (stripe k) | _ => None end.

Lemma writer_iff p : writer p = true <-> p = LHoldW \/ p = LDoneW.
Proof. destruct p; cbn; intuition discriminate. Qed.

Lemma reader_iff p :
  reader p = true <-> (exists k, p = LWaitS k \/ p = LHold k \/ p = LDone k) \/ p = LRelR.
Proof.
  split.
  - destruct p; cbn; intros E; try discriminate E; eauto 6.
  - intros [(k & [->|[->| ->]])| ->]; reflexivity.
Qed.

Lemma held_iff p n : held p = Some n <-> exists k, stripe k = n /\ (p = LHold k \/ p = LDone k).
Proof.
  split.
  - destruct p; cbn; intros [= <-]; eauto.
  - intros (k & <- & [->| ->]); reflexivity.
Qed.

Lemma phase_idle p : reader p = false -> writer p = false -> p = LIdle.
Proof. destruct p; cbn; congruence. Qed.

Lemma held_reader p n : held p = Some n -> reader p = true.
Proof. destruct p; cbn; congruence. Qed.

(* the lock phase of a thread agrees with its IndexLts-local state *)
Definition ph_ok (p : lphase) (ot : option thread) : Prop :=
  match p with
  | LIdle => forall t, ot = Some t -> store_key (t_pc t) = None /\ is_clear2 (t_pc t) = false
  | LWaitS k => exists t, ot = Some t /\ t_pc t = PIdle /\ exists id r, t_script t = OStore k id :: r
  | LHold k => exists t, ot = Some t /\
      ((t_pc t = PIdle /\ exists id r, t_script t = OStore k id :: r) \/
       (exists id, t_pc t = PStoreB k id) \/ (exists id, t_pc t = PStoreB' k id))
  | LDone _ | LRelR | LDoneW => exists t, ot = Some t /\ t_pc t = PIdle
  | LHoldW => exists t, ot = Some t /\
      ((t_pc t = PIdle /\ exists r, t_script t = OClear :: r) \/ t_pc t = PClear2)
  end.

Record LInv (s : lstate) : Prop := {
  L_ph : forall i, ph_ok (lph s i) (nth_error (threads (base s)) i);
  L_R : forall i, In i (clearR s) <-> reader (lph s i) = true;          (* the readers are exactly the store threads past RLock *)
  L_W : forall i, clearW s = Some i <-> writer (lph s i) = true;        (* the writer is exactly the Clear thread past Lock *)
  L_S : forall n i, stripeOwner s n = Some i <-> held (lph s i) = Some n; (* stripe owners are exactly the threads in LHold/LDone *)
  L_RW : clearW s <> None -> clearR s = []                              (* RWMutex: a writer excludes readers *)
}.

Lemma updf_same {A} (f : nat -> A) i x : updf f i x i = x.
Proof. unfold updf. rewrite Nat.eqb_refl. reflexivity. Qed.
Lemma updf_other {A} (f : nat -> A) i j x : j <> i -> updf f i x j = f j.
Proof. unfold updf. intros Hne. destruct (Nat.eqb_spec j i); [contradiction|reflexivity]. Qed.

Lemma in_drop i j l : In j (drop i l) <-> In j l /\ j <> i.
Proof.
  unfold drop. rewrite filter_In. destruct (Nat.eqb_spec j i); cbn; intuition congruence.
Qed.

Lemma linv_init scripts : LInv (linit scripts).
Proof.
  constructor; cbn.
  - intros i t Hn. apply nth_error_In in Hn. apply in_map_iff in Hn. destruct Hn as (sc & <- & _). cbn. auto.
  - intros i. split; [intros []|discriminate].
  - intros i. split; discriminate.
  - intros n i. split; discriminate.
  - reflexivity.
Qed.

Lemma ph_ok_store p t k : ph_ok p (Some t) -> store_key (t_pc t) = Some k -> p = LHold k.
Proof.
  destruct p; cbn; intros P Ek; [destruct (P t eq_refl); congruence|destruct P as (t0 & [= <-] & P)..].
  - destruct P as [P _]. rewrite P in Ek. discriminate.
  - destruct P as [[P _]|[[id P]|[id P]]]; rewrite P in Ek; [discriminate|injection Ek as ->; reflexivity..].
  - rewrite P in Ek. discriminate.
  - rewrite P in Ek. discriminate.
  - destruct P as [[P _]|P]; rewrite P in Ek; discriminate.
  - rewrite P in Ek. discriminate.
Qed.

Lemma ph_ok_clear2 p t : ph_ok p (Some t) -> is_clear2 (t_pc t) = true -> writer p = true.
Proof.
  destruct p; cbn; intros P Ec; try reflexivity; [destruct (P t eq_refl); congruence|destruct P as (t0 & [= <-] & P)..].
  - destruct P as [P _]. rewrite P in Ec. discriminate.
  - destruct P as [[P _]|[[id P]|[id P]]]; rewrite P in Ec; discriminate.
  - rewrite P in Ec. discriminate.
  - rewrite P in Ec. discriminate.
Qed.

(* the invariant gives H: two stores of one key would own one stripe; a store and a Clear between its steps
   would be reader and writer of clearMu at once *)
Lemma linv_H s : LInv s -> IndexLts.H (base s).
Proof.
  intros [Jp JR JW JS JRW] i j ti tj Hne Hi Hj. unfold conflict.
  pose proof (Jp i) as Pi. rewrite Hi in Pi. pose proof (Jp j) as Pj. rewrite Hj in Pj.
  destruct (store_key (t_pc ti)) as [k|] eqn:Ek; [|reflexivity].
  apply (ph_ok_store _ _ _ Pi) in Ek.
  destruct (store_key (t_pc tj)) as [k'|] eqn:Ek'.
  - apply (ph_ok_store _ _ _ Pj) in Ek'.
    destruct (Z.eqb_spec k k') as [<-|]; [|reflexivity]. exfalso.
    assert (Oi : stripeOwner s (stripe k) = Some i) by (apply JS; rewrite Ek; reflexivity).
    assert (Oj : stripeOwner s (stripe k) = Some j) by (apply JS; rewrite Ek'; reflexivity).
    congruence.
  - destruct (is_clear2 (t_pc tj)) eqn:Ec; [|reflexivity]. exfalso.
    apply (ph_ok_clear2 _ _ Pj), JW in Ec.
    assert (Ri : In i (clearR s)) by (apply JR; rewrite Ek; reflexivity).
    rewrite JRW in Ri by congruence. exact Ri.
Qed.

Lemma linv_same_locks s b' ph' :
  LInv s ->
  (forall j, reader (ph' j) = reader (lph s j)) ->
  (forall j, writer (ph' j) = writer (lph s j)) ->
  (forall j, held (ph' j) = held (lph s j)) ->
  (forall j, ph_ok (ph' j) (nth_error (threads b') j)) ->
  LInv (mkL b' (clearW s) (clearR s) (stripeOwner s) ph').
Proof.
  intros [Jp JR JW JS JRW] Hr Hw Hh Hp. constructor; cbn.
  - exact Hp.
  - intros i. rewrite Hr. apply JR.
  - intros i. rewrite Hw. apply JW.
  - intros n i. rewrite Hh. apply JS.
  - exact JRW.
Qed.

Lemma updf_obs {A B} (f : A -> B) ph i x : f x = f (ph i) -> forall j, f (updf ph i x j) = f (ph j).
Proof. intros E j. unfold updf. destruct (Nat.eqb_spec j i) as [->|_]; [exact E|reflexivity]. Qed.

Lemma ph_ok_updf ph ths i x :
  (forall j, ph_ok (ph j) (nth_error ths j)) -> ph_ok x (nth_error ths i) ->
  forall j, ph_ok (updf ph i x j) (nth_error ths j).
Proof. intros Hp Hx j. unfold updf. destruct (Nat.eqb_spec j i) as [->|_]; [exact Hx|apply Hp]. Qed.

(* Each lock operation changes one lock field and the phase of its thread.  One lemma per field: the clauses of the
   two other fields do not see the new phase, so only the clause of the changed field is left to the caller. *)
Lemma linv_set_readers s i x R' :
  LInv s -> ph_ok x (nth_error (threads (base s)) i) ->
  writer x = writer (lph s i) -> held x = held (lph s i) ->
  (forall j, In j R' <-> reader (updf (lph s) i x j) = true) -> (clearW s <> None -> R' = []) ->
  LInv (mkL (base s) (clearW s) R' (stripeOwner s) (updf (lph s) i x)).
Proof.
  intros [Jp JR JW JS JRW] Hp Hw Hh HR HRW. constructor; cbn; [apply ph_ok_updf; assumption|exact HR| | |exact HRW].
  - intros j. rewrite (updf_obs writer) by exact Hw. apply JW.
  - intros n j. rewrite (updf_obs held) by exact Hh. apply JS.
Qed.

Lemma linv_set_writer s i x W' :
  LInv s -> ph_ok x (nth_error (threads (base s)) i) ->
  reader x = reader (lph s i) -> held x = held (lph s i) ->
  (forall j, W' = Some j <-> writer (updf (lph s) i x j) = true) -> (W' <> None -> clearR s = []) ->
  LInv (mkL (base s) W' (clearR s) (stripeOwner s) (updf (lph s) i x)).
Proof.
  intros [Jp JR JW JS JRW] Hp Hr Hh HW HRW. constructor; cbn; [apply ph_ok_updf; assumption| |exact HW| |exact HRW].
  - intros j. rewrite (updf_obs reader) by exact Hr. apply JR.
  - intros n j. rewrite (updf_obs held) by exact Hh. apply JS.
Qed.

Lemma linv_set_stripes s i x S' :
  LInv s -> ph_ok x (nth_error (threads (base s)) i) ->
  reader x = reader (lph s i) -> writer x = writer (lph s i) ->
  (forall n j, S' n = Some j <-> held (updf (lph s) i x j) = Some n) ->
  LInv (mkL (base s) (clearW s) (clearR s) S' (updf (lph s) i x)).
Proof.
  intros [Jp JR JW JS JRW] Hp Hr Hw HS. constructor; cbn; [apply ph_ok_updf; assumption| | |exact HS|exact JRW].
  - intros j. rewrite (updf_obs reader) by exact Hr. apply JR.
  - intros j. rewrite (updf_obs writer) by exact Hw. apply JW.
Qed.

Lemma linv_lock s i t s' :
  LInv s -> nth_error (threads (base s)) i = Some t -> lock_step s i t = Some s' -> LInv s'.
Proof.
  intros J Hn E. pose proof J as [Jp JR JW JS JRW]. unfold lock_step in E.
  pose proof (Jp i) as Pi. rewrite Hn in Pi.
  destruct (lph s i) as [|k|k|k| | |] eqn:Ep; try discriminate.
  - destruct (t_pc t) eqn:Epc; try discriminate.
    destruct (t_script t) as [|[k id|k|ks| |] r] eqn:Esc; try discriminate.
    +
      destruct (clearW s) eqn:Ew; [discriminate|]. injection E as <-. rewrite <- Ew.
      apply linv_set_readers; try (rewrite Ep; reflexivity); [exact J|rewrite Hn; exists t; eauto| |congruence].
      intros j. unfold updf. destruct (Nat.eqb_spec j i) as [->|Hne]; cbn; [tauto|].
      rewrite <- JR. intuition congruence.
    +
      destruct (clearW s) eqn:Ew; [discriminate|]. destruct (clearR s) eqn:ER; [|discriminate].
      injection E as <-. rewrite <- ER.
      apply linv_set_writer; try (rewrite Ep; reflexivity); [exact J|rewrite Hn; exists t; eauto| |intros _; exact ER].
      intros j. unfold updf. destruct (Nat.eqb_spec j i) as [->|Hne]; cbn; [tauto|].
      rewrite <- JW. intuition congruence.
  -
    destruct (stripeOwner s (stripe k)) eqn:Eo; [discriminate|]. injection E as <-.
    apply linv_set_stripes; try (rewrite Ep; reflexivity); [exact J| |].
    { rewrite Hn. destruct Pi as (t0 & [= <-] & P). exists t. auto. }
    intros n j. unfold updf at 2. destruct (Nat.eqb_spec j i) as [->|Hne]; cbn.
    + unfold updf. destruct (Nat.eqb_spec n (stripe k)) as [->|Hnn]; [tauto|].
      rewrite JS, Ep. cbn. intuition congruence.
    + rewrite <- JS. unfold updf. destruct (Nat.eqb_spec n (stripe k)) as [->|Hnn]; [|tauto].
      rewrite Eo. intuition congruence.
  -
    injection E as <-.
    assert (Oi : stripeOwner s (stripe k) = Some i) by (apply JS; rewrite Ep; reflexivity).
    apply linv_set_stripes; try (rewrite Ep; reflexivity); [exact J|rewrite Hn; exact Pi|].
    intros n j. unfold updf at 2. destruct (Nat.eqb_spec j i) as [->|Hne]; cbn.
    + unfold updf. destruct (Nat.eqb_spec n (stripe k)) as [->|Hnn]; [intuition discriminate|].
      rewrite JS, Ep. cbn. intuition congruence.
    + rewrite <- JS. unfold updf. destruct (Nat.eqb_spec n (stripe k)) as [->|Hnn]; [|tauto].
      rewrite Oi. intuition congruence.
  -
    injection E as <-.
    apply linv_set_readers; try (rewrite Ep; reflexivity); [exact J| | |intros Hc; rewrite (JRW Hc); reflexivity].
    { rewrite Hn. destruct Pi as (t0 & [= <-] & P). intros t1 [= <-]. rewrite P. auto. }
    intros j. rewrite in_drop. unfold updf. destruct (Nat.eqb_spec j i) as [->|Hne]; cbn; [intuition discriminate|].
    rewrite <- JR. tauto.
  -
    injection E as <-.
    assert (Wi : clearW s = Some i) by (apply JW; rewrite Ep; reflexivity).
    apply linv_set_writer; try (rewrite Ep; reflexivity); [exact J| | |intros Hc; destruct (Hc eq_refl)].
    { rewrite Hn. destruct Pi as (t0 & [= <-] & P). intros t1 [= <-]. rewrite P. auto. }
    intros j. unfold updf. destruct (Nat.eqb_spec j i) as [->|Hne]; cbn; [intuition discriminate|].
    rewrite <- JW, Wi. intuition congruence.
Qed.

(* an IndexLts step of thread i: b1 is the new shared state, t1 the thread's new local state, x its new phase *)
Lemma linv_thread_upd s b1 i t t1 x :
  LInv s -> nth_error (threads (base s)) i = Some t ->
  reader x = reader (lph s i) -> writer x = writer (lph s i) -> held x = held (lph s i) -> ph_ok x (Some t1) ->
  LInv (mkL (set_threads b1 (upd i t1 (threads (base s)))) (clearW s) (clearR s) (stripeOwner s) (updf (lph s) i x)).
Proof.
  intros J Hn Hr Hw Hh Hx. apply linv_same_locks; [exact J|apply updf_obs; assumption..|].
  intros j. unfold updf. cbn [threads set_threads]. destruct (Nat.eqb_spec j i) as [->|Hne].
  - rewrite (nth_error_upd_same _ _ _ _ Hn). exact Hx.
  - rewrite nth_error_upd_other by exact Hne. apply (L_ph s J).
Qed.

Lemma linv_thread s i t o s' :
  LInv s -> nth_error (threads (base s)) i = Some t -> thread_step s i t o = Some s' -> LInv s'.
Proof.
  intros J Hn E. pose proof (L_ph s J i) as Pi. rewrite Hn in Pi.
  unfold thread_step in E.
  destruct (tstep (base s) t o) as [[b1 t1]|] eqn:Et;
    [|destruct (lph s i); try discriminate; destruct (needs_lock t); discriminate].
  unfold tstep in Et.
  destruct (lph s i) as [|k|k|k| | |] eqn:Ep; try discriminate.
  -
    destruct (needs_lock t) eqn:En; [discriminate|]. injection E as <-.
    apply (linv_thread_upd s b1 i t t1 LIdle J Hn); try (rewrite Ep; reflexivity).
    intros t2 [= <-]. destruct (Pi t eq_refl) as [P1 P2]. unfold needs_lock in En.
    destruct (t_pc t) as [| k id | k id | [|v r] | ]; try discriminate.
    + destruct (t_script t) as [|[k id|v|ks| |] r]; try discriminate; injection Et as <- <-; cbn; auto.
    + injection Et as <- <-; cbn; auto.
    + injection Et as <- <-; cbn; auto.
  -
    injection E as <-.
    apply (linv_thread_upd s b1 i t t1 _ J Hn); try (rewrite Ep; destruct (idle_pc (t_pc t1)); reflexivity).
    destruct Pi as (t0 & [= <-] & P).
    destruct P as [[P1 (id & r & P2)]|[[id P1]|[id P1]]]; rewrite P1 in Et.
    + rewrite P2 in Et. injection Et as <- <-; cbn. eexists. split; [reflexivity|]. right; left. exists id; reflexivity.
    + destruct (closed (base s)).
      * injection Et as <- <-; cbn. eexists. split; [reflexivity|]. right; right. exists id; reflexivity.
      * destruct o as [vs|]; injection Et as <- <-; cbn; eexists; split; reflexivity.
    + injection Et as <- <-; cbn. eexists; split; reflexivity.
  -
    injection E as <-.
    apply (linv_thread_upd s b1 i t t1 _ J Hn); try (rewrite Ep; destruct (idle_pc (t_pc t1)); reflexivity).
    destruct Pi as (t0 & [= <-] & P).
    destruct P as [[P1 (r & P2)]|P1]; rewrite P1 in Et.
    + rewrite P2 in Et. injection Et as <- <-; cbn. eexists. split; [reflexivity|]. right; reflexivity.
    + injection Et as <- <-; cbn. eexists; split; reflexivity.
Qed.

Lemma env_step_threads b l b' :
  (forall i o, l <> LT i o) -> step b l = Some b' -> threads b' = threads b.
Proof.
  intros Hl Hs. destruct l as [i o|k|]; [exfalso; eapply Hl; reflexivity| |]; cbn in Hs.
  - destruct (resident k b); inversion Hs; subst. apply do_remove_threads.
  - unfold do_deliver in Hs. destruct (notes b) as [|[k id] r]; inversion Hs; subst; reflexivity.
Qed.

Lemma linv_env s l b' :
  LInv s -> (forall i o, l <> LT i o) -> step (base s) l = Some b' ->
  LInv (mkL b' (clearW s) (clearR s) (stripeOwner s) (lph s)).
Proof.
  intros J Hl Hs. apply linv_same_locks; try reflexivity; [exact J|].
  intros j. rewrite (env_step_threads _ _ _ Hl Hs). apply (L_ph s J).
Qed.

Lemma linv_step s l s' : LInv s -> lstep s l = Some s' -> LInv s'.
Proof.
  intros J Hs. destruct l as [i|[i o|k|]]; cbn [lstep] in Hs.
  - destruct (nth_error (threads (base s)) i) as [t|] eqn:Hn; [|discriminate]. eapply linv_lock; eassumption.
  - destruct (nth_error (threads (base s)) i) as [t|] eqn:Hn; [|discriminate]. eapply linv_thread; eassumption.
  - destruct (step (base s) (LEvict k)) as [b|] eqn:Eb; [|discriminate]. inversion Hs; subst s'.
    apply (linv_env s (LEvict k)); [exact J|discriminate|exact Eb].
  - destruct (step (base s) LDeliver) as [b|] eqn:Eb; [|discriminate]. inversion Hs; subst s'.
    apply (linv_env s LDeliver); [exact J|discriminate|exact Eb].
Qed.

Theorem linv_reachable scripts s : lreachable (linit scripts) s -> LInv s.
Proof.
  intros Hr. induction Hr as [|s l s' Hr IH Hs]; [apply linv_init|eapply linv_step; eassumption].
Qed.

Theorem locked_enforces_H scripts s : lreachable (linit scripts) s -> IndexLts.H (base s).
Proof. intros Hr. apply linv_H. apply (linv_reachable scripts); exact Hr. Qed.

Theorem lreachable_reachableH scripts s : lreachable (linit scripts) s -> reachableH (init scripts) (base s).
Proof.
  intros Hr. induction Hr as [|s l s' Hr IH Hs]; [constructor|].
  destruct l as [i|b].
  - rewrite (lstep_lock_base _ _ _ Hs). exact IH.
  - eapply RH_step; [exact IH|apply lstep_base_step; exact Hs|].
    apply (locked_enforces_H scripts). eapply LR_step; [exact Hr|exact Hs].
Qed.

Corollary locked_refines_reachable scripts s :
  lreachable (linit scripts) s -> reachable (init scripts) (base s).
Proof. intros Hr. apply reachableH_reachable, lreachable_reachableH, Hr. Qed.

Lemma Hb_complete b : IndexLts.H b -> Hb b = true.
Proof.
  intros HH. unfold Hb. apply forallb_forall. intros i Hi. apply forallb_forall. intros j Hj.
  destruct (Nat.eqb_spec i j) as [->|Hne]; [reflexivity|]. cbn.
  apply in_seq in Hi. apply in_seq in Hj. unfold pc_at.
  destruct (nth_error (threads b) i) as [ti|] eqn:Ei; [|apply nth_error_None in Ei; lia].
  destruct (nth_error (threads b) j) as [tj|] eqn:Ej; [|apply nth_error_None in Ej; lia].
  rewrite (HH i j ti tj Hne Ei Ej). reflexivity.
Qed.

Theorem locked_refines_execH ls : forall s s',
  LInv s -> lexec s ls = Some s' -> execH (base s) (erase ls) = Some (base s').
Proof.
  induction ls as [|l r IH]; intros s s' J He; cbn in He.
  - inversion He; reflexivity.
  - destruct (lstep s l) as [s1|] eqn:Es; [|discriminate].
    pose proof (linv_step _ _ _ J Es) as J1. destruct l as [i|b].
    + cbn [erase flat_map app]. rewrite <- (lstep_lock_base _ _ _ Es). apply IH; assumption.
    + change (execH (base s) (b :: erase r) = Some (base s')).
      cbn [execH]. rewrite (lstep_base_step _ _ _ Es). rewrite (Hb_complete _ (linv_H _ J1)). apply IH; assumption.
Qed.

Definition lquiescent (s : lstate) : Prop :=
  quiescent (base s) /\ forall i, (i < length (threads (base s)))%nat -> lph s i = LIdle.

Theorem invariant_locked scripts s :
  wf_scripts scripts -> lreachable (linit scripts) s -> closed (base s) = false ->
  forall k,
    (forall id, get k (cache (base s)) = Some id -> get k (idx (base s)) = Some id \/ inflight_key k (base s)) /\
    (forall id, get k (idx (base s)) = Some id ->
       get k (cache (base s)) = Some id \/ In (k, id) (notes (base s)) \/ inflight k id (base s) \/ clearing (base s)).
Proof.
  intros Hwf Hr Hcl. apply (invariant scripts); [exact Hwf| |exact Hcl]. apply lreachable_reachableH; exact Hr.
Qed.

(* only the IndexLts part of quiescence is needed (lquiescent implies it) *)
Theorem quiescent_agreement_locked scripts s :
  wf_scripts scripts -> lreachable (linit scripts) s -> closed (base s) = false -> quiescent (base s) ->
  forall k, get k (idx (base s)) = get k (cache (base s)).
Proof.
  intros Hwf Hr Hcl Hq. apply (quiescent_agreement scripts); [exact Hwf| |exact Hcl|exact Hq].
  apply lreachable_reachableH; exact Hr.
Qed.

Corollary quiescent_agreement_lquiescent scripts s :
  wf_scripts scripts -> lreachable (linit scripts) s -> closed (base s) = false -> lquiescent s ->
  forall k, get k (idx (base s)) = get k (cache (base s)).
Proof. intros Hwf Hr Hcl [Hq _]. apply (quiescent_agreement_locked scripts); assumption. Qed.

Corollary quiescent_same_keys_locked scripts s :
  wf_scripts scripts -> lreachable (linit scripts) s -> closed (base s) = false -> quiescent (base s) ->
  forall k, resident k (base s) = match get k (idx (base s)) with Some _ => true | None => false end.
Proof.
  intros Hwf Hr Hcl Hq. apply (quiescent_same_keys scripts); [exact Hwf| |exact Hcl|exact Hq].
  apply lreachable_reachableH; exact Hr.
Qed.

Lemma in_erase b ls : In b (erase ls) <-> In (LBase b) ls.
Proof.
  unfold erase. rewrite in_flat_map. split.
  - intros ([i|b'] & Hin & Hb); cbn in Hb; [destruct Hb|]. destruct Hb as [->|[]]. exact Hin.
  - intros Hin. exists (LBase b). split; [exact Hin|left; reflexivity].
Qed.

(* draining the queue is a locked run too *)
Lemma deliver_n_lexec n : forall s,
  exists s', lexec s (repeat (LBase LDeliver) (Nat.min n (length (notes (base s))))) = Some s' /\
             base s' = deliver_n n (base s) /\
             clearW s' = clearW s /\ clearR s' = clearR s /\ stripeOwner s' = stripeOwner s /\ lph s' = lph s.
Proof.
  induction n as [|n IH]; intros s; cbn [deliver_n Nat.min repeat].
  - exists s. cbn. repeat split; reflexivity.
  - destruct (do_deliver (base s)) as [b|] eqn:Ed.
    + unfold do_deliver in Ed. destruct (notes (base s)) as [|[k id] r] eqn:En; [discriminate|].
      inversion Ed; subst b; clear Ed. cbn [length Nat.min repeat lexec lstep step].
      unfold do_deliver. rewrite En.
      set (s1 := mkL _ _ _ _ _). destruct (IH s1) as (s' & He & Hb & H1 & H2 & H3 & H4).
      exists s'. subst s1; cbn in *. repeat split; assumption.
    + unfold do_deliver in Ed. destruct (notes (base s)) as [|[k id] r] eqn:En; [|discriminate].
      cbn. exists s. repeat split; reflexivity.
Qed.

(* an Invalidate running alone (only evictions, deliveries and lock operations of ANY thread interleave) is
   complete, in the locked system, with no assumption on the schedule before it *)
Theorem invalidate_complete_locked scripts s0 i ks rest ls s1 :
  wf_scripts scripts -> lreachable (linit scripts) s0 -> closed (base s0) = false -> quiescent (base s0) ->
  nth_error (threads (base s0)) i = Some (mkT PIdle (OInvalidate ks :: rest)) ->
  (forall l, In l ls -> (exists j, l = LLock j) \/ l = LBase LDeliver \/ (exists k, l = LBase (LEvict k)) \/
                        (exists o, l = LBase (LT i o))) ->
  lexec s0 ls = Some s1 ->
  nth_error (threads (base s1)) i = Some (mkT PIdle rest) ->
  let sd := deliver_all (base s1) in
  (forall k, memZ k ks = true -> get k (cache (base s1)) = None) /\
  (forall k id, memZ k ks = false -> get k (cache (base s0)) = Some id -> ~ In (LBase (LEvict k)) ls ->
                get k (cache (base s1)) = Some id) /\
  (forall k id, get k (cache (base s1)) = Some id -> get k (cache (base s0)) = Some id) /\
  cache sd = cache (base s1) /\ quiescent sd /\
  (exists s', lreachable (linit scripts) s' /\ base s' = sd /\ clearW s' = clearW s1 /\ clearR s' = clearR s1 /\
              stripeOwner s' = stripeOwner s1 /\ lph s' = lph s1) /\
  (forall k, get k (idx sd) = get k (cache sd)) /\
  (notes (base s1) = [] -> forall k, get k (idx (base s1)) = get k (cache (base s1))).
Proof.
  intros Hwf Hr Hcl Hq Hn Hal He Hfin sd.
  pose proof (lreachable_reachableH _ _ Hr) as HrH.
  pose proof (locked_refines _ _ _ He) as Hex.
  assert (Hal' : forall l, In l (erase ls) -> l = LDeliver \/ (exists k, l = LEvict k) \/ (exists o, l = LT i o)).
  { intros l Hl. apply in_erase in Hl.
    destruct (Hal _ Hl) as [(j & [=])|[[= ->]|[(k & [= ->])|(o & [= ->])]]]; eauto. }
  destruct (invalidate_complete scripts (base s0) i ks rest (erase ls) (base s1) Hwf HrH Hcl Hq Hn Hal' Hex Hfin)
    as (C1 & C2 & C3 & C4 & C5 & C6 & C7 & C8).
  fold sd in C4, C5, C6, C7.
  split; [exact C1|]. split.
  { intros k id Hk Hg Hne. apply (C2 k id Hk Hg). intros Hin. apply Hne. apply in_erase. exact Hin. }
  split; [exact C3|]. split; [exact C4|]. split; [exact C5|]. split.
  { destruct (deliver_n_lexec (length (notes (base s1))) s1) as (s' & He' & Hb & H1 & H2 & H3 & H4).
    exists s'. split; [|repeat split; assumption].
    eapply lexec_lreachable; [|exact He']. eapply lexec_lreachable; [exact Hr|exact He]. }
  split; [exact C7|exact C8].
Qed.

(* non-vacuity, for EVERY stripe function: no locked run — whatever lock steps are inserted, wherever — projects
   to the F5 schedule  A r1; A r2; B r2; evict; deliver; B r1   (nor to the store-over-Clear schedule) *)

Definition f5_scripts : list (list op) := [[OStore 7 1]; [OStore 7 2]].
Definition f5_schedule : list label :=
  [LT 0%nat acc; LT 1%nat acc; LT 1%nat acc; LEvict 7; LDeliver; LT 0%nat acc].

Lemma not_executable scripts sched ls :
  execH (init scripts) sched = None -> erase ls = sched -> lexec (linit scripts) ls = None.
Proof.
  intros Hx He. destruct (lexec (linit scripts) ls) as [s'|] eqn:E; [|reflexivity].
  apply (locked_refines_execH ls _ _ (linv_init scripts)) in E. cbn [base linit] in E. congruence.
Qed.

Theorem f5_not_executable ls :
  erase ls = f5_schedule -> lexec (linit f5_scripts) ls = None.
Proof. apply not_executable. vm_compute. reflexivity. Qed.

(* the F5 schedule is executable in IndexLts, so it is the locks that exclude it *)
Example f5_executable_unlocked :
  exec (init f5_scripts) f5_schedule = Some (mkS [] [(7, 1)] [] false [mkT PIdle []; mkT PIdle []]).
Proof. vm_compute. reflexivity. Qed.

Definition f5clear_scripts : list (list op) := [[OStore 7 1]; [OClear]].
Definition f5clear_schedule : list label := [LT 0%nat acc; LT 1%nat acc; LT 1%nat acc; LT 0%nat acc].

Theorem f5clear_not_executable ls :
  erase ls = f5clear_schedule -> lexec (linit f5clear_scripts) ls = None.
Proof. apply not_executable. vm_compute. reflexivity. Qed.

Definition lock_free (s : lstate) : Prop :=
  clearW s = None /\ clearR s = [] /\ forall n, stripeOwner s n = None.

Definition holds_lock (s : lstate) (i : tid) : Prop :=
  clearW s = Some i \/ In i (clearR s) \/ exists n, stripeOwner s n = Some i.

Lemma linv_phase_thread s i :
  LInv s -> lph s i <> LIdle -> exists t, nth_error (threads (base s)) i = Some t.
Proof.
  intros J Hp. pose proof (L_ph s J i) as P. destruct (lph s i); cbn in P; [contradiction| | | | | |];
    destruct P as (t & Et & _); exists t; exact Et.
Qed.

Lemma linv_idle s i : LInv s -> ~ In i (clearR s) -> clearW s <> Some i -> lph s i = LIdle.
Proof.
  intros J Hr Hw. apply phase_idle.
  - destruct (reader (lph s i)) eqn:E; [destruct (Hr (proj2 (L_R s J i) E))|reflexivity].
  - destruct (writer (lph s i)) eqn:E; [destruct (Hw (proj2 (L_W s J i) E))|reflexivity].
Qed.

Lemma linv_idle_lock_free s : LInv s -> (forall i, lph s i = LIdle) -> lock_free s.
Proof.
  intros J Hall. split; [|split].
  - destruct (clearW s) as [w|] eqn:Ew; [|reflexivity]. apply (L_W s J) in Ew. rewrite Hall in Ew. discriminate.
  - destruct (clearR s) as [|i r] eqn:Er; [reflexivity|].
    assert (Hin : In i (clearR s)) by (rewrite Er; left; reflexivity). apply (L_R s J) in Hin. rewrite Hall in Hin. discriminate.
  - intros n. destruct (stripeOwner s n) as [i|] eqn:Eo; [|reflexivity]. apply (L_S s J) in Eo. rewrite Hall in Eo. discriminate.
Qed.

Theorem lock_holders scripts s :
  lreachable (linit scripts) s ->
  (forall i, clearW s = Some i <-> lph s i = LHoldW \/ lph s i = LDoneW) /\
  (forall i, In i (clearR s) <-> (exists k, lph s i = LWaitS k \/ lph s i = LHold k \/ lph s i = LDone k) \/ lph s i = LRelR) /\
  (forall n i, stripeOwner s n = Some i <-> exists k, stripe k = n /\ (lph s i = LHold k \/ lph s i = LDone k)) /\
  (clearW s <> None -> clearR s = []) /\
  (forall i k, lph s i = LWaitS k -> In i (clearR s) /\ clearW s <> Some i /\ forall n, stripeOwner s n <> Some i).
Proof.
  intros Hr. destruct (linv_reachable _ _ Hr) as [Jp JR JW JS JRW]. split; [|split; [|split; [|split]]].
  - intros i. rewrite JW. apply writer_iff.
  - intros i. rewrite JR. apply reader_iff.
  - intros n i. rewrite JS. apply held_iff.
  - exact JRW.
  - intros i k Ep. split; [apply JR; rewrite Ep; reflexivity|]. split.
    + intros Hw. apply JW in Hw. rewrite Ep in Hw. discriminate.
    + intros n Ho. apply JS in Ho. rewrite Ep in Ho. discriminate.
Qed.

Theorem locks_released scripts s :
  lreachable (linit scripts) s -> lquiescent s -> lock_free s.
Proof.
  intros Hr [_ Hq]. pose proof (linv_reachable _ _ Hr) as J. apply linv_idle_lock_free; [exact J|].
  intros i. destruct (nth_error (threads (base s)) i) as [t|] eqn:Et.
  - apply Hq. apply nth_error_Some. rewrite Et. discriminate.
  - (* there is no thread i, and every phase but LIdle belongs to a thread *)
    assert (Hn : ~ lph s i <> LIdle).
    { intros Hne. destruct (linv_phase_thread s i J Hne) as (t & Ht). congruence. }
    destruct (lph s i); try reflexivity; destruct Hn; discriminate.
Qed.

(* thread i can take a step (its next lock operation, or its next IndexLts step whatever the outcome o) *)
Definition enabled (s : lstate) (i : tid) : Prop :=
  lstep s (LLock i) <> None \/ forall o, lstep s (LBase (LT i o)) <> None.

Definition unfinished (s : lstate) (i : tid) : Prop :=
  exists t, nth_error (threads (base s)) i = Some t /\ (t_pc t <> PIdle \/ t_script t <> []).

Lemma enabled_inside s i :
  LInv s -> (exists k, lph s i = LHold k \/ lph s i = LDone k) \/ lph s i = LRelR \/ lph s i = LHoldW \/ lph s i = LDoneW ->
  enabled s i.
Proof.
  intros J Hp. pose proof (L_ph s J i) as P. unfold enabled. cbn [lstep].
  destruct Hp as [(k & [Ep|Ep])|[Ep|[Ep|Ep]]]; rewrite Ep in P; destruct P as (t & Et & P); rewrite Et;
    unfold lock_step, thread_step, tstep; rewrite Ep.
  -
    right. intros o. destruct P as [[P1 (id & r & P2)]|[[id P1]|[id P1]]]; rewrite P1.
    + rewrite P2. discriminate.
    + destruct (closed (base s)); [discriminate|]. destruct o; discriminate.
    + discriminate.
  - left. discriminate.
  - left. discriminate.
  -
    right. intros o. destruct P as [[P1 (r & P2)]|P1]; rewrite P1; [rewrite P2|]; discriminate.
  - left. discriminate.
Qed.

Theorem deadlock_free_holder scripts s :
  lreachable (linit scripts) s ->
  (exists i, holds_lock s i) -> exists j, holds_lock s j /\ enabled s j.
Proof.
  intros Hr (i & Hh). pose proof (linv_reachable _ _ Hr) as J.
  assert (Hrd : writer (lph s i) = true \/ reader (lph s i) = true).
  { destruct Hh as [Hw|[Hin|(n & Ho)]]; [left; apply (L_W s J); exact Hw|right; apply (L_R s J); exact Hin|].
    right. apply (L_S s J) in Ho. exact (held_reader _ _ Ho). }
  destruct Hrd as [Hw|Hrd].
  - (* the Clear thread holds clearMu(W): it is never blocked *)
    exists i. split; [left; apply (L_W s J); exact Hw|]. apply enabled_inside; [exact J|].
    apply writer_iff in Hw. tauto.
  - assert (HR : holds_lock s i) by (right; left; apply (L_R s J); exact Hrd).
    apply reader_iff in Hrd. destruct Hrd as [(k & [Ep|Ep])|Ep].
    + (* waiting for a stripe: either it is free, or its owner can move *)
      destruct (stripeOwner s (stripe k)) as [j|] eqn:Eo.
      * exists j. split; [right; right; exists (stripe k); exact Eo|].
        apply (L_S s J), held_iff in Eo. destruct Eo as (k0 & _ & Hp).
        apply enabled_inside; [exact J|]. left. exists k0. exact Hp.
      * exists i. split; [exact HR|]. left. cbn [lstep].
        pose proof (L_ph s J i) as P. rewrite Ep in P. destruct P as (t & Et & _). rewrite Et.
        unfold lock_step. rewrite Ep, Eo. discriminate.
    + exists i. split; [exact HR|]. apply enabled_inside; [exact J|]. left. exists k. exact Ep.
    + exists i. split; [exact HR|]. apply enabled_inside; [exact J|]. tauto.
Qed.

Theorem deadlock_free_no_lock scripts s :
  lreachable (linit scripts) s ->
  (forall i, ~ holds_lock s i) -> forall i, unfinished s i -> enabled s i.
Proof.
  intros Hr Hno i (t & Et & Hu). pose proof (linv_reachable _ _ Hr) as J. destruct J as [Jp JR JW JS JRW].
  assert (Ew : clearW s = None).
  { destruct (clearW s) as [w|] eqn:Ew; [|reflexivity]. exfalso. apply (Hno w). left; exact Ew. }
  assert (Er : clearR s = []).
  { destruct (clearR s) as [|j r] eqn:Er; [reflexivity|]. exfalso. apply (Hno j). right; left. rewrite Er. left; reflexivity. }
  assert (Ep : lph s i = LIdle) by (apply linv_idle; [constructor; assumption|rewrite Er; intros []|rewrite Ew; discriminate]).
  pose proof (Jp i) as P. rewrite Ep, Et in P. cbn in P. destruct (P t eq_refl) as [P1 P2].
  unfold enabled. cbn [lstep]. rewrite Et. unfold lock_step, thread_step, needs_lock, tstep. rewrite Ep.
  destruct (t_pc t) as [| k id | k id | [|v r] | ]; try discriminate.
  - destruct (t_script t) as [|[k id|v|ks| |] r].
    + exfalso. destruct Hu as [Hu|Hu]; apply Hu; reflexivity.
    + left. rewrite Ew. discriminate.
    + right. intros o. discriminate.
    + right. intros o. discriminate.
    + left. rewrite Ew, Er. discriminate.
    + right. intros o. discriminate.
  - right. intros o. discriminate.
  - right. intros o. discriminate.
Qed.

Corollary progress scripts s :
  lreachable (linit scripts) s ->
  (exists i, unfinished s i \/ lph s i <> LIdle) -> exists j, enabled s j.
Proof.
  intros Hr (i & Hi). pose proof (linv_reachable _ _ Hr) as J.
  destruct (clearW s) as [w|] eqn:Ew.
  { destruct (deadlock_free_holder scripts s Hr) as (j & _ & Hj); [exists w; left; exact Ew|]. exists j; exact Hj. }
  destruct (clearR s) as [|r rs] eqn:Er.
  2:{ destruct (deadlock_free_holder scripts s Hr) as (j & _ & Hj); [|exists j; exact Hj].
      exists r. right; left. rewrite Er. left; reflexivity. }
  assert (Hidle : forall j, lph s j = LIdle).
  { intros j. apply (linv_idle s j J); [rewrite Er; intros []|rewrite Ew; discriminate]. }
  destruct Hi as [Hu|Hp]; [|exfalso; apply Hp; apply Hidle].
  exists i. apply (deadlock_free_no_lock scripts s Hr); [|exact Hu].
  intros j [Hw|[Hin|(n & Ho)]].
  - congruence.
  - rewrite Er in Hin. exact Hin.
  - apply (L_S s J) in Ho. rewrite Hidle in Ho. discriminate.
Qed.
End Locked.

(* non-vacuity with a concrete 64-stripe function (the Go code hashes the key string with FNV-1a before taking it
   mod 64; every theorem above holds for any stripe function) *)

Definition stripe64 (k : Z) : nat := Z.to_nat (k mod 64).

(* observation of a locked state (the lock fields contain functions): projection, clearMu writer and readers,
   the owned stripes among the 64, the lock phases of the threads *)
Definition owners (s : lstate) : list (nat * tid) :=
  flat_map (fun n => match stripeOwner s n with Some i => [(n, i)] | None => [] end) (seq 0 64).
Definition observe (s : lstate) :=
  (base s, clearW s, clearR s, owners s, map (lph s) (seq 0 (length (threads (base s))))).
Definition lrun (scripts : list (list op)) (ls : list llabel) :=
  option_map observe (lexec stripe64 (linit scripts) ls).

Definition TB (i : nat) : llabel := LBase (LT i acc).

(* the F5 schedule with the lock operations the Go code performs: store r1 takes clearMu(R) and stripe 7 and does A;
   store r2 takes clearMu(R) — and its stripe acquisition is BLOCKED, so A r2 cannot happen before B r1 *)
Example f5_blocked_at_stripe :
  let s0 := linit f5_scripts in
  let pre := [LLock 0; LLock 0; TB 0; LLock 1]%nat in
  lrun f5_scripts pre =
    Some (mkS [(7, 1)] [] [] false [mkT (PStoreB 7 1) []; mkT PIdle [OStore 7 2]],
          None, [1; 0]%nat, [(7, 0)]%nat, [LHold 7; LWaitS 7]) /\
  lexec stripe64 s0 (pre ++ [LLock 1%nat]) = None /\                          (* the stripe is owned by thread 0 *)
  lexec stripe64 s0 (pre ++ [TB 1]) = None /\                                 (* and step A is not enabled without it *)
  lexec stripe64 s0 (pre ++ [LLock 1%nat; TB 1; TB 1; LBase (LEvict 7); LBase LDeliver; TB 0]) = None /\
  lexec stripe64 s0 (map LBase f5_schedule) = None /\                         (* the bare schedule: no lock taken *)
  (forall ls, erase ls = f5_schedule -> lexec stripe64 s0 ls = None).         (* any placement of lock steps *)
Proof.
  cbv zeta. split; [vm_compute; reflexivity|]. split; [vm_compute; reflexivity|].
  split; [vm_compute; reflexivity|]. split; [vm_compute; reflexivity|]. split; [vm_compute; reflexivity|].
  apply f5_not_executable.
Qed.

(* a complete locked run: two stores of key 7 one after the other (the second waits for the stripe), a concurrent
   store of key 8 on another stripe, an eviction and its late notification (harmless: identity mismatch), a Clear
   that waits for the readers, and a store after the Clear *)
Definition ex_lscripts : list (list op) := [[OStore 7 1; OStore 9 4]; [OStore 7 2]; [OStore 8 3]; [OClear]].

Definition ex_l1 : list llabel :=      (* store(7,1): RLock, stripe 7, A;  store(8,3): RLock, stripe 8;  store(7,2): RLock *)
  [LLock 0; LLock 0; TB 0; LLock 2; LLock 2; LLock 1]%nat.
Definition ex_l2 : list llabel :=      (* A(8,3); B(7,1); evict 7; B(8,3); unlock stripe 7; store(7,2) gets it; ...; all released but thread 1's RLock *)
  [TB 2; TB 0; LBase (LEvict 7); TB 2; LLock 0; LLock 1; LLock 0; TB 1; LBase LDeliver; LLock 2; LLock 2; TB 1; LLock 1]%nat.
Definition ex_l3 : list llabel := [LLock 1]%nat.                    (* store(7,2): RUnlock *)
Definition ex_l4 : list llabel := [LLock 3]%nat.                    (* Clear: Lock *)
Definition ex_l5 : list llabel :=      (* Clear steps 1, 2, Unlock; store(9,4): RLock, stripe 9, A, B, Unlock, RUnlock *)
  [TB 3; TB 3; LLock 3; LLock 0; LLock 0; TB 0; TB 0; LLock 0; LLock 0]%nat.

Lemma ex_lwf : wf_scripts ex_lscripts.
Proof.
  unfold wf_scripts; cbn. repeat constructor; cbn; intuition discriminate.
Qed.

Example locked_run_midway :
  (* store(7,1) and store(8,3) overlap (different stripes), store(7,2) waits *)
  lrun ex_lscripts ex_l1 =
    Some (mkS [(7, 1)] [] [] false
              [mkT (PStoreB 7 1) [OStore 9 4]; mkT PIdle [OStore 7 2]; mkT PIdle [OStore 8 3]; mkT PIdle [OClear]],
          None, [1; 2; 0]%nat, [(7, 0); (8, 2)]%nat, [LHold 7; LWaitS 7; LHold 8; LIdle]) /\
  lrun ex_lscripts (ex_l1 ++ [LLock 1%nat]) = None /\               (* store(7,2): stripe 7 is owned *)
  lrun ex_lscripts (ex_l1 ++ [LLock 3%nat]) = None /\               (* Clear: readers present *)
  (* the three stores are done; thread 1 still holds clearMu(R): Clear is still blocked *)
  lrun ex_lscripts (ex_l1 ++ ex_l2) =
    Some (mkS [(7, 2); (8, 3)] [(7, 2); (8, 3)] [] false
              [mkT PIdle [OStore 9 4]; mkT PIdle []; mkT PIdle []; mkT PIdle [OClear]],
          None, [1]%nat, [], [LIdle; LRelR; LIdle; LIdle]) /\
  lrun ex_lscripts (ex_l1 ++ ex_l2 ++ [LLock 3%nat]) = None /\
  (* quiescent checkpoint: no lock held, index = cache *)
  lrun ex_lscripts (ex_l1 ++ ex_l2 ++ ex_l3) =
    Some (mkS [(7, 2); (8, 3)] [(7, 2); (8, 3)] [] false
              [mkT PIdle [OStore 9 4]; mkT PIdle []; mkT PIdle []; mkT PIdle [OClear]],
          None, [], [], [LIdle; LIdle; LIdle; LIdle]) /\
  (* Clear holds clearMu(W): the next store's RLock is blocked *)
  lrun ex_lscripts (ex_l1 ++ ex_l2 ++ ex_l3 ++ ex_l4) =
    Some (mkS [(7, 2); (8, 3)] [(7, 2); (8, 3)] [] false
              [mkT PIdle [OStore 9 4]; mkT PIdle []; mkT PIdle []; mkT PIdle [OClear]],
          Some 3%nat, [], [], [LIdle; LIdle; LIdle; LHoldW]) /\
  lrun ex_lscripts (ex_l1 ++ ex_l2 ++ ex_l3 ++ ex_l4 ++ [LLock 0%nat]) = None.
Proof. repeat split; vm_compute; reflexivity. Qed.

Definition ex_lrun : list llabel := ex_l1 ++ ex_l2 ++ ex_l3 ++ ex_l4 ++ ex_l5.

Example locked_run :
  lrun ex_lscripts ex_lrun =
    Some (mkS [(9, 4)] [(9, 4)] [] false [mkT PIdle []; mkT PIdle []; mkT PIdle []; mkT PIdle []],
          None, [], [], [LIdle; LIdle; LIdle; LIdle]).
Proof. vm_compute. reflexivity. Qed.

(* the hypotheses of the H-free theorems are met by this run, at the checkpoint and at the end *)
Example locked_run_hypotheses :
  wf_scripts ex_lscripts /\
  (exists s, lexec stripe64 (linit ex_lscripts) (ex_l1 ++ ex_l2 ++ ex_l3) = Some s /\
             lreachable stripe64 (linit ex_lscripts) s /\ closed (base s) = false /\ lquiescent s /\
             idx (base s) = cache (base s) /\ idx (base s) = [(7, 2); (8, 3)]) /\
  (exists s, lexec stripe64 (linit ex_lscripts) ex_lrun = Some s /\
             lreachable stripe64 (linit ex_lscripts) s /\ closed (base s) = false /\ lquiescent s /\
             idx (base s) = cache (base s) /\ idx (base s) = [(9, 4)]).
Proof.
  split; [exact ex_lwf|]. split.
  - destruct (lexec stripe64 (linit ex_lscripts) (ex_l1 ++ ex_l2 ++ ex_l3)) as [s|] eqn:E; [|vm_compute in E; discriminate].
    assert (Hr : lreachable stripe64 (linit ex_lscripts) s) by (eapply lexec_lreachable; [constructor|exact E]).
    vm_compute in E. injection E as <-.
    eexists. split; [reflexivity|]. split; [exact Hr|]. split; [reflexivity|]. split; [|split; reflexivity].
    split; [split; reflexivity|]. cbn. intros i Hi.
    destruct i as [|[|[|[|i]]]]; reflexivity.
  - destruct (lexec stripe64 (linit ex_lscripts) ex_lrun) as [s|] eqn:E; [|vm_compute in E; discriminate].
    assert (Hr : lreachable stripe64 (linit ex_lscripts) s) by (eapply lexec_lreachable; [constructor|exact E]).
    vm_compute in E. injection E as <-.
    eexists. split; [reflexivity|]. split; [exact Hr|]. split; [reflexivity|]. split; [|split; reflexivity].
    split; [split; reflexivity|]. cbn. intros i Hi.
    destruct i as [|[|[|[|i]]]]; reflexivity.
Qed.

(* locks_released needs quiescence of the LOCK protocol too: IndexLts-quiescence alone (all pcs idle, queue empty) is
   reached right after step B, when the store still holds both locks (its deferred unlocks have not run) *)
Example locks_released_base_quiescent_refuted :
  exists s, lreachable stripe64 (linit [[OStore 7 1]]) s /\ quiescent (base s) /\
            clearR s = [0%nat] /\ stripeOwner s 7%nat = Some 0%nat /\ lph s 0%nat = LDone 7 /\ ~ lock_free s.
Proof.
  destruct (lexec stripe64 (linit [[OStore 7 1]]) [LLock 0; LLock 0; TB 0; TB 0]%nat) as [s|] eqn:E;
    [|vm_compute in E; discriminate].
  assert (Hr : lreachable stripe64 (linit [[OStore 7 1]]) s) by (eapply lexec_lreachable; [constructor|exact E]).
  vm_compute in E. injection E as <-.
  eexists. split; [exact Hr|]. split; [split; reflexivity|]. split; [reflexivity|]. split; [reflexivity|].
  split; [reflexivity|]. intros (_ & Hx & _). discriminate.
Qed.
