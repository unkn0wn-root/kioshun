(* Theorems about the concurrent transition system HtableLts.v (one writer, lock-free readers), for every hash
   assignment with 0 <= hashf k, table size, number of readers and schedule.

   The writer/memory invariant WInvAt ties every state, including those between the two stores of one writer
   operation, to a sequential table of HtableModel that satisfies the relation Rel of HtableTrace: the current
   array is `cmap l` (the two-word image of the sequential slots), or that image with ONE half-written cell, or
   an intermediate list of the reclaim loop, plus the not yet published array of a rehash.  Every writer segment
   preserves it and ends an operation exactly as HtableModel does (wstep_inv, StepOut).  An invariant of a reader
   is a predicate of the states visited so far, the memory and the reader's program counter; Section ReaderInv
   shows that such a predicate, once preserved by the writer's segments and by the six transitions of a lookup
   (rtrans), holds all along the lookup.  Its instances hq (items seen were alive) and mq (the key is published
   ahead of the reader or was seen absent) give the soundness of hits and of misses.  The probe bound uses a
   predicate of the same shape, tq, over two counters (loads done, writer stores seen), with its own induction
   over the schedule (tinv_run). *)
Require Import KV.Base KV.Gen.Consts KV.HtableModel KV.HtableProofs KV.HtableTrace KV.HtableLts.
Require Import Lia List Arith ZArith Bool.
Import ListNotations.
Local Open Scope nat_scope.

Lemma length_setcc a : forall p c, length (setcc a p c) = length a.
Proof.
  induction a as [|x a IH]; intros p c; [reflexivity|].
  destruct p as [|p]; cbn [setcc length]; [reflexivity|]. rewrite IH. reflexivity.
Qed.

Lemma getcc_setcc_same a : forall p c, p < length a -> getcc (setcc a p c) p = c.
Proof.
  unfold getcc. induction a as [|x a IH]; intros p c H; cbn [length] in H; [lia|].
  destruct p as [|p]; cbn [setcc nth]; [reflexivity|]. apply IH. lia.
Qed.

Lemma getcc_setcc_other a : forall p q c, p <> q -> getcc (setcc a p c) q = getcc a q.
Proof.
  unfold getcc. induction a as [|x a IH]; intros p q c H; [reflexivity|].
  destruct p as [|p]; destruct q as [|q]; cbn [setcc nth]; try reflexivity; try lia.
  apply IH. lia.
Qed.

Lemma getcc_oob a p : length a <= p -> getcc a p = cempty.
Proof. unfold getcc. intros H. apply nth_overflow. exact H. Qed.

Lemma setcc_oob a : forall p c, length a <= p -> setcc a p c = a.
Proof.
  induction a as [|x a IH]; intros p c H; [reflexivity|].
  destruct p as [|p]; cbn [length] in H; [lia|]. cbn [setcc]. rewrite IH by lia. reflexivity.
Qed.

Lemma length_set_tag a p t : length (set_tag a p t) = length a.
Proof. apply length_setcc. Qed.
Lemma length_set_item a p x : length (set_item a p x) = length a.
Proof. apply length_setcc. Qed.

Lemma getcc_setcc a p q c :
  getcc (setcc a p c) q = if Nat.eqb p q && Nat.ltb p (length a) then c else getcc a q.
Proof.
  destruct (Nat.eqb_spec p q) as [E|E]; cbn [andb]; [subst q|apply getcc_setcc_other; exact E].
  destruct (Nat.ltb_spec p (length a)) as [L|L]; [apply getcc_setcc_same; exact L|rewrite setcc_oob by exact L; reflexivity].
Qed.

Lemma ctag_set_tag a p q t :
  ctag (getcc (set_tag a p t) q) = if Nat.eqb p q && Nat.ltb p (length a) then t else ctag (getcc a q).
Proof. unfold set_tag. rewrite getcc_setcc. destruct (_ && _)%bool; reflexivity. Qed.

Lemma citem_set_tag a p q t : citem (getcc (set_tag a p t) q) = citem (getcc a q).
Proof.
  unfold set_tag. rewrite getcc_setcc.
  destruct (Nat.eqb_spec p q) as [E|E]; [subst q; destruct (Nat.ltb p (length a))|]; reflexivity.
Qed.

Lemma ctag_set_item a p q x : ctag (getcc (set_item a p x) q) = ctag (getcc a q).
Proof.
  unfold set_item. rewrite getcc_setcc.
  destruct (Nat.eqb_spec p q) as [E|E]; [subst q; destruct (Nat.ltb p (length a))|]; reflexivity.
Qed.

Lemma citem_set_item a p q x :
  citem (getcc (set_item a p x) q) = if Nat.eqb p q && Nat.ltb p (length a) then x else citem (getcc a q).
Proof. unfold set_item. rewrite getcc_setcc. destruct (_ && _)%bool; reflexivity. Qed.

Lemma length_set_nth {A} (l : list A) : forall i x, length (set_nth l i x) = length l.
Proof.
  induction l as [|y l IH]; intros i x; [reflexivity|].
  destruct i as [|i]; cbn [set_nth length]; [reflexivity|]. rewrite IH. reflexivity.
Qed.

Lemma nth_set_nth_same {A} (l : list A) d : forall i x, i < length l -> nth i (set_nth l i x) d = x.
Proof.
  induction l as [|y l IH]; intros i x H; cbn [length] in H; [lia|].
  destruct i as [|i]; cbn [set_nth nth]; [reflexivity|]. apply IH. lia.
Qed.

Lemma nth_set_nth_other {A} (l : list A) d : forall i j x, i <> j -> nth j (set_nth l i x) d = nth j l d.
Proof.
  induction l as [|y l IH]; intros i j x H; [reflexivity|].
  destruct i as [|i]; destruct j as [|j]; cbn [set_nth nth]; try reflexivity; try lia.
  apply IH. lia.
Qed.

Lemma nth_error_set_nth_same {A} (l : list A) : forall i x, i < length l -> nth_error (set_nth l i x) i = Some x.
Proof.
  induction l as [|y l IH]; intros i x H; cbn [length] in H; [lia|].
  destruct i as [|i]; cbn [set_nth nth_error]; [reflexivity|]. apply IH. lia.
Qed.

Lemma nth_error_set_nth_other {A} (l : list A) : forall i j x, i <> j -> nth_error (set_nth l i x) j = nth_error l j.
Proof.
  induction l as [|y l IH]; intros i j x H; [reflexivity|].
  destruct i as [|i]; destruct j as [|j]; cbn [set_nth nth_error]; try reflexivity; try lia.
  apply IH. lia.
Qed.

Lemma getarr_upd_same m d a : d < length (arrs m) -> getarr (upd_arr m d a) d = a.
Proof. intros H. unfold getarr, upd_arr. cbn [arrs]. apply nth_set_nth_same. exact H. Qed.

Lemma getarr_upd_other m d e a : d <> e -> getarr (upd_arr m d a) e = getarr m e.
Proof. intros H. unfold getarr, upd_arr. cbn [arrs]. apply nth_set_nth_other. exact H. Qed.

Lemma getarr_store_data_old m a d : d < length (arrs m) -> getarr (store_data m a) d = getarr m d.
Proof. intros H. unfold getarr, store_data. cbn [arrs]. apply app_nth1. exact H. Qed.

Lemma getarr_store_data_new m a : getarr (store_data m a) (length (arrs m)) = a.
Proof.
  unfold getarr, store_data. cbn [arrs]. rewrite app_nth2 by lia. rewrite Nat.sub_diag. reflexivity.
Qed.

Definition conc (c : cell) : ccell :=
  match c with
  | Empty => cempty
  | Tomb => {| ctag := 1; citem := None |}
  | Live it => {| ctag := ntag it; citem := Some it |}
  end.
Definition cmap (l : list cell) : list ccell := map conc l.

(* two words as a sequential cell: the tag decides.  (A tag >= 2 with a nil item counts as a tombstone:
   an arbitrary choice, no well-formed array has such a cell, see aw_tag.) *)
Definition abs_cell (c : ccell) : cell :=
  if (ctag c =? 0)%Z then Empty
  else if (ctag c =? 1)%Z then Tomb
  else match citem c with Some it => Live it | None => Tomb end.
Definition absl (a : list ccell) : list cell := map abs_cell a.

Lemma length_cmap l : length (cmap l) = length l.
Proof. apply map_length. Qed.
Lemma length_absl a : length (absl a) = length a.
Proof. apply map_length. Qed.

Lemma getcc_cmap l i : getcc (cmap l) i = conc (getc l i).
Proof. unfold getcc, cmap, getc. change cempty with (conc Empty). apply map_nth. Qed.

Lemma getc_absl a i : getc (absl a) i = abs_cell (getcc a i).
Proof. unfold getcc, absl, getc. change Empty with (abs_cell cempty). apply map_nth. Qed.

Lemma setcc_cmap l : forall i c, setcc (cmap l) i (conc c) = cmap (setc l i c).
Proof.
  induction l as [|x l IH]; intros i c; [reflexivity|].
  destruct i as [|i]; cbn [cmap map setcc setc]; [reflexivity|].
  fold (cmap l). rewrite IH. reflexivity.
Qed.

Lemma absl_setcc a : forall i c, absl (setcc a i c) = setc (absl a) i (abs_cell c).
Proof.
  induction a as [|x a IH]; intros i c; [reflexivity|].
  destruct i as [|i]; cbn [absl map setcc setc]; [reflexivity|].
  fold (absl a). fold (absl (setcc a i c)). rewrite IH. reflexivity.
Qed.

Lemma cmap_repeat n : cmap (repeat Empty n) = repeat cempty n.
Proof. unfold cmap. induction n as [|n IH]; cbn [repeat map]; [reflexivity|]. rewrite IH. reflexivity. Qed.

Lemma norm_ge2 h : (0 <= h -> 2 <= norm h)%Z.
Proof. unfold norm. intros H. destruct (Z.ltb_spec h 2); lia. Qed.

Definition hash_ok (l : list cell) : Prop := forall p x, getc l p = Live x -> (0 <= ihash x)%Z.

Lemma abs_conc c : (forall x, c = Live x -> (0 <= ihash x)%Z) -> abs_cell (conc c) = c.
Proof.
  intros H. destruct c as [| |x]; try reflexivity.
  unfold abs_cell, conc, ntag. cbn [ctag citem]. pose proof (norm_ge2 _ (H x eq_refl)) as N.
  destruct (Z.eqb_spec (norm (ihash x)) 0); [lia|]. destruct (Z.eqb_spec (norm (ihash x)) 1); [lia|].
  reflexivity.
Qed.

Lemma absl_cmap l : hash_ok l -> absl (cmap l) = l.
Proof.
  intros H. apply nth_ext with (d := Empty) (d' := Empty).
  - rewrite length_absl, length_cmap. reflexivity.
  - intros i _. fold (getc (absl (cmap l)) i). fold (getc l i).
    rewrite getc_absl, getcc_cmap. apply abs_conc. intros x E. apply (H i x E).
Qed.

Lemma hash_ok_setc l p c :
  (forall x, c = Live x -> (0 <= ihash x)%Z) -> hash_ok l -> hash_ok (setc l p c).
Proof.
  intros Hc H q x G. destruct (getc_setc_cases l p q c) as [(_ & _ & E)|E]; rewrite E in G.
  - apply (Hc x G).
  - apply (H q x G).
Qed.

Lemma cwalk_cmap l n h k : hash_ok l -> forall fuel i ft,
  cwalk fuel (cmap l) n i ft (norm h) k = walk_for fuel l n i ft h k.
Proof.
  intros H. induction fuel as [|f IH]; intros i ft; [reflexivity|].
  cbn [cwalk walk_for]. rewrite getcc_cmap. destruct (getc l i) as [| |x] eqn:G; cbn [conc ctag citem cempty].
  - reflexivity.
  - cbn. apply IH.
  - pose proof (norm_ge2 _ (H i x G)) as N. unfold ntag.
    destruct (Z.eqb_spec (norm (ihash x)) 0); [lia|]. destruct (Z.eqb_spec (norm (ihash x)) 1); [lia|].
    unfold matches. destruct (norm (ihash x) =? norm h)%Z; cbn [andb].
    + destruct (ikey x =? k)%Z; [reflexivity|apply IH].
    + apply IH.
Qed.

Lemma cfind_exact_cmap l n it : hash_ok l -> forall fuel i,
  cfind_exact fuel (cmap l) n i (ntag it) it = find_exact fuel l n i it.
Proof.
  intros H. induction fuel as [|f IH]; intros i; [reflexivity|].
  cbn [cfind_exact find_exact]. rewrite getcc_cmap. destruct (getc l i) as [| |x] eqn:G; cbn [conc ctag citem cempty].
  - reflexivity.
  - change (1 =? 0)%Z with false. cbv iota. rewrite andb_false_r. apply IH.
  - pose proof (norm_ge2 _ (H i x G)) as N. unfold ntag.
    destruct (Z.eqb_spec (norm (ihash x)) 0); [lia|].
    destruct ((norm (ihash x) =? norm (ihash it))%Z && (iid x =? iid it)%Z)%bool; [reflexivity|apply IH].
Qed.

Lemma cfirst_empty_cmap l n : hash_ok l -> forall fuel i,
  cfirst_empty fuel (cmap l) n i = first_empty fuel l n i.
Proof.
  intros H. induction fuel as [|f IH]; intros i; [reflexivity|].
  cbn [cfirst_empty first_empty]. rewrite getcc_cmap. destruct (getc l i) as [| |x] eqn:G; cbn [conc ctag cempty].
  - reflexivity.
  - cbn. apply IH.
  - pose proof (norm_ge2 _ (H i x G)) as N. unfold ntag.
    destruct (Z.eqb_spec (norm (ihash x)) 0); [lia|]. apply IH.
Qed.

Lemma creinsert_cmap n acc e c :
  hash_ok acc -> (forall x, c = Live x -> (0 <= ihash x)%Z) ->
  creinsert n (cmap acc, e) (conc c) = (cmap (fst (reinsert n (acc, e) c)), snd (reinsert n (acc, e) c)).
Proof.
  intros Ha Hc. unfold creinsert, reinsert. destruct c as [| |x]; cbn [conc ctag citem cempty fst snd].
  - reflexivity.
  - reflexivity.
  - pose proof (norm_ge2 _ (Hc x eq_refl)) as N. unfold ntag at 1.
    destruct (Z.leb_spec (norm (ihash x)) 1); [lia|].
    rewrite cfirst_empty_cmap by exact Ha.
    destruct (first_empty n acc n (home_in n (ihash x))) as [j|]; cbn [fst snd]; [|reflexivity].
    change {| ctag := ntag x; citem := Some x |} with (conc (Live x)). rewrite setcc_cmap. reflexivity.
Qed.

Lemma hash_ok_reinsert n acc e c :
  hash_ok acc -> (forall x, c = Live x -> (0 <= ihash x)%Z) -> hash_ok (fst (reinsert n (acc, e) c)).
Proof.
  intros Ha Hc. unfold reinsert. destruct c as [| |x]; cbn [fst]; try exact Ha.
  destruct (first_empty n acc n (home_in n (ihash x))) as [j|]; cbn [fst]; [|exact Ha].
  apply hash_ok_setc; [|exact Ha]. intros y E. injection E as E. subst y. apply (Hc x eq_refl).
Qed.

Lemma crehash_fold n : forall old acc e,
  hash_ok acc -> (forall x, In (Live x) old -> (0 <= ihash x)%Z) ->
  fold_left (creinsert n) (cmap old) (cmap acc, e) =
  (cmap (fst (fold_left (reinsert n) old (acc, e))), snd (fold_left (reinsert n) old (acc, e))) /\
  hash_ok (fst (fold_left (reinsert n) old (acc, e))).
Proof.
  induction old as [|c old IH]; intros acc e Ha Ho; cbn [cmap map fold_left fst snd].
  - split; [reflexivity|exact Ha].
  - fold (cmap old).
    assert (Hc : forall x, c = Live x -> (0 <= ihash x)%Z) by (intros x E; apply Ho; left; exact E).
    rewrite (creinsert_cmap n acc e c Ha Hc).
    pose proof (hash_ok_reinsert n acc e c Ha Hc) as Ha'.
    destruct (reinsert n (acc, e) c) as [acc' e'] eqn:R. cbn [fst snd] in *.
    apply IH; [exact Ha'|]. intros x I. apply Ho. right. exact I.
Qed.

Lemma hash_ok_repeat n : hash_ok (repeat Empty n).
Proof. intros p x G. rewrite getc_repeat in G. discriminate G. Qed.

Lemma hash_ok_in l x : hash_ok l -> In (Live x) l -> (0 <= ihash x)%Z.
Proof.
  intros H I. destruct (In_nth l (Live x) Empty I) as (p & _ & E). apply (H p x E).
Qed.

Lemma crehash_cmap l newN :
  hash_ok l ->
  crehash (cmap l) newN =
  (cmap (fst (fold_left (reinsert newN) l (repeat Empty newN, false))),
   snd (fold_left (reinsert newN) l (repeat Empty newN, false))) /\
  hash_ok (fst (fold_left (reinsert newN) l (repeat Empty newN, false))).
Proof.
  intros H. unfold crehash. rewrite <- cmap_repeat.
  apply crehash_fold; [apply hash_ok_repeat|]. intros x I. apply (hash_ok_in l x H I).
Qed.

Lemma ccount_live_cmap l : hash_ok l -> ccount_live (cmap l) = count_live l.
Proof.
  intros H. unfold ccount_live, count_live.
  assert (G : forall l, hash_ok l -> forall a,
             fold_left (fun acc c => if (2 <=? ctag c)%Z then (acc + 1)%Z else acc) (cmap l) a =
             fold_left (fun a c => match c with Live _ => (a + 1)%Z | _ => a end) l a).
  { clear. induction l as [|c l IH]; intros H a; [reflexivity|].
    cbn [cmap map fold_left]. fold (cmap l).
    assert (Hl : hash_ok l) by (intros p x G; apply (H (S p) x G)).
    rewrite IH by exact Hl. f_equal. destruct c as [| |x]; cbn [conc ctag cempty]; try reflexivity.
    pose proof (norm_ge2 _ (H 0 x eq_refl)) as N. unfold ntag.
    destruct (Z.leb_spec 2 (norm (ihash x))); [reflexivity|lia]. }
  apply G. exact H.
Qed.

Local Open Scope Z_scope.

Definition mkc (t : htable) (cur : cursor) (f : option (nat * item)) : cstate :=
  {| ctab := t; ccur := cur; cfnd := f |}.

Lemma cstate_eta c : c = mkc (ctab c) (ccur c) (cfnd c).
Proof. destruct c. reflexivity. Qed.

Lemma with_slots_id t : with_slots t (slots t) (live t) (tombs t) (pinned t) = t.
Proof. destruct t. reflexivity. Qed.

(* what the VerifHtable wrapper computes under the shard lock, with HtableModel's functions
   (the op's own hash is used: no hash function involved) *)
Definition sstep (c : cstate) (op : wop) : cstate * (Z * Z) :=
  match op with
  | WStore it =>
      let '(t', prev) := store (ctab c) it in
      (mkc t' (ccur c) (cfnd c), match prev with Some p => (1, ival p) | None => (0, 0) end)
  | WRemove k h =>
      match lookup (ctab c) h k with
      | Some it => let '(t', ok) := remove_exact (ctab c) it in (mkc t' (ccur c) (cfnd c), (b2z ok, 0))
      | None => (c, (0, 0))
      end
  | WProbe k h =>
      let '(t', found, cur) := probe (ctab c) h k in
      (mkc t' cur found, match found with Some (_, it) => (1, ival it) | None => (0, 0) end)
  | WPublish it => (mkc (publish (ctab c) it (ccur c)) (ccur c) (cfnd c), (0, 0))
  | WUnpin => (mkc (unpin (ctab c)) (ccur c) (cfnd c), (0, 0))
  | WSwap it =>
      (mkc (swap_at (ctab c) (match cfnd c with Some (s, _) => s | None => O end) it) (ccur c) (cfnd c), (0, 0))
  | WClear => (mkc (clear (ctab c)) (ccur c) (cfnd c), (0, 0))
  end.

Fixpoint srun (c : cstate) (ws : list wop) : list (list Z) :=
  match ws with
  | [] => []
  | op :: r => let '(c', (r1, r2)) := sstep c op in [0; r1; r2] :: srun c' r
  end.

Definition is_completion (o : list Z) : bool := match o with 0 :: _ => true | _ => false end.
Definition completions (os : list (list Z)) : list (list Z) := filter is_completion os.

(* sanity by evaluation: the writer alone against HtableModel (all keys collide on slot 5) *)
Module AloneExample.
Definition mk (k v id : Z) : item := {| ikey := k; ihash := 5; ival := v; iid := id |}.
Definition ws : list wop :=
  [WStore (mk 1 10 0); WStore (mk 2 20 1); WStore (mk 3 30 2); WStore (mk 4 40 3);
   WRemove 2 5; WProbe 5 5; WRemove 4 5; WRemove 3 5; WPublish (mk 5 50 4);
   WProbe 1 5; WSwap (mk 1 11 5); WRemove 9 5; WProbe 7 5; WClear; WPublish (mk 6 60 6);
   WStore (mk 1 12 7); WStore (mk 6 61 8)].
Example writer_alone_eval :
  completions (snd (lrun (init_state 0 ws []) (repeat O 80))) = srun (cinit 0) ws.
Proof. vm_compute. reflexivity. Qed.

(* growth: 13 distinct keys force two rehashes (yield 251) *)
Definition ws2 : list wop :=
  map (fun k => WStore {| ikey := k; ihash := k * 3; ival := k * 100; iid := k |}) (zseq 1 13).
Example writer_alone_eval_grow :
  completions (snd (lrun (init_state 0 ws2 []) (repeat O 60))) = srun (cinit 0) ws2 /\
  cur_arr (gmem (fst (lrun (init_state 0 ws2 []) (repeat O 60)))) =
  cmap (slots (ctab (fold_left (fun c op => fst (sstep c op)) ws2 (cinit 0)))).
Proof. vm_compute. split; reflexivity. Qed.
End AloneExample.

Section Lts.
Variable hashf : Z -> Z.
Hypothesis hashf_nonneg : forall k, 0 <= hashf k.

(* The writer's script respects the protocol of HtableTrace's abstract machine, and every op carries the
   hash of its key (a wrong hash rejects the whole script).  Remove is the wrapper's "lookup, then
   removeExact of what was found": on an absent key it is accepted without consulting astep and
   changes nothing. *)
Definition wastep (a : astate) (op : wop) : option astate :=
  match op with
  | WStore it => option_map fst (astep hashf a (TStore it))
  | WRemove k h =>
      if h =? hashf k then
        match aget (am a) k with
        | Some it => option_map fst (astep hashf a (TRemove it))
        | None => Some a
        end
      else None
  | WProbe k h => if h =? hashf k then option_map fst (astep hashf a (TProbe k)) else None
  | WPublish it => option_map fst (astep hashf a (TPublish it))
  | WUnpin => option_map fst (astep hashf a TUnpin)
  | WSwap it => option_map fst (astep hashf a (TSwap it))
  | WClear => option_map fst (astep hashf a TClear)
  end.

Fixpoint wproto (a : astate) (ws : list wop) : Prop :=
  match ws with
  | [] => True
  | op :: r => exists a', wastep a op = Some a' /\ wproto a' r
  end.

Lemma sstep_refines c a op a' :
  Rel hashf c a -> wastep a op = Some a' -> Rel hashf (fst (sstep c op)) a'.
Proof.
  intros R S.
  assert (K : forall top, option_map fst (astep hashf a top) = Some a' -> Rel hashf (fst (cstep hashf c top)) a').
  { intros top S0. destruct (astep hashf a top) as [[a0 o]|] eqn:E; [|discriminate S0]. injection S0 as S0. subst a0.
    apply (step_refines hashf c a top a' o R E). }
  destruct op as [it|k h|k h|it| |it| ]; cbn [wastep] in S; try exact (K _ S).
  - apply K in S. cbn [cstep sstep] in *. destruct (store (ctab c) it) as [t' prev]. exact S.
  - destruct (Z.eqb_spec h (hashf k)) as [E|E]; [|discriminate S]. subst h. cbn [sstep].
    rewrite (Rel_lookup hashf c a k R).
    destruct (aget (am a) k) as [it|].
    + apply K in S. cbn [cstep] in S. destruct (remove_exact (ctab c) it) as [t' ok]. exact S.
    + injection S as S. subst a'. exact R.
  - destruct (Z.eqb_spec h (hashf k)) as [E|E]; [|discriminate S]. subst h.
    apply K in S. cbn [cstep sstep] in *. destruct (probe (ctab c) (hashf k) k) as [[t' found] cur]. exact S.
Qed.

(* the item objects an operation creates *)
Definition op_items (op : wop) : list item :=
  match op with WStore it | WPublish it | WSwap it => [it] | _ => [] end.
Definition script_items (ws : list wop) : list item := flat_map op_items ws.

(* the operations after which no probe result is pending: all but Probe and Remove *)
Definition nonprobe (op : wop) : Prop :=
  match op with WProbe _ _ | WRemove _ _ => False | _ => True end.

Lemma wastep_ins a op a' it :
  wastep a op = Some a' -> In it (op_items op) ->
  ins_ok hashf a it = true /\ aph a' = Idle /\ aissued a' = it :: aissued a /\
  match op with
  | WPublish _ => (aph a = Idle /\ astale a = true) \/ aph a = Pending (ikey it)
  | WSwap _ => aph a = Found (ikey it)
  | _ => aph a = Idle
  end.
Proof.
  intros S Ii. destruct op as [x|k h|k h|x| |x| ]; cbn [op_items] in Ii; try contradiction;
    destruct Ii as [Ii|[]]; subst x; cbn [wastep] in S; unfold astep in S;
    destruct (aph a) as [|kc|kf]; try discriminate S.
  - destruct (ins_ok hashf a it); [|discriminate S]. injection S as S. subst a'. repeat split; reflexivity.
  - destruct (astale a); [|discriminate S]. destruct (ins_ok hashf a it); [|discriminate S].
    injection S as S. subst a'. split; [reflexivity|]. split; [reflexivity|]. split; [reflexivity|]. left. split; reflexivity.
  - destruct (ins_ok hashf a it); [|discriminate S]. destruct (Z.eqb_spec (ikey it) kc) as [E|E]; [|discriminate S].
    injection S as S. subst a' kc. split; [reflexivity|]. split; [reflexivity|]. split; [reflexivity|]. right. reflexivity.
  - destruct (ins_ok hashf a it); [|discriminate S]. destruct (Z.eqb_spec (ikey it) kf) as [E|E]; [|discriminate S].
    injection S as S. subst a' kf. repeat split; reflexivity.
Qed.

Lemma wastep_phase a op a' :
  nonprobe op -> wastep a op = Some a' -> forall k, aph a' <> Found k.
Proof.
  intros NP S k.
  assert (Ins : forall it, In it (op_items op) -> aph a' <> Found k).
  { intros it Ii. destruct (wastep_ins a op a' it S Ii) as (_ & Ph & _). rewrite Ph. discriminate. }
  destruct op as [it|k0 h|k0 h|it| |it| ]; cbn [nonprobe] in NP; try contradiction.
  - apply (Ins it). left. reflexivity.
  - apply (Ins it). left. reflexivity.
  - cbn [wastep] in S. injection S as S. subst a'. discriminate.
  - apply (Ins it). left. reflexivity.
  - cbn [wastep] in S. injection S as S. subst a'. discriminate.
Qed.

Lemma wastep_remove a k h a' :
  wastep a (WRemove k h) = Some a' -> h = hashf k /\ aph a' = aph a /\ aissued a' = aissued a.
Proof.
  cbn [wastep]. destruct (Z.eqb_spec h (hashf k)) as [E|E]; [|discriminate]. destruct (aget (am a) k) as [it|].
  - unfold astep. intros S.
    destruct (aph a) eqn:Ph; try discriminate S;
      (destruct (consb hashf it && ident_ok (aissued a) it)%bool; [|discriminate S]);
      injection S as S; subst a'; cbn [aph aissued]; rewrite ?Ph; repeat split; assumption.
  - intros S. injection S as S. subst a'. repeat split; assumption.
Qed.

Lemma wastep_probe a k h a' :
  wastep a (WProbe k h) = Some a' -> h = hashf k /\ aph a = Idle /\ aissued a' = aissued a.
Proof.
  cbn [wastep]. destruct (Z.eqb_spec h (hashf k)) as [E|E]; [|discriminate].
  unfold astep. destruct (aph a); try discriminate.
  destruct (aget (am a) k); intros S; injection S as S; subst a'; repeat split; assumption.
Qed.

Lemma LWF_hash_ok l n : LWF hashf l n -> hash_ok l.
Proof. intros W p x G. rewrite (lwf_cons _ _ _ W p x G). apply hashf_nonneg. Qed.

Lemma Rel_parts c a : Rel hashf c a -> WFcore hashf (ctab c) /\ load_ok (ctab c) /\ hash_ok (slots (ctab c)).
Proof.
  intros R. destruct (phase_core hashf c (aph a) (r_phase _ _ _ R)) as [C L].
  split; [exact C|]. split; [exact L|]. apply (LWF_hash_ok _ _ (wc_l _ _ C)).
Qed.

Definition cur_rel (wc : wcursor) (cc : cursor) : Prop :=
  match wcd wc with Some d => cgen cc = Z.of_nat d | None => cgen cc = -1 end /\
  wcslot wc = cslot cc /\ wctomb wc = ctomb cc.

(* What memory and private state share with the sequential table whatever the program counter: the
   index of the current array is the table's generation, every array ever published is still in the
   list, no private loop ran out of fuel, and the wrapper's cursor is the sequential cursor.
   (A plain conjunction: wp_set, wp_fslot and with_slots leave it unchanged up to conversion.) *)
Definition Com (m : mem) (w : wpriv) (t : htable) (cc : cursor) : Prop :=
  Z.of_nat (data m) = gen t /\ length (arrs m) = S (data m) /\ werr w = false /\ cur_rel (wcur w) cc.

(* after a successful probe the wrapper holds the pointer to the matched slot *)
Definition Fnd (m : mem) (w : wpriv) (c : cstate) (a : astate) : Prop :=
  forall k s it, aph a = Found k -> cfnd c = Some (s, it) -> wfslot w = Some (data m, s).

Definition Priv (w : wpriv) (t : htable) : Prop :=
  wlive w = live t /\ wtombs w = tombs t /\ wpin w = pinned t.

(* the lock-free lookup run to its end with nobody writing: what Remove's lookup phase will return *)
Fixpoint lk_run (fuel : nat) (m : mem) (r : lk_res) (k h : Z) : option (option item) :=
  match r with
  | LkMiss => Some None
  | LkHit it => Some (Some it)
  | LkPark202 d i => match fuel with O => None | S f => lk_run f m (lk_from202 m d i h) k h end
  | LkPark203 d i => match fuel with O => None | S f => lk_run f m (lk_from203 m d i k) k h end
  end.

Definition HE (l : list cell) : Prop := exists e, (e < length l)%nat /\ getc l e = Empty.

(* What store / publish have established when they are about to insert `it` into the non-live cell dst
   (htable.go: the empty or first-tombstone cell found by the walk, or the cursor's cell): enough for
   insert_core, and one more empty cell elsewhere, so that the array keeps one while dst is half-written. *)
Definition InsFacts (l : list cell) (dst : nat) (it : item) : Prop :=
  (dst < length l)%nat /\ is_live (getc l dst) = false /\ consistent hashf it /\
  reach_at l (length l) (ihash it) dst /\ (forall x, resident l x -> ikey x <> ikey it) /\
  (exists e, e <> dst /\ (e < length l)%nat /\ getc l e = Empty).

(* Between the entry of an insert and its tag store (211/212, 221/222).  tbf is the tombstone count the
   table will have AFTER the insert (one less if dst is a tombstone); the private count already has that
   value at 211/212, and is still to be adjusted at 221/222.  The last clause says what the whole
   operation op (whose item is `it`) returns in the sequential model: the insert followed by maybeGrow. *)
Definition InsMid (w : wpriv) (c : cstate) (op : wop) (dst : nat) (it : item) (tbf : Z) : Prop :=
  let t := ctab c in
  InsFacts (slots t) dst it /\ nonprobe op /\ In it (op_items op) /\
  tbf = tombs t - (if is_tomb (getc (slots t) dst) then 1 else 0) /\
  wlive w = live t /\
  sstep c op = (mkc (maybe_grow (with_slots t (setc (slots t) dst (Live it)) (live t + 1) tbf (wpin w)))
                    (ccur c) (cfnd c), (0, 0)).

(* the image of l with cell p between its two stores: tag t < 2 and item x *)
Definition half_arr (l : list cell) (p : nat) (t : Z) (x : item) : list ccell :=
  setcc (cmap l) p {| ctag := t; citem := Some x |}.
Definition half_ins (l : list cell) (dst : nat) (it : item) : list ccell :=
  half_arr l dst (ctag (conc (getc l dst))) it.
Definition half_rem (l : list cell) (i : nat) (it : item) : list ccell := half_arr l i 1 it.

(* Before the single store of a replacement (213: store found the key; 214: swapAt): cell s holds an item
   `old` of the same key, and the sequential operation is "put `it` there" with results (r1, r2). *)
Definition ReplMid (w : wpriv) (c : cstate) (op : wop) (s : nat) (it : item) (r1 r2 : Z) : Prop :=
  let t := ctab c in
  exists old, getc (slots t) s = Live old /\ ikey it = ikey old /\ consistent hashf it /\ nonprobe op /\
    In it (op_items op) /\ wlive w = live t /\ wtombs w = tombs t /\
    sstep c op = (mkc (with_slots t (setc (slots t) s (Live it)) (live t) (tombs t) (wpin w))
                      (ccur c) (cfnd c), (r1, r2)).

(* Between removeExact's search and its item store (231/232): cell i holds the item to remove, and the
   sequential Remove is "tombstone i, then reclaimTombs" (l2, tb2 = what the reclaim loop will leave). *)
Definition RemMid (w : wpriv) (c : cstate) (k h : Z) (i : nat) (it0 : item) : Prop :=
  let t := ctab c in
  Priv w t /\ getc (slots t) i = Live it0 /\
  exists l2 tb2,
    reclaim_tombs (setc (slots t) i Tomb) (length (slots t)) i (pinned t) (tombs t + 1) = (l2, tb2) /\
    sstep c (WRemove k h) = (mkc (with_slots t l2 (live t - 1) tb2 (pinned t)) (ccur c) (cfnd c), (1, 0)).

(* What holds when the writer is parked at pc.  c is the sequential state BEFORE the operation in progress;
   pend is that operation ([] at the boundary).  Each clause gives the current array as the image of a
   sequential slot list (possibly with one half-written cell) and what the rest of the operation will do.
   202/203: what Remove's lookup, run to its end, returns.
   233 (reclaim loop): l' is the loop's intermediate list (the tombstoned list with some tombstones
   already cleared), i the tombstone to clear next, f a bound on the tombstones still there (the loop's
   fuel), and (l2, tb2) what the rest of the loop leaves, which is what the sequential Remove returns.
   251 (rehash built, not yet published): t1 is the table after the insert and before maybeGrow (it is
   still the current array), t2 the rehashed table that the data store will publish as nd.  The last
   clause (t2 holds only residents of t1) is what items_after needs: a rebuilt array creates no item. *)
Definition PcInv (m : mem) (w : wpriv) (pc : wpc) (c : cstate) (pend : list wop) : Prop :=
  let t := ctab c in
  let l := slots t in
  let n := length l in
  let cur := cur_arr m in
  match pc with
  | WB => pend = [] /\ cur = cmap l /\ Priv w t
  | W201 k h => pend = [WRemove k h] /\ cur = cmap l /\ Priv w t
  | W202 d i k h =>
      pend = [WRemove k h] /\ cur = cmap l /\ Priv w t /\
      exists f, lk_run f m (LkPark202 d i) k h = Some (lookup t h k)
  | W203 d i k h =>
      pend = [WRemove k h] /\ cur = cmap l /\ Priv w t /\
      exists f, lk_run f m (LkPark203 d i) k h = Some (lookup t h k)
  | W211 dst it => exists op, pend = [op] /\ cur = cmap l /\ InsMid w c op dst it (wtombs w)
  | W212 dst it => exists op, pend = [op] /\ cur = half_ins l dst it /\ InsMid w c op dst it (wtombs w)
  | W213 s it r1 r2 => exists op, pend = [op] /\ cur = cmap l /\ ReplMid w c op s it r1 r2
  | W214 fa s it => exists op, pend = [op] /\ cur = cmap l /\ ReplMid w c op s it 0 0 /\ fa = data m
  | W221 s it wt =>
      exists op, pend = [op] /\ cur = cmap l /\ InsMid w c op s it (if wt then wtombs w - 1 else wtombs w)
  | W222 s it wt =>
      exists op, pend = [op] /\ cur = half_ins l s it /\
                 InsMid w c op s it (if wt then wtombs w - 1 else wtombs w)
  | W231 i => exists k h it0, pend = [WRemove k h] /\ cur = cmap l /\ RemMid w c k h i it0
  | W232 i => exists k h it0, pend = [WRemove k h] /\ cur = half_rem l i it0 /\ RemMid w c k h i it0
  | W233 i =>
      exists k h l' f l2 tb2,
        pend = [WRemove k h] /\ cur = cmap l' /\ LWF hashf l' n /\
        (i < n)%nat /\ getc l' i = Tomb /\ is_pin (pinned t) i = false /\
        getc l' (next_in n i) = Empty /\ is_pin (pinned t) (next_in n i) = false /\
        (ntomb l' <= S f)%nat /\
        reclaim_loop (S f) l' n i (pinned t) (wtombs w) = (l2, tb2) /\
        wlive w = live t - 1 /\ wpin w = pinned t /\
        sstep c (WRemove k h) = (mkc (with_slots t l2 (live t - 1) tb2 (pinned t)) (ccur c) (cfnd c), (1, 0))
  | W241 n0 => pend = [WClear] /\ cur = cmap l /\ n0 = n
  | W251 nd lv =>
      exists op t1 t2,
        pend = [op] /\ nonprobe op /\ cur = cmap (slots t1) /\ LWF hashf (slots t1) (length (slots t1)) /\
        HE (slots t1) /\
        sstep c op = (mkc t2 (ccur c) (cfnd c), (0, 0)) /\
        nd = cmap (slots t2) /\ lv = live t2 /\ tombs t2 = 0 /\ pinned t2 = None /\ gen t2 = gen t + 1 /\
        (forall x, resident (slots t2) x -> resident (slots t1) x)
  end.

(* The writer/memory invariant.  ws is the script still to start (gws), pend the operation in progress,
   so pend ++ ws is what the sequential state c and the protocol state a have still to run. *)
Definition WInvAt (m : mem) (w : wpriv) (pc : wpc) (ws : list wop)
                  (c : cstate) (a : astate) (pend : list wop) : Prop :=
  Rel hashf c a /\ wproto a (pend ++ ws) /\ Com m w (ctab c) (ccur c) /\ Fnd m w c a /\ PcInv m w pc c pend.

Lemma InsMid_facts w c op s it tbf : InsMid w c op s it tbf -> InsFacts (slots (ctab c)) s it.
Proof. intros IM. apply IM. Qed.

Lemma InsMid_item w c op s it tbf : InsMid w c op s it tbf -> In it (op_items op).
Proof. intros (_ & _ & Ii & _). exact Ii. Qed.

Lemma ReplMid_old w c op s it r1 r2 :
  ReplMid w c op s it r1 r2 -> exists old, getc (slots (ctab c)) s = Live old /\ ikey it = ikey old.
Proof. intros (old & G & K & _). exists old. split; assumption. Qed.

Lemma ReplMid_item w c op s it r1 r2 : ReplMid w c op s it r1 r2 -> In it (op_items op).
Proof. intros (old & _ & _ & _ & _ & Ii & _). exact Ii. Qed.

Lemma RemMid_live w c k h i it0 : RemMid w c k h i it0 -> getc (slots (ctab c)) i = Live it0.
Proof. intros (_ & G & _). exact G. Qed.

(* swapAt's slot pointer points into the current array *)
Lemma pc214_data m w fa s it c pend : PcInv m w (W214 fa s it) c pend -> fa = data m.
Proof. intros (op & _ & _ & _ & E). exact E. Qed.

Lemma pc233_list m w i c pend :
  PcInv m w (W233 i) c pend ->
  let n := length (slots (ctab c)) in
  exists l', cur_arr m = cmap l' /\ LWF hashf l' n /\ (i < n)%nat /\ getc l' i = Tomb /\ getc l' (next_in n i) = Empty.
Proof.
  intros (k & h & l' & f & l2 & tb2 & _ & Hc & LW & Hi & G & _ & Gnx & _). exists l'. repeat (split; [assumption|]). exact Gnx.
Qed.

Lemma pc251_tables m w nd lv c pend :
  PcInv m w (W251 nd lv) c pend ->
  exists t1 t2, cur_arr m = cmap (slots t1) /\ LWF hashf (slots t1) (length (slots t1)) /\
    HE (slots t1) /\
    nd = cmap (slots t2) /\ (forall x, resident (slots t2) x -> resident (slots t1) x).
Proof.
  intros (op & t1 & t2 & _ & _ & Hc & LW1 & He1 & _ & End & _ & _ & _ & _ & Sub). exists t1, t2.
  repeat (split; [assumption|]). exact Sub.
Qed.

Lemma cur_store_item m i x :
  (data m < length (arrs m))%nat -> cur_arr (store_item m (data m) i x) = set_item (cur_arr m) i x.
Proof. intros H. unfold cur_arr, store_item. cbn [upd_arr data]. apply getarr_upd_same. exact H. Qed.

Lemma cur_store_tag m i t :
  (data m < length (arrs m))%nat -> cur_arr (store_tag m (data m) i t) = set_tag (cur_arr m) i t.
Proof. intros H. unfold cur_arr, store_tag. cbn [upd_arr data]. apply getarr_upd_same. exact H. Qed.

Lemma cur_store_data m a : cur_arr (store_data m a) = a.
Proof. unfold cur_arr. cbn [store_data data]. apply getarr_store_data_new. Qed.

Lemma setcc_setcc a : forall i c1 c2, setcc (setcc a i c1) i c2 = setcc a i c2.
Proof.
  induction a as [|x a IH]; intros i c1 c2; [reflexivity|].
  destruct i as [|i]; cbn [setcc]; [reflexivity|]. rewrite IH. reflexivity.
Qed.

Lemma set_item_cmap_half l dst it : set_item (cmap l) dst (Some it) = half_ins l dst it.
Proof. unfold set_item, half_ins, half_arr. rewrite getcc_cmap. reflexivity. Qed.

Lemma set_tag_half_ins l dst it :
  (dst < length l)%nat -> set_tag (half_ins l dst it) dst (ntag it) = cmap (setc l dst (Live it)).
Proof.
  intros H. unfold set_tag, half_ins, half_arr. rewrite getcc_setcc_same by (rewrite length_cmap; exact H).
  rewrite setcc_setcc. cbn [citem]. apply (setcc_cmap l dst (Live it)).
Qed.

Lemma set_item_cmap_replace l s old it :
  getc l s = Live old -> ntag old = ntag it ->
  set_item (cmap l) s (Some it) = cmap (setc l s (Live it)).
Proof.
  intros G E. unfold set_item. rewrite getcc_cmap, G. cbn [conc ctag]. rewrite E.
  apply (setcc_cmap l s (Live it)).
Qed.

Lemma set_tag_cmap_rem l i it0 : getc l i = Live it0 -> set_tag (cmap l) i 1 = half_rem l i it0.
Proof. intros G. unfold set_tag, half_rem, half_arr. rewrite getcc_cmap, G. reflexivity. Qed.

Lemma set_item_half_rem l i it0 :
  (i < length l)%nat -> set_item (half_rem l i it0) i None = cmap (setc l i Tomb).
Proof.
  intros H. unfold set_item, half_rem, half_arr. rewrite getcc_setcc_same by (rewrite length_cmap; exact H).
  rewrite setcc_setcc. cbn [ctag]. apply (setcc_cmap l i Tomb).
Qed.

Lemma set_tag_cmap_reclaim l i : getc l i = Tomb -> set_tag (cmap l) i 0 = cmap (setc l i Empty).
Proof. intros G. unfold set_tag. rewrite getcc_cmap, G. cbn [conc citem]. apply (setcc_cmap l i Empty). Qed.

Lemma ntag_same_key x y : consistent hashf x -> consistent hashf y -> ikey x = ikey y -> ntag x = ntag y.
Proof. unfold consistent, ntag. intros Cx Cy K. rewrite Cx, Cy, K. reflexivity. Qed.

Lemma data_lt m w t cc : Com m w t cc -> (data m < length (arrs m))%nat.
Proof. intros (_ & L & _). rewrite L. lia. Qed.

Lemma length_arrs_upd m d x : length (arrs (upd_arr m d x)) = length (arrs m).
Proof. unfold upd_arr. cbn [arrs]. apply length_set_nth. Qed.

Lemma Com_store_item m w t cc d i x : Com m w t cc -> Com (store_item m d i x) w t cc.
Proof. intros (G & L & E). split; [exact G|]. split; [|exact E]. unfold store_item. rewrite length_arrs_upd. exact L. Qed.
Lemma Com_store_tag m w t cc d i x : Com m w t cc -> Com (store_tag m d i x) w t cc.
Proof. intros (G & L & E). split; [exact G|]. split; [|exact E]. unfold store_tag. rewrite length_arrs_upd. exact L. Qed.

(* rs: the script still to run, the operation in progress included.  The segment wrote m0 to memory,
   and either parks inside the operation (same sequential state, no completion observed) or completes
   the head operation exactly as sstep does. *)
Definition StepOut (m0 : mem) (rs : list wop) (c : cstate) (a : astate) (res : wres * list wop) : Prop :=
  let '((m', w', pc', o), ws') := res in
  m' = m0 /\
  ((is_completion o = false /\ exists pend', WInvAt m' w' pc' ws' c a pend' /\ pend' ++ ws' = rs) \/
   (pc' = WB /\ exists op a' r1 r2,
      rs = op :: ws' /\ wastep a op = Some a' /\ o = [0; r1; r2] /\
      snd (sstep c op) = (r1, r2) /\ WInvAt m' w' WB ws' (fst (sstep c op)) a' [])).

Lemma out_park m w pc p ws c a pend :
  Rel hashf c a -> wproto a (pend ++ ws) -> Com m w (ctab c) (ccur c) -> Fnd m w c a ->
  is_completion [p; 0; 0] = false -> PcInv m w pc c pend ->
  StepOut m (pend ++ ws) c a (wpark m w pc p, ws).
Proof.
  intros R P Cm Fd Ep PI. split; [reflexivity|]. left. split; [exact Ep|]. exists pend.
  split; [|reflexivity]. split; [exact R|]. split; [exact P|]. split; [exact Cm|]. split; [exact Fd|exact PI].
Qed.

Lemma out_done m w ws c a op c' r1 r2 :
  Rel hashf c a -> wproto a (op :: ws) -> sstep c op = (c', (r1, r2)) ->
  Com m w (ctab c') (ccur c') -> (forall a', wastep a op = Some a' -> Fnd m w c' a') ->
  cur_arr m = cmap (slots (ctab c')) -> Priv w (ctab c') ->
  StepOut m (op :: ws) c a (wdone m w r1 r2, ws).
Proof.
  intros R (a' & S & P) SS Cm Fd Hc Pv. pose proof (sstep_refines c a op a' R S) as R'.
  split; [reflexivity|]. right. split; [reflexivity|]. exists op, a', r1, r2. rewrite SS in R' |- *.
  split; [reflexivity|]. split; [exact S|]. split; [reflexivity|]. split; [reflexivity|].
  split; [exact R'|]. split; [exact P|]. split; [exact Cm|]. split; [apply Fd; exact S|].
  split; [reflexivity|]. split; assumption.
Qed.

(* the common case: cursor and matched slot are kept *)
Lemma out_keep m w ws c a op t' r1 r2 :
  Rel hashf c a -> wproto a (op :: ws) -> sstep c op = (mkc t' (ccur c) (cfnd c), (r1, r2)) ->
  nonprobe op \/ (exists k h, op = WRemove k h) /\ Fnd m w c a ->
  Com m w t' (ccur c) -> cur_arr m = cmap (slots t') -> Priv w t' ->
  StepOut m (op :: ws) c a (wdone m w r1 r2, ws).
Proof.
  intros R P SS Kind Cm Hc Pv. apply (out_done m w ws c a op _ r1 r2 R P SS Cm); [|exact Hc|exact Pv].
  intros a' S k s it Ph F. destruct Kind as [NP|((k0 & h0 & Eo) & Fd)].
  - exfalso. apply (wastep_phase a op a' NP S k Ph).
  - subst op. rewrite (proj1 (proj2 (wastep_remove a k0 h0 a' S))) in Ph. apply (Fd k s it Ph F).
Qed.

Lemma Com_gen m w t cc t' : Com m w t cc -> gen t' = gen t -> Com m w t' cc.
Proof. intros (G & L) E. split; [rewrite E; exact G|exact L]. Qed.

Lemma Com_store_data m w t cc nd t' : Com m w t cc -> gen t' = gen t + 1 -> Com (store_data m nd) w t' cc.
Proof.
  intros (G & L & E) Eg. unfold Com. cbn [store_data data arrs]. rewrite app_length, Eg, <- G, L.
  cbn [length]. split; [lia|]. split; [lia|exact E].
Qed.

Lemma repl_store m w ws c a op s it r1 r2 :
  Rel hashf c a -> wproto a (op :: ws) -> Com m w (ctab c) (ccur c) ->
  cur_arr m = cmap (slots (ctab c)) -> ReplMid w c op s it r1 r2 ->
  StepOut (store_item m (data m) s (Some it)) (op :: ws) c a
    (wdone (store_item m (data m) s (Some it)) w r1 r2, ws).
Proof.
  intros R P Cm Hc (old & G & K & Cit & NP & _ & Lv & Tb & SS). destruct (Rel_parts c a R) as (C & _ & _).
  apply (out_keep _ w ws c a op _ r1 r2 R P SS (or_introl NP)).
  - apply Com_store_item. exact Cm.
  - rewrite (cur_store_item m s (Some it) (data_lt _ _ _ _ Cm)), Hc.
    apply (set_item_cmap_replace _ _ old _ G).
    apply ntag_same_key; [apply (lwf_cons _ _ _ (wc_l _ _ C) s old G)|exact Cit|symmetry; exact K].
  - repeat split; assumption.
Qed.

Lemma half_ins_store m w t cc l dst it :
  Com m w t cc -> cur_arr m = cmap l -> cur_arr (store_item m (data m) dst (Some it)) = half_ins l dst it.
Proof. intros Cm Hc. rewrite (cur_store_item m dst _ (data_lt _ _ _ _ Cm)), Hc. apply set_item_cmap_half. Qed.

(* maybeGrow after an insert: the operation ends, or the rebuilt array waits at yield 251 *)
Lemma grow_out m w ws c a op t1 :
  Rel hashf c a -> wproto a (op :: ws) -> nonprobe op -> Com m w (ctab c) (ccur c) -> Fnd m w c a ->
  cur_arr m = cmap (slots t1) -> Priv w t1 -> WFcore hashf t1 -> gen t1 = gen (ctab c) ->
  HE (slots t1) ->
  sstep c op = (mkc (maybe_grow t1) (ccur c) (cfnd c), (0, 0)) ->
  StepOut m (op :: ws) c a (w_maybe_grow m w 0 0, ws).
Proof.
  intros R P NP Cm Fd Hc (Plv & Ptb & Ppin) C1 G1 He1 SS.
  pose proof (LWF_hash_ok _ _ (wc_l _ _ C1)) as HO1.
  unfold w_maybe_grow. rewrite Hc, length_cmap, Plv, Ptb.
  unfold maybe_grow in SS. fold (nslots t1).
  destruct (Z.ltb_spec ((live t1 + tombs t1) * htLoadDen) (Z.of_nat (nslots t1) * htLoadNum)) as [L|L].
  - apply (out_keep m w ws c a op t1 0 0 R P SS (or_introl NP) (Com_gen _ _ _ _ _ Cm G1) Hc).
    repeat split; assumption.
  - set (newN := if (live t1 * htLoadDen >=? Z.of_nat (nslots t1) * htLoadNum) then (nslots t1 * 2)%nat else nslots t1) in *.
    pose proof (wc_n _ _ C1) as N. pose proof (wc_live _ _ C1) as Lv.
    pose proof (cnt_total (slots t1)) as T. unfold nslots in N, T.
    assert (H8 : (8 <= newN)%nat /\ (live t1 * htLoadDen < Z.of_nat newN * htLoadNum)).
    { subst newN. unfold nslots, htLoadDen, htLoadNum in *. rewrite Z.geb_leb.
      destruct (Z.leb_spec (Z.of_nat (length (slots t1)) * 3) (live t1 * 4)); lia. }
    destruct H8 as [H8 HL].
    destruct (rehash_spec hashf t1 newN C1 H8 HL) as (W2 & AM & G2 & _).
    destruct (crehash_cmap (slots t1) newN HO1) as [CR HO2].
    pose proof (wc_err _ _ (wf_core _ _ W2)) as E2. pose proof (lwf_uniq _ _ _ (wc_l _ _ (wf_core _ _ W2))) as U2.
    unfold rehash, amap in SS, E2, G2, U2, AM.
    destruct (fold_left (reinsert newN) (slots t1) (repeat Empty newN, false)) as [nl e] eqn:F.
    cbn [fst snd] in CR, HO2. cbn [herr] in E2. rewrite (wc_err _ _ C1) in E2. cbn [orb] in E2. subst e.
    rewrite CR. apply (out_park m w _ 251 ws c a [op] R P Cm Fd eq_refl).
    exists op, t1. eexists. split; [reflexivity|]. split; [exact NP|]. split; [exact Hc|].
    split; [apply (wc_l _ _ C1)|]. split; [exact He1|]. split; [exact SS|]. cbn [slots live tombs pinned gen].
    split; [reflexivity|]. split; [apply ccount_live_cmap; exact HO2|]. split; [reflexivity|].
    split; [reflexivity|]. split; [rewrite G1; reflexivity|]. cbn [slots] in U2, AM.
    intros x Rx. pose proof (amapl_present nl x U2 Rx) as Q. rewrite AM in Q. apply (amapl_some _ _ _ Q).
Qed.

Lemma ins_tag_store m w ws c a op dst it tbf :
  Rel hashf c a -> wproto a (op :: ws) -> Com m w (ctab c) (ccur c) -> Fnd m w c a ->
  cur_arr m = half_ins (slots (ctab c)) dst it -> InsMid w c op dst it tbf ->
  StepOut (store_tag m (data m) dst (ntag it)) (op :: ws) c a
    (w_maybe_grow (store_tag m (data m) dst (ntag it)) (wp_set w (wlive w + 1) tbf (wpin w)) 0 0, ws).
Proof.
  intros R P Cm Fd Hc ((Hd & NL & Cit & Rch & Fresh & (e & Ne & He & Ge)) & NP & _ & Etb & Lv & SS).
  destruct (Rel_parts c a R) as (C & _ & _).
  set (t := ctab c) in *. set (l := slots t) in *.
  destruct (insert_core hashf t dst it tbf (wpin w) C Cit Fresh Hd NL Rch Etb) as [C1 _].
  apply (grow_out _ _ ws c a op (with_slots t (setc l dst (Live it)) (live t + 1) tbf (wpin w)) R P NP).
  - apply Com_store_tag. exact Cm.
  - exact Fd.
  - rewrite (cur_store_tag m dst (ntag it) (data_lt _ _ _ _ Cm)), Hc. apply set_tag_half_ins. exact Hd.
  - unfold Priv. cbn [wp_set wlive wtombs wpin with_slots live tombs pinned]. rewrite Lv. repeat split; reflexivity.
  - exact C1.
  - reflexivity.
  - cbn [with_slots slots]. exists e. rewrite length_setc. split; [exact He|].
    rewrite getc_setc_other; [exact Ge|]. intros Q. apply Ne. symmetry. exact Q.
  - exact SS.
Qed.

Lemma ctag_conc_is0 c : (forall x, c = Live x -> 0 <= ihash x) -> (ctag (conc c) =? 0) = is_empty c.
Proof.
  intros H. destruct c as [| |x]; try reflexivity. cbn [conc ctag is_empty]. unfold ntag.
  pose proof (norm_ge2 _ (H x eq_refl)). destruct (Z.eqb_spec (norm (ihash x)) 0); [lia|reflexivity].
Qed.
Lemma ctag_conc_is1 c : (forall x, c = Live x -> 0 <= ihash x) -> (ctag (conc c) =? 1) = is_tomb c.
Proof.
  intros H. destruct c as [| |x]; try reflexivity. cbn [conc ctag is_tomb]. unfold ntag.
  pose proof (norm_ge2 _ (H x eq_refl)). destruct (Z.eqb_spec (norm (ihash x)) 1); [lia|reflexivity].
Qed.

(* the loop head of reclaimTombs: one more store (park at 233) or the Remove is over *)
Lemma reclaim_head_out m w ws c a k h l' i fuel l2 tb2 :
  let t := ctab c in let n := length (slots t) in
  Rel hashf c a -> wproto a (WRemove k h :: ws) -> Com m w t (ccur c) -> Fnd m w c a ->
  cur_arr m = cmap l' -> LWF hashf l' n -> (i < n)%nat ->
  getc l' (next_in n i) = Empty -> is_pin (pinned t) (next_in n i) = false ->
  (ntomb l' <= fuel)%nat -> reclaim_loop fuel l' n i (pinned t) (wtombs w) = (l2, tb2) ->
  wlive w = live t - 1 -> wpin w = pinned t ->
  sstep c (WRemove k h) = (mkc (with_slots t l2 (live t - 1) tb2 (pinned t)) (ccur c) (cfnd c), (1, 0)) ->
  StepOut m (WRemove k h :: ws) c a (w_reclaim_head m w i, ws).
Proof.
  intros t n R P Cm Fd Hc LW Hi Gnx Pnx NT RL Lv Pin SS.
  pose proof (LWF_hash_ok _ _ LW) as HO.
  unfold w_reclaim_head. rewrite Hc, getcc_cmap, Pin.
  rewrite (ctag_conc_is1 (getc l' i)) by (intros x E; apply (HO i x E)).
  destruct (negb (is_pin (pinned t) i) && is_tomb (getc l' i))%bool eqn:Cond.
  - apply andb_true_iff in Cond. destruct Cond as [Cp Ct]. apply negb_true_iff in Cp.
    assert (G : getc l' i = Tomb) by (destruct (getc l' i); try discriminate Ct; reflexivity).
    assert (TP : (0 < ntomb l')%nat).
    { pose proof (cnt_setc is_tomb l' i Empty ltac:(rewrite (lwf_len _ _ _ LW); exact Hi)) as CT.
      rewrite G in CT. cbn [is_tomb] in CT. unfold ntomb. lia. }
    destruct fuel as [|f]; [lia|].
    apply (out_park m w _ 233 ws c a [WRemove k h] R P Cm Fd eq_refl).
    exists k, h, l', f, l2, tb2. repeat (split; [reflexivity || assumption|]). exact SS.
  - assert (E : (l2, tb2) = (l', wtombs w)).
    { rewrite <- RL. destruct fuel as [|f]; [reflexivity|]. cbn [reclaim_loop].
      destruct (is_pin (pinned t) i); [reflexivity|]. cbn [negb andb] in Cond.
      destruct (getc l' i); try reflexivity. discriminate Cond. }
    injection E as E1 E2. subst l2 tb2.
    apply (out_keep m w ws c a (WRemove k h) _ 1 0 R P SS); [right; split; [exists k, h; reflexivity|exact Fd]|exact Cm|exact Hc|].
    repeat split; assumption.
Qed.

Lemma step_W233 m w ws c a pend i res :
  WInvAt m w (W233 i) ws c a pend -> wstep m w (W233 i) ws = Some res ->
  StepOut (store_tag m (data m) i 0) (pend ++ ws) c a res.
Proof.
  intros (R & P & Cm & Fd & k & h & l' & f & l2 & tb2 & Ep & Hc & LW & Hi & G & Pi & Gnx & Pnx & NT & RL & Lv & Pin & SS) E.
  cbn [wstep] in E. injection E as E. subst res pend. set (t := ctab c) in *. set (n := length (slots t)) in *.
  pose proof (lwf_len _ _ _ LW) as Len.
  rewrite Hc, length_cmap, Len.
  apply (reclaim_head_out _ _ ws c a k h (setc l' i Empty) (prev_in n i) f l2 tb2 R P).
  - apply Com_store_tag. exact Cm.
  - exact Fd.
  - rewrite (cur_store_tag m i 0 (data_lt _ _ _ _ Cm)), Hc. apply set_tag_cmap_reclaim. exact G.
  - apply LWF_set_empty; [exact LW|exact Gnx|rewrite G; reflexivity].
  - apply prev_in_lt. exact Hi.
  - fold t. fold n. rewrite next_prev by exact Hi. apply getc_setc_same. rewrite Len. exact Hi.
  - fold t. fold n. rewrite next_prev by exact Hi. exact Pi.
  - pose proof (cnt_setc is_tomb l' i Empty ltac:(rewrite Len; exact Hi)) as CT.
    rewrite G in CT. cbn [is_tomb] in CT. unfold ntomb in *. lia.
  - cbn [wp_set wtombs]. fold t. fold n. rewrite <- RL. cbn [reclaim_loop]. rewrite Pi, G. reflexivity.
  - exact Lv.
  - exact Pin.
  - exact SS.
Qed.

Lemma ntomb_le_length l : (ntomb l <= length l)%nat.
Proof. pose proof (cnt_total l). lia. Qed.

Lemma step_W232 m w ws c a pend i res :
  WInvAt m w (W232 i) ws c a pend -> wstep m w (W232 i) ws = Some res ->
  StepOut (store_item m (data m) i None) (pend ++ ws) c a res.
Proof.
  intros (R & P & Cm & Fd & k & h & it0 & Ep & Hc & (Plv & Ptb & Ppin) & G & l2 & tb2 & RT & SS) E.
  cbn [wstep] in E. injection E as E. subst res pend.
  set (m1 := store_item m (data m) i None) in *. set (w1 := wp_set w (wlive w - 1) (wtombs w + 1) (wpin w)) in *.
  set (nx := next_in (length (cur_arr m)) i) in *. destruct (Rel_parts c a R) as (C & _ & _).
  set (t := ctab c) in *. set (l := slots t) in *. set (n := length l) in *.
  pose proof (getc_live_lt _ _ _ G) as Hi. fold n in Hi.
  assert (LW1 : LWF hashf (setc l i Tomb) n) by (apply LWF_set_tomb; apply (wc_l _ _ C)).
  pose proof (LWF_hash_ok _ _ LW1) as HO1.
  assert (Hc1 : cur_arr m1 = cmap (setc l i Tomb)).
  { unfold m1. rewrite (cur_store_item m i None (data_lt _ _ _ _ Cm)), Hc. apply set_item_half_rem. exact Hi. }
  assert (Cm1 : Com m1 w1 t (ccur c)) by (apply Com_store_item; exact Cm).
  assert (Enx : nx = next_in n i).
  { unfold nx. rewrite Hc. unfold half_rem, half_arr. rewrite length_setcc, length_cmap. reflexivity. }
  (* nothing to reclaim: the Remove is over *)
  assert (Done : (setc l i Tomb, tombs t + 1) = (l2, tb2) ->
                 StepOut m1 ([WRemove k h] ++ ws) c a (wdone m1 w1 1 0, ws)).
  { intros E. injection E as E1 E2. subst l2 tb2.
    apply (out_keep m1 w1 ws c a (WRemove k h) _ 1 0 R P SS);
      [right; split; [exists k, h; reflexivity|exact Fd]|exact Cm1|exact Hc1|].
    unfold Priv, w1. cbn [wp_set wlive wtombs wpin]. rewrite Plv, Ptb, Ppin. repeat split; reflexivity. }
  rewrite Hc1, getcc_cmap, Enx, Ppin.
  rewrite (ctag_conc_is0 (getc (setc l i Tomb) (next_in n i))) by (intros x E; apply (HO1 _ x E)).
  unfold reclaim_tombs in RT.
  destruct (is_pin (pinned t) (next_in n i)) eqn:Pnx; cbn [orb]; [exact (Done RT)|].
  destruct (getc (setc l i Tomb) (next_in n i)) as [| |x] eqn:Gnx; cbn [is_empty negb]; try exact (Done RT).
  apply (reclaim_head_out m1 w1 ws c a k h (setc l i Tomb) i n l2 tb2 R P Cm1 Fd Hc1 LW1 Hi Gnx Pnx).
  - rewrite <- (lwf_len _ _ _ LW1). apply ntomb_le_length.
  - unfold w1. cbn [wp_set wtombs]. rewrite Ptb. exact RT.
  - unfold w1. cbn [wp_set wlive]. rewrite Plv. reflexivity.
  - exact Ppin.
  - exact SS.
Qed.

Lemma remove_entry_out m w ws c a k h it :
  Rel hashf c a -> wproto a (WRemove k h :: ws) -> Com m w (ctab c) (ccur c) -> Fnd m w c a ->
  cur_arr m = cmap (slots (ctab c)) -> Priv w (ctab c) -> lookup (ctab c) h k = Some it ->
  StepOut m (WRemove k h :: ws) c a (w_remove_entry m w it, ws).
Proof.
  intros R P Cm Fd Hc Pv Lk.
  destruct (Rel_parts c a R) as (C & L & HO).
  set (t := ctab c) in *. set (l := slots t) in *.
  assert (SS0 : sstep c (WRemove k h) =
                let '(t', ok) := remove_exact t it in (mkc t' (ccur c) (cfnd c), (b2z ok, 0))).
  { cbn [sstep]. fold t. rewrite Lk. reflexivity. }
  unfold w_remove_entry. rewrite Hc, length_cmap. fold l.
  rewrite (cfind_exact_cmap l (length l) it HO).
  unfold remove_exact in SS0. fold l in SS0. unfold nslots in SS0. fold l in SS0.
  destruct (find_exact (length l) l (length l) (home_in (length l) (ihash it)) it) as [[i|]|] eqn:F.
  - apply find_exact_hit in F. destruct F as (d & cur & _ & _ & G & _).
    destruct (reclaim_tombs (setc l i Tomb) (length l) i (pinned t) (tombs t + 1)) as [l2 tb2] eqn:RT.
    apply (out_park m w _ 231 ws c a [WRemove k h] R P Cm Fd eq_refl).
    exists k, h, cur. split; [reflexivity|]. split; [exact Hc|].
    split; [exact Pv|]. split; [exact G|]. exists l2, tb2. split; [exact RT|exact SS0].
  - apply (out_keep m w ws c a (WRemove k h) t 0 0 R P SS0);
      [right; split; [exists k, h; reflexivity|exact Fd]|exact Cm|exact Hc|exact Pv].
  - apply find_exact_fuel in F. destruct (full_walk_absurd hashf t _ C L F).
Qed.

Lemma of_lookup_out m w ws c a k h r f :
  Rel hashf c a -> wproto a (WRemove k h :: ws) -> Com m w (ctab c) (ccur c) -> Fnd m w c a ->
  cur_arr m = cmap (slots (ctab c)) -> Priv w (ctab c) -> lk_run f m r k h = Some (lookup (ctab c) h k) ->
  StepOut m (WRemove k h :: ws) c a (w_of_lookup m w k h r, ws).
Proof.
  intros R P Cm Fd Hc Pv Run.
  destruct r as [d i|d i| |it]; cbn [lk_run w_of_lookup] in *.
  - apply (out_park m w _ 202 ws c a [WRemove k h] R P Cm Fd eq_refl).
    split; [reflexivity|]. split; [exact Hc|]. split; [exact Pv|]. exists f. exact Run.
  - apply (out_park m w _ 203 ws c a [WRemove k h] R P Cm Fd eq_refl).
    split; [reflexivity|]. split; [exact Hc|]. split; [exact Pv|]. exists f. exact Run.
  - assert (SS : sstep c (WRemove k h) = (mkc (ctab c) (ccur c) (cfnd c), (0, 0))).
    { cbn [sstep]. destruct f; injection Run as Run; rewrite <- Run, <- cstate_eta; reflexivity. }
    apply (out_keep m w ws c a (WRemove k h) _ 0 0 R P SS);
      [right; split; [exists k, h; reflexivity|exact Fd]|exact Cm|exact Hc|exact Pv].
  - apply (remove_entry_out m w ws c a k h it R P Cm Fd Hc Pv). destruct f; injection Run as Run; symmetry; exact Run.
Qed.

Lemma lk202_cmap m l k i :
  cur_arr m = cmap l -> hash_ok l ->
  lk_from202 m (data m) i (hashf k) =
  match getc l i with
  | Empty => LkMiss
  | Tomb => LkPark202 (data m) (next_in (length l) i)
  | Live x => if ntag x =? norm (hashf k) then LkPark203 (data m) i else LkPark202 (data m) (next_in (length l) i)
  end.
Proof.
  intros Hc HO. unfold lk_from202. fold (cur_arr m). rewrite Hc, length_cmap, getcc_cmap.
  destruct (getc l i) as [| |x] eqn:G; cbn [conc ctag cempty]; [reflexivity| |].
  - pose proof (norm_ge2 _ (hashf_nonneg k)). destruct (Z.eqb_spec 1 (norm (hashf k))); [lia|reflexivity].
  - pose proof (norm_ge2 _ (HO i x G)). unfold ntag at 1. destruct (Z.eqb_spec (norm (ihash x)) 0); [lia|reflexivity].
Qed.

Lemma lk203_cmap m l k i x :
  cur_arr m = cmap l -> getc l i = Live x ->
  lk_from203 m (data m) i k = if ikey x =? k then LkHit x else LkPark202 (data m) (next_in (length l) i).
Proof. intros Hc G. unfold lk_from203. fold (cur_arr m). rewrite Hc, length_cmap, getcc_cmap, G. reflexivity. Qed.

(* tag and key are compared in two segments *)
Lemma lk_run_cmap m l k :
  cur_arr m = cmap l -> hash_ok l ->
  forall fuel i r, lookup_from fuel l (length l) i (hashf k) k = Some r ->
  exists f, lk_run f m (LkPark202 (data m) i) k (hashf k) = Some r.
Proof.
  intros Hc HO. induction fuel as [|fuel IH]; intros i r E; [discriminate E|]. cbn [lookup_from] in E.
  destruct (getc l i) as [| |x] eqn:G.
  - exists 1%nat. cbn [lk_run]. rewrite (lk202_cmap m l k i Hc HO), G. exact E.
  - destruct (IH _ _ E) as [f F]. exists (S f). cbn [lk_run]. rewrite (lk202_cmap m l k i Hc HO), G. exact F.
  - unfold matches in E. fold (ntag x) in E.
    destruct (ntag x =? norm (hashf k)) eqn:T; cbn [andb] in E.
    + destruct (ikey x =? k) eqn:K.
      * exists 2%nat. cbn [lk_run]. rewrite (lk202_cmap m l k i Hc HO), G, T. cbn [lk_run].
        rewrite (lk203_cmap m l k i x Hc G), K. exact E.
      * destruct (IH _ _ E) as [f F]. exists (S (S f)). cbn [lk_run]. rewrite (lk202_cmap m l k i Hc HO), G, T.
        cbn [lk_run]. rewrite (lk203_cmap m l k i x Hc G), K. exact F.
    + destruct (IH _ _ E) as [f F]. exists (S f). cbn [lk_run]. rewrite (lk202_cmap m l k i Hc HO), G, T. exact F.
Qed.

Lemma step_W201 m w ws c a pend k h :
  WInvAt m w (W201 k h) ws c a pend ->
  StepOut m (pend ++ ws) c a (w_of_lookup m w k h (lk_from201 m h), ws).
Proof.
  intros (R & P & Cm & Fd & Ep & Hc & Pv). subst pend. pose proof P as (a' & S & _).
  destruct (Rel_parts c a R) as (C & L & HO). pose proof (proj1 (wastep_remove a k h a' S)) as Eh. subst h.
  set (t := ctab c) in *. set (l := slots t) in *.
  assert (Run : exists f, lk_run f m (lk_from201 m (hashf k)) k (hashf k) = Some (lookup t (hashf k) k)).
  { unfold lk_from201, lookup, nslots. fold (cur_arr m). fold l. rewrite Hc, length_cmap.
    destruct (lookup_from (length l) l (length l) (home_in (length l) (hashf k)) (hashf k) k) as [r|] eqn:E;
      [apply (lk_run_cmap m l k Hc HO _ _ _ E)|].
    pose proof (lookup_from_spec l (length l) (hashf k) k (length l) (home_in (length l) (hashf k))) as W.
    rewrite E in W. destruct (full_walk_absurd hashf t _ C L W). }
  destruct Run as [f Run]. apply (of_lookup_out m w ws c a k _ _ f R P Cm Fd Hc Pv Run).
Qed.

Lemma other_empty t dst :
  WFcore hashf t -> load_ok t ->
  exists e, e <> dst /\ (e < length (slots t))%nat /\ getc (slots t) e = Empty.
Proof.
  intros C L. destruct C as [N _ _ Lv Tb]. unfold load_ok, nslots, htLoadDen, htLoadNum in *.
  set (l := slots t) in *.
  destruct (le_lt_dec (length l) dst) as [Hd|Hd].
  - destruct (empty_exists l) as (e & He & Ge); [lia|]. exists e. split; [lia|]. split; assumption.
  - pose proof (cnt_setc is_live l dst Tomb Hd) as CL. pose proof (cnt_setc is_tomb l dst Tomb Hd) as CT.
    cbn [is_live is_tomb] in CL, CT.
    destruct (empty_exists (setc l dst Tomb)) as (e & He & Ge).
    { rewrite length_setc. unfold nlive, ntomb in *.
      destruct (is_live (getc l dst)); destruct (is_tomb (getc l dst)); lia. }
    rewrite length_setc in He. exists e.
    assert (Ne : e <> dst).
    { intros Q. subst e. rewrite getc_setc_same in Ge by exact Hd. discriminate Ge. }
    split; [exact Ne|]. split; [exact He|]. rewrite getc_setc_other in Ge; [exact Ge|].
    intros Q. apply Ne. symmetry. exact Q.
Qed.

Lemma cwalk_top_cmap l h k : hash_ok l -> cwalk_top (cmap l) h k = walk_for (length l) l (length l) (home_in (length l) h) None h k.
Proof. intros H. unfold cwalk_top. rewrite length_cmap. apply cwalk_cmap. exact H. Qed.

Lemma store_entry_out m w ws c a op it (report : bool) :
  let t := ctab c in
  let t0 := with_slots t (slots t) (live t) (tombs t) (wpin w) in
  Rel hashf c a -> wproto a (op :: ws) -> nonprobe op -> In it (op_items op) -> Com m w t (ccur c) -> Fnd m w c a ->
  cur_arr m = cmap (slots t) -> wlive w = live t -> wtombs w = tombs t -> consistent hashf it ->
  sstep c op = (mkc (fst (store t0 it)) (ccur c) (cfnd c),
                if report then match snd (store t0 it) with Some p => (1, ival p) | None => (0, 0) end
                else (0, 0)) ->
  StepOut m (op :: ws) c a (w_store_entry m w it report, ws).
Proof.
  intros t t0 R P NP Ii Cm Fd Hc Lv Tb Cit SS.
  destruct (Rel_parts c a R) as (C & L & HO).
  set (l := slots t) in *.
  unfold w_store_entry. rewrite Hc, (cwalk_top_cmap l _ _ HO).
  unfold store in SS. unfold walk, nslots in SS. unfold t0 in SS. cbn [with_slots slots live tombs pinned] in SS. fold l in SS.
  assert (Ew : walk t (hashf (ikey it)) (ikey it) =
               walk_for (length l) l (length l) (home_in (length l) (ihash it)) None (ihash it) (ikey it)).
  { unfold consistent in Cit. rewrite <- Cit. reflexivity. }
  destruct (walk_for (length l) l (length l) (home_in (length l) (ihash it)) None (ihash it) (ikey it))
    as [dst tomb|s cur|] eqn:W.
  - destruct (walk_empty_facts hashf t (ikey it) dst tomb C Ew) as (Abs & Hd & Rch & Gd).
    unfold nslots in Hd, Rch. fold l in Abs, Hd, Rch, Gd.
    assert (Rch' : reach_at l (length l) (ihash it) dst).
    { unfold consistent in Cit. rewrite Cit. exact Rch. }
    cbn [fst snd] in SS.
    assert (IF : InsFacts l dst it).
    { split; [exact Hd|]. split; [rewrite Gd; destruct tomb; reflexivity|]. split; [exact Cit|].
      split; [exact Rch'|]. split; [exact Abs|]. apply (other_empty t dst C L). }
    (* park at 211; when dst is a tombstone the private tombstone count has already been decremented *)
    destruct tomb;
      [apply (out_park m (wp_set w (wlive w) (wtombs w - 1) (wpin w)) _ 211 ws c a [op] R P Cm Fd eq_refl)
      |apply (out_park m w _ 211 ws c a [op] R P Cm Fd eq_refl)]; exists op;
      (split; [reflexivity|]); (split; [exact Hc|]); (split; [exact IF|]); (split; [exact NP|]); (split; [exact Ii|]);
      fold t l; cbn [wp_set wlive wtombs wpin]; rewrite Gd; cbn [is_tomb];
      (split; [lia|]); (split; [exact Lv|]); rewrite Tb; destruct report; exact SS.
  - destruct (walk_found_facts t (hashf (ikey it)) (ikey it) s cur Ew) as (G & _ & K).
    cbn [fst snd] in SS.
    assert (RM : forall r1 r2, sstep c op = (mkc (with_slots t (setc l s (Live it)) (live t) (tombs t) (wpin w))
                                                 (ccur c) (cfnd c), (r1, r2)) ->
                 StepOut m (op :: ws) c a (wpark m w (W213 s it r1 r2) 213, ws)).
    { intros r1 r2 SS'. apply (out_park m w _ 213 ws c a [op] R P Cm Fd eq_refl).
      exists op. split; [reflexivity|]. split; [exact Hc|].
      exists cur. fold t. fold l. split; [exact G|]. split; [symmetry; exact K|]. split; [exact Cit|].
      split; [exact NP|]. split; [exact Ii|]. split; [exact Lv|]. split; [exact Tb|exact SS']. }
    destruct report; apply RM; exact SS.
  - exfalso. apply (walk_fuel_absurd hashf t (hashf (ikey it)) (ikey it) C L Ew).
Qed.

Lemma entry_swap m w ws c a it res :
  WInvAt m w WB (WSwap it :: ws) c a [] -> wstep m w WB (WSwap it :: ws) = Some res ->
  StepOut m (WSwap it :: ws) c a res.
Proof.
  intros (R & P & Cm & Fd & _ & Hc & (Plv & Ptb & Ppin)) E. cbn [wstep] in E. injection E as E. subst res.
  pose proof P as (a' & S & _).
  destruct (wastep_ins a _ a' it S (or_introl eq_refl)) as (Io & _ & _ & Ph).
  pose proof (proj1 (ins_ok_spec hashf a it Io)) as Cit.
  pose proof (r_phase _ _ _ R) as PI. rewrite Ph in PI. destruct PI as (W & s & old & Ef & G & Ko).
  rewrite (Fd _ s old Ph Ef).
  apply (out_park m w _ 214 ws c a [WSwap it] R P Cm Fd eq_refl).
  exists (WSwap it). split; [reflexivity|]. split; [exact Hc|]. split; [|reflexivity].
  exists old. split; [exact G|]. split; [symmetry; exact Ko|]. split; [exact Cit|]. split; [exact I|].
  split; [left; reflexivity|]. split; [exact Plv|]. split; [exact Ptb|]. cbn [sstep]. rewrite Ef, Ppin. reflexivity.
Qed.

Lemma entry_probe m w ws c a k h res :
  WInvAt m w WB (WProbe k h :: ws) c a [] -> wstep m w WB (WProbe k h :: ws) = Some res ->
  StepOut m (WProbe k h :: ws) c a res.
Proof.
  intros (R & P & (Cg & Cl & Ce & _) & _ & _ & Hc & (Plv & Ptb & Ppin)) E. cbn [wstep] in E. injection E as E. subst res.
  destruct (Rel_parts c a R) as (C & L & HO).
  set (t := ctab c) in *. set (l := slots t) in *.
  rewrite Hc, (cwalk_top_cmap l _ _ HO).
  assert (SS : sstep c (WProbe k h) =
               let '(t', found, cur) := probe t h k in
               (mkc t' cur found, match found with Some (_, it) => (1, ival it) | None => (0, 0) end))
    by reflexivity.
  unfold probe, walk, nslots in SS. fold l in SS.
  assert (Ew : walk t h k = walk_for (length l) l (length l) (home_in (length l) h) None h k) by reflexivity.
  destruct (walk_for (length l) l (length l) (home_in (length l) h) None h k) as [j tomb|s x|] eqn:W.
  - apply (out_done m _ ws c a (WProbe k h) _ 0 0 R P SS).
    + split; [exact Cg|]. split; [exact Cl|]. split; [exact Ce|].
      split; [symmetry; exact Cg|]. split; reflexivity.
    + intros a' _ k0 s0 it0 _ F. discriminate F.
    + exact Hc.
    + repeat split; assumption.
  - apply (out_done m _ ws c a (WProbe k h) _ 1 (ival x) R P SS).
    + split; [exact Cg|]. split; [exact Cl|]. split; [exact Ce|]. repeat split; reflexivity.
    + intros a' _ k0 s0 it0 _ F. injection F as F1 F2. subst s0. reflexivity.
    + exact Hc.
    + repeat split; assumption.
  - exfalso. apply (walk_fuel_absurd hashf t h k C L Ew).
Qed.

Lemma entry_publish m w ws c a it res :
  WInvAt m w WB (WPublish it :: ws) c a [] -> wstep m w WB (WPublish it :: ws) = Some res ->
  StepOut m (WPublish it :: ws) c a res.
Proof.
  intros (R & P & Cm & Fd & _ & Hc & (Plv & Ptb & Ppin)) E. cbn [wstep] in E. injection E as E. subst res.
  set (w0 := wp_set w (wlive w) (wtombs w) None) in *. pose proof P as (a' & S & _).
  destruct (wastep_ins a _ a' it S (or_introl eq_refl)) as (Io & _ & _ & Phase).
  pose proof (proj1 (ins_ok_spec hashf a it Io)) as Cit.
  destruct (Rel_parts c a R) as (C & L & HO).
  set (t := ctab c) in *. set (l := slots t) in *.
  pose proof Cm as (Gg & _ & _ & Cg & Cs & Ct).
  assert (SS : sstep c (WPublish it) = (mkc (publish t it (ccur c)) (ccur c) (cfnd c), (0, 0))) by reflexivity.
  (* the defensive path *)
  assert (Fallback : cgen (ccur c) <> gen t ->
            StepOut m (WPublish it :: ws) c a (w_store_entry m w0 it false, ws)).
  { intros NE.
    apply (store_entry_out m w0 ws c a (WPublish it) it false R P I (or_introl eq_refl) Cm Fd Hc Plv Ptb Cit).
    rewrite SS. unfold publish. fold t. fold l.
    destruct (Z.eqb_spec (cgen (ccur c)) (gen t)) as [E|E]; [contradiction|]. reflexivity. }
  destruct (wcd (wcur w)) as [cd|] eqn:Wcd.
  - destruct (Nat.eqb_spec cd (data m)) as [E|E].
    + subst cd. assert (Eg : cgen (ccur c) = gen t) by (rewrite Cg; exact Gg).
      destruct Phase as [[Ph St]|Ph].
      { exfalso. pose proof (r_stale _ _ _ R St) as Lt. fold t in Lt. lia. }
      pose proof (r_phase _ _ _ R) as PI. rewrite Ph in PI. cbn [phase_inv] in PI. fold t in PI.
      destruct PI as (Wp & _ & Tomb).
      destruct Wp as [_ _ _ Abs Hq Cell Path]. fold l in Abs, Cell, Path, Tomb. unfold nslots in Hq, Path. fold l in Hq, Path.
      cbv zeta. rewrite Hc, getcc_cmap, Cs, Ct.
      rewrite (ctag_conc_is1 (getc l (cslot (ccur c)))) by (intros x Ex; apply (HO _ x Ex)).
      set (s := cslot (ccur c)) in *.
      apply (out_park m w0 _ 221 ws c a [WPublish it] R P Cm Fd eq_refl).
      exists (WPublish it). split; [reflexivity|]. split; [exact Hc|].
      unfold InsMid. fold t. fold l. split; [|split; [exact I|split; [left; reflexivity|]]].
      { split; [exact Hq|]. split; [exact Cell|]. split; [exact Cit|]. split.
        - unfold consistent in Cit. rewrite Cit. exact Path.
        - split; [exact Abs|apply (other_empty t s C L)]. }
      cbn [w0 wp_set wlive wtombs wpin].
      assert (Ewt : (ctomb (ccur c) && is_tomb (getc l s))%bool = is_tomb (getc l s)).
      { destruct (getc l s) eqn:G; cbn [is_tomb]; try apply andb_false_r.
        rewrite (Tomb eq_refl). reflexivity. }
      split; [rewrite Ewt, Ptb; destruct (is_tomb (getc l s)); lia|]. split; [exact Plv|].
      rewrite SS. unfold publish. fold t. fold l. fold s.
      destruct (Z.eqb_spec (cgen (ccur c)) (gen t)) as [E'|E']; [|contradiction]. cbn [negb].
      rewrite Ptb.
      replace (match getc l s with Tomb => true | _ => false end) with (is_tomb (getc l s)) by reflexivity.
      reflexivity.
    + apply Fallback. rewrite Cg, <- Gg. intros Q. apply E. apply Nat2Z.inj. exact Q.
  - apply Fallback. rewrite Cg. pose proof (r_gen0 _ _ _ R) as G0. fold t in G0. lia.
Qed.

(* the single shared write of a writer segment *)
Definition wmem_after (m : mem) (pc : wpc) : mem :=
  match pc with
  | W211 dst it | W221 dst it _ | W213 dst it _ _ => store_item m (data m) dst (Some it)
  | W212 dst it | W222 dst it _ => store_tag m (data m) dst (ntag it)
  | W214 fa s it => store_item m fa s (Some it)
  | W231 i => store_tag m (data m) i 1
  | W232 i => store_item m (data m) i None
  | W233 i => store_tag m (data m) i 0
  | W241 n0 => store_data m (repeat cempty n0)
  | W251 nd _ => store_data m nd
  | _ => m
  end.

Theorem wstep_inv m w pc ws c a pend res :
  WInvAt m w pc ws c a pend -> wstep m w pc ws = Some res -> StepOut (wmem_after m pc) (pend ++ ws) c a res.
Proof.
  intros H E. pose proof H as (R & P & Cm & Fd & PI).
  destruct pc as [|k h|d i k h|d i k h|dst it|dst it|s it r1 r2|fa s it|s it wt|s it wt|i|i|i|n0|nd lv];
    cbn [wstep] in E; cbn [wmem_after PcInv] in *.
  - destruct ws as [|op ws']; [discriminate E|].
    destruct PI as (Ep & Hc & Pv). subst pend. pose proof P as (a' & S & _).
    destruct op as [it|k h|k h|it| |it| ].
    + injection E as E. subst res. destruct Pv as (Plv & Ptb & Ppin).
      pose proof (proj1 (ins_ok_spec hashf a it (proj1 (wastep_ins a _ a' it S (or_introl eq_refl))))) as Cit.
      apply (store_entry_out m w ws' c a (WStore it) it true R P I (or_introl eq_refl) Cm Fd Hc Plv Ptb Cit).
      rewrite Ppin, with_slots_id. cbn [sstep]. destruct (store (ctab c) it) as [t' prev]. reflexivity.
    + injection E as E. subst res.
      apply (out_park m w _ 201 ws' c a [WRemove k h] R P Cm Fd eq_refl). split; [reflexivity|]. split; assumption.
    + apply (entry_probe m w ws' c a k h res H). cbn [wstep]. exact E.
    + apply (entry_publish m w ws' c a it res H). cbn [wstep]. exact E.
    + injection E as E. subst res. destruct Pv as (Plv & Ptb & _).
      apply (out_keep m (wp_set w (wlive w) (wtombs w) None) ws' c a WUnpin (unpin (ctab c)) 0 0 R P eq_refl (or_introl I) Cm Hc).
      repeat split; assumption.
    + apply (entry_swap m w ws' c a it res H). cbn [wstep]. exact E.
    + injection E as E. subst res. apply (out_park m w _ 241 ws' c a [WClear] R P Cm Fd eq_refl).
      split; [reflexivity|]. split; [exact Hc|]. rewrite Hc. apply length_cmap.
  - injection E as E. subst res. apply step_W201. exact H.
  - injection E as E. subst res. destruct PI as (Ep & Hc & Pv & [[|f] Run]); [discriminate Run|]. subst pend.
    apply (of_lookup_out m w ws c a k h _ f R P Cm Fd Hc Pv Run).
  - injection E as E. subst res. destruct PI as (Ep & Hc & Pv & [[|f] Run]); [discriminate Run|]. subst pend.
    apply (of_lookup_out m w ws c a k h _ f R P Cm Fd Hc Pv Run).
  - injection E as E. subst res. destruct PI as (op & Ep & Hc & IM).
    apply (out_park _ _ _ 212 _ _ _ _ R P (Com_store_item _ _ _ _ _ _ _ Cm) Fd eq_refl).
    exists op. split; [exact Ep|]. split; [apply (half_ins_store m w _ _ _ dst it Cm Hc)|exact IM].
  - injection E as E. subst res. destruct PI as (op & Ep & Hc & IM). subst pend.
    apply (ins_tag_store m w ws c a op dst it (wtombs w) R P Cm Fd Hc IM).
  - injection E as E. subst res. destruct PI as (op & Ep & Hc & RM). subst pend.
    apply (repl_store m w ws c a op s it r1 r2 R P Cm Hc RM).
  - injection E as E. subst res. destruct PI as (op & Ep & Hc & RM & Efa). subst pend fa.
    apply (repl_store m (wp_fslot w None) ws c a op s it 0 0 R P Cm Hc RM).
  - injection E as E. subst res. destruct PI as (op & Ep & Hc & IM).
    apply (out_park _ _ _ 222 _ _ _ _ R P (Com_store_item _ _ _ _ _ _ _ Cm) Fd eq_refl).
    exists op. split; [exact Ep|]. split; [apply (half_ins_store m w _ _ _ s it Cm Hc)|exact IM].
  - injection E as E. subst res. destruct PI as (op & Ep & Hc & IM). subst pend.
    apply (ins_tag_store m w ws c a op s it _ R P Cm Fd Hc IM).
  - injection E as E. subst res. destruct PI as (k & h & it0 & Ep & Hc & RM).
    apply (out_park _ _ _ 232 _ _ _ _ R P (Com_store_tag _ _ _ _ _ _ _ Cm) Fd eq_refl).
    exists k, h, it0. split; [exact Ep|]. split; [|exact RM].
    rewrite (cur_store_tag m i 1 (data_lt _ _ _ _ Cm)), Hc. apply set_tag_cmap_rem. apply RM.
  - apply (step_W232 m w ws c a pend i res H). cbn [wstep]. exact E.
  - apply (step_W233 m w ws c a pend i res H). cbn [wstep]. exact E.
  - injection E as E. subst res. destruct PI as (Ep & Hc & En). subst pend n0.
    apply (out_keep _ _ ws c a WClear (clear (ctab c)) 0 0 R P eq_refl (or_introl I)).
    + apply (Com_store_data m w _ _ _ _ Cm). reflexivity.
    + rewrite cur_store_data. symmetry. apply cmap_repeat.
    + repeat split; reflexivity.
  - injection E as E. subst res.
    destruct PI as (op & t1 & t2 & Ep & NP & Hc & LW1 & HE1 & SS & End & Elv & Tb2 & Pin2 & G2 & _).
    subst pend nd lv. apply (out_keep _ _ ws c a op t2 0 0 R P SS (or_introl NP)).
    + apply (Com_store_data m w _ _ _ _ Cm G2).
    + apply cur_store_data.
    + unfold Priv. cbn [wp_set wlive wtombs wpin]. rewrite Tb2, Pin2. repeat split; reflexivity.
Qed.

(* a cell caught between the two stores of one writer operation *)
Definition Half (a : list ccell) (p : nat) (it : item) : Prop :=
  ctag (getcc a p) < 2 /\ citem (getcc a p) = Some it.

(* Well-formedness of ONE array at any instant, a half-written cell included: its sequential reading
   absl a is a well-formed slot list, and the two words of each cell agree.  aw_items and aw_icons speak
   of every item present, whatever the tag of its cell.  WFc below restates it over all arrays of a state. *)
Record AWF (a : list ccell) : Prop := {
  aw_lwf : LWF hashf (absl a) (length a);
  aw_empty : exists e, (e < length a)%nat /\ ctag (getcc a e) = 0;
  aw_tag : forall p, 2 <= ctag (getcc a p) -> exists it, citem (getcc a p) = Some it /\ ctag (getcc a p) = ntag it;
  aw_tagnn : forall p, 0 <= ctag (getcc a p);
  aw_items : forall p q x y, citem (getcc a p) = Some x -> citem (getcc a q) = Some y -> ikey x = ikey y -> p = q;
  aw_icons : forall p x, citem (getcc a p) = Some x -> consistent hashf x
}.

Lemma ntag_ge2 x : consistent hashf x -> 2 <= ntag x.
Proof. unfold consistent, ntag. intros C. rewrite C. apply norm_ge2. apply hashf_nonneg. Qed.

Lemma conc_tag_nn c : (forall x, c = Live x -> consistent hashf x) -> 0 <= ctag (conc c).
Proof.
  intros H. destruct c as [| |x]; cbn [conc ctag cempty]; try lia.
  pose proof (ntag_ge2 x (H x eq_refl)). lia.
Qed.

Lemma citem_conc c x : citem (conc c) = Some x -> c = Live x.
Proof. destruct c as [| |y]; cbn [conc citem cempty]; try discriminate. intros E. injection E as E. subst y. reflexivity. Qed.

Lemma AWF_cmap l : LWF hashf l (length l) -> HE l -> AWF (cmap l) /\ (forall p it, ~ Half (cmap l) p it).
Proof.
  intros LW (e & He & Ge). pose proof (LWF_hash_ok _ _ LW) as HO. split.
  - constructor.
    + rewrite (absl_cmap l HO), length_cmap. exact LW.
    + exists e. rewrite length_cmap, getcc_cmap, Ge. split; [exact He|reflexivity].
    + intros p T. rewrite getcc_cmap in *. destruct (getc l p) as [| |x]; cbn [conc ctag citem cempty] in *; try lia.
      exists x. split; reflexivity.
    + intros p. rewrite getcc_cmap. apply conc_tag_nn. intros x E. apply (lwf_cons _ _ _ LW p x E).
    + intros p q x y Hx Hy K. rewrite getcc_cmap in Hx, Hy. apply citem_conc in Hx, Hy.
      apply (lwf_uniq _ _ _ LW p q x y Hx Hy K).
    + intros p x Hx. rewrite getcc_cmap in Hx. apply citem_conc in Hx. apply (lwf_cons _ _ _ LW p x Hx).
  - intros p it [T I]. rewrite getcc_cmap in *. apply citem_conc in I. rewrite I in T. cbn [conc ctag] in T.
    pose proof (ntag_ge2 it (lwf_cons _ _ _ LW p it I)). lia.
Qed.

Lemma setc_getc_id l : forall p, setc l p (getc l p) = l.
Proof.
  unfold getc. induction l as [|x l IH]; intros p; [reflexivity|].
  destruct p as [|p]; cbn [setc nth]; [reflexivity|]. rewrite IH. reflexivity.
Qed.

Lemma getcc_half l p t x q :
  (p < length l)%nat ->
  getcc (half_arr l p t x) q = if Nat.eqb p q then {| ctag := t; citem := Some x |} else conc (getc l q).
Proof.
  intros H. unfold half_arr. destruct (Nat.eqb_spec p q) as [E|E].
  - subst q. apply getcc_setcc_same. rewrite length_cmap. exact H.
  - rewrite getcc_setcc_other by exact E. apply getcc_cmap.
Qed.

(* c' is what the half-written cell p counts as (its tag decides); every other cell is as in l *)
Lemma AWF_half l p t x c' :
  LWF hashf l (length l) -> (p < length l)%nat -> 0 <= t < 2 ->
  abs_cell {| ctag := t; citem := Some x |} = c' -> LWF hashf (setc l p c') (length l) ->
  (exists e, e <> p /\ (e < length l)%nat /\ getc l e = Empty) ->
  consistent hashf x -> (forall q y, q <> p -> getc l q = Live y -> ikey y <> ikey x) ->
  AWF (half_arr l p t x) /\ (forall q y, Half (half_arr l p t x) q y -> q = p /\ y = x).
Proof.
  intros LW Hp Tg Ec LW' (e & Ne & He & Ge) Cx Fresh.
  pose proof (LWF_hash_ok _ _ LW) as HO.
  assert (Len : length (half_arr l p t x) = length l) by (unfold half_arr; rewrite length_setcc; apply length_cmap).
  split.
  - constructor.
    + unfold half_arr. rewrite absl_setcc, (absl_cmap l HO), Ec, length_setcc, length_cmap. exact LW'.
    + exists e. rewrite Len, (getcc_half l p t x e Hp).
      destruct (Nat.eqb_spec p e) as [E|E]; [exfalso; apply Ne; symmetry; exact E|].
      rewrite Ge. split; [exact He|reflexivity].
    + intros q T. rewrite (getcc_half l p t x q Hp) in *.
      destruct (Nat.eqb_spec p q) as [E|E]; cbn [ctag citem] in *; [lia|].
      destruct (getc l q) as [| |y]; cbn [conc ctag citem cempty] in *; try lia. exists y. split; reflexivity.
    + intros q. rewrite (getcc_half l p t x q Hp).
      destruct (Nat.eqb_spec p q) as [E|E]; cbn [ctag]; [lia|].
      apply conc_tag_nn. intros y Ey. apply (lwf_cons _ _ _ LW q y Ey).
    + intros q1 q2 y1 y2 H1 H2 K. rewrite (getcc_half l p t x q1 Hp) in H1. rewrite (getcc_half l p t x q2 Hp) in H2.
      destruct (Nat.eqb_spec p q1) as [E1|E1]; destruct (Nat.eqb_spec p q2) as [E2|E2]; cbn [citem] in *.
      * lia.
      * injection H1 as H1. subst y1. apply citem_conc in H2. exfalso. apply (Fresh q2 y2); [lia|exact H2|symmetry; exact K].
      * injection H2 as H2. subst y2. apply citem_conc in H1. exfalso. apply (Fresh q1 y1); [lia|exact H1|exact K].
      * apply citem_conc in H1, H2. apply (lwf_uniq _ _ _ LW q1 q2 y1 y2 H1 H2 K).
    + intros q y Hy. rewrite (getcc_half l p t x _ Hp) in Hy.
      destruct (Nat.eqb_spec p q) as [E|E]; cbn [citem] in Hy.
      * injection Hy as Hy. subst y. exact Cx.
      * apply citem_conc in Hy. apply (lwf_cons _ _ _ LW q y Hy).
  - intros q y [T I]. rewrite (getcc_half l p t x q Hp) in T, I.
    destruct (Nat.eqb_spec p q) as [E|E]; cbn [ctag citem] in *.
    + injection I as I. split; [symmetry; exact E|symmetry; exact I].
    + apply citem_conc in I. rewrite I in T. cbn [conc ctag] in T.
      pose proof (ntag_ge2 y (lwf_cons _ _ _ LW q y I)). lia.
Qed.

Lemma AWF_half_ins l dst it :
  LWF hashf l (length l) -> InsFacts l dst it ->
  AWF (half_ins l dst it) /\ (forall p x, Half (half_ins l dst it) p x -> p = dst /\ x = it).
Proof.
  intros LW (Hd & NL & Cit & Rch & Fresh & He). apply (AWF_half l dst _ it (getc l dst) LW Hd); try assumption.
  - destruct (getc l dst); cbn [conc ctag cempty]; try lia. discriminate NL.
  - destruct (getc l dst); try reflexivity. discriminate NL.
  - rewrite setc_getc_id. exact LW.
  - intros q y _ G. apply (Fresh y). exists q. exact G.
Qed.

Lemma AWF_half_rem l i it0 :
  LWF hashf l (length l) -> HE l -> getc l i = Live it0 ->
  AWF (half_rem l i it0) /\ (forall p x, Half (half_rem l i it0) p x -> p = i /\ x = it0).
Proof.
  intros LW (e & He & Ge) G. apply (AWF_half l i 1 it0 Tomb LW (getc_live_lt _ _ _ G)); try reflexivity; try lia.
  - apply LWF_set_tomb. exact LW.
  - exists e. split; [intros Q; subst e; rewrite G in Ge; discriminate Ge|]. split; assumption.
  - apply (lwf_cons _ _ _ LW i it0 G).
  - intros q y Nq Gq K. apply Nq. apply (lwf_uniq _ _ _ LW q i y it0 Gq G K).
Qed.

(* the writer is between the two stores of an insert (212, 222) or of a removal (232) at slot p *)
Definition half_pc (pc : wpc) (p : nat) (it : item) : Prop :=
  pc = W212 p it \/ (exists wt, pc = W222 p it wt) \/ pc = W232 p.

Lemma Rel_cur_facts c a :
  Rel hashf c a ->
  LWF hashf (slots (ctab c)) (length (slots (ctab c))) /\ HE (slots (ctab c)) /\ (8 <= length (slots (ctab c)))%nat.
Proof.
  intros R. destruct (Rel_parts c a R) as (C & L & _).
  split; [apply (wc_l _ _ C)|]. split; [apply (core_empty_exists hashf _ C L)|apply (wc_n _ _ C)].
Qed.

Definition QuietOK (a : list ccell) : Prop := exists l, a = cmap l /\ LWF hashf l (length l) /\ HE l.

Lemma QuietOK_AWF a : QuietOK a -> AWF a /\ (forall p it, ~ Half a p it).
Proof. intros (l & E & LW & He). subst a. apply AWF_cmap; assumption. Qed.

Lemma pc_shape m w pc ws c a pend :
  WInvAt m w pc ws c a pend ->
  let l := slots (ctab c) in
  match pc with
  | W212 s it | W222 s it _ => cur_arr m = half_ins l s it /\ InsFacts l s it
  | W232 i => exists it0, cur_arr m = half_rem l i it0 /\ getc l i = Live it0
  | _ => QuietOK (cur_arr m)
  end.
Proof.
  intros (R & _ & _ & _ & PI) l. destruct (Rel_cur_facts c a R) as (LW & He & _). fold l in LW, He.
  assert (Q : cur_arr m = cmap l -> QuietOK (cur_arr m)) by (intros Hc; exists l; split; [exact Hc|]; split; assumption).
  destruct pc as [|k h|d i k h|d i k h|dst it|dst it|s it r1 r2|fa s it|s it wt|s it wt|i|i|i|n0|nd lv]; cbn [PcInv] in PI; fold l in PI; try (apply Q; apply PI);
    try (destruct PI as (op & _ & Hc & _); exact (Q Hc)).
  - destruct PI as (op & _ & Hc & IM). split; [exact Hc|exact (InsMid_facts _ _ _ _ _ _ IM)].
  - destruct PI as (op & _ & Hc & IM). split; [exact Hc|exact (InsMid_facts _ _ _ _ _ _ IM)].
  - destruct PI as (k & h & it0 & _ & Hc & _). exact (Q Hc).
  - destruct PI as (k & h & it0 & _ & Hc & RM). exists it0. split; [exact Hc|exact (RemMid_live _ _ _ _ _ _ RM)].
  - destruct (pc233_list m w i c pend PI) as (l' & Hc & LW' & Hi & _ & Gnx).
    pose proof (lwf_len _ _ _ LW') as Len. rewrite <- Len in LW'. exists l'. split; [exact Hc|]. split; [exact LW'|].
    exists (next_in (length l) i). rewrite Len. split; [apply next_in_lt; exact Hi|exact Gnx].
  - destruct (pc251_tables m w nd lv c pend PI) as (t1 & t2 & Hc & LW1 & He1 & _). exists (slots t1). split; [exact Hc|]. split; assumption.
Qed.

Lemma cur_awf m w pc ws c a pend :
  WInvAt m w pc ws c a pend ->
  AWF (cur_arr m) /\ (forall p it, Half (cur_arr m) p it -> half_pc pc p it).
Proof.
  intros W. pose proof (pc_shape _ _ _ _ _ _ _ W) as S. destruct W as (R & _).
  destruct (Rel_cur_facts c a R) as (LW & He & _).
  destruct pc as [|k h|d i k h|d i k h|dst it|dst it|s it r1 r2|fa s it|s it wt|s it wt|i|i|i|n0|nd lv]; cbv zeta in S;
    try (destruct (QuietOK_AWF _ S) as [A NH]; split; [exact A|intros p x Hf; destruct (NH p x Hf)]).
  - destruct S as [Hc IF]. rewrite Hc. destruct (AWF_half_ins _ dst it LW IF) as (A & Hf).
    split; [exact A|]. intros p x Hx. destruct (Hf p x Hx) as [E1 E2]. subst p x. left. reflexivity.
  - destruct S as [Hc IF]. rewrite Hc. destruct (AWF_half_ins _ s it LW IF) as (A & Hf).
    split; [exact A|]. intros p x Hx. destruct (Hf p x Hx) as [E1 E2]. subst p x. right. left. exists wt. reflexivity.
  - destruct S as (it0 & Hc & G). rewrite Hc. destruct (AWF_half_rem _ i it0 LW He G) as (A & Hf).
    split; [exact A|]. intros p x Hx. destruct (Hf p x Hx) as [E1 E2]. subst p x. right. right. reflexivity.
Qed.

Definition OldOK (m : mem) : Prop := forall d, (d < data m)%nat -> QuietOK (getarr m d).

Definition rop_ok (op : rop) : Prop := match op with RLookup k h => h = hashf k end.

(* the six transitions of a lookup in progress *)
Inductive rtrans (m : mem) : rpc -> rpc -> list Z -> Prop :=
| rt_201 k h : rtrans m (R201 k h) (R202 (data m) (home_in (length (cur_arr m)) h) k h) [202; 0; 0]
| rt_202_miss d i k h : ctag (getcc (getarr m d) i) = 0 -> rtrans m (R202 d i k h) RB [0; 0; 0]
| rt_202_match d i k h :
    ctag (getcc (getarr m d) i) <> 0 -> ctag (getcc (getarr m d) i) = norm h ->
    rtrans m (R202 d i k h) (R203 d i k h) [203; 0; 0]
| rt_202_next d i k h :
    ctag (getcc (getarr m d) i) <> 0 -> ctag (getcc (getarr m d) i) <> norm h ->
    rtrans m (R202 d i k h) (R202 d (next_in (length (getarr m d)) i) k h) [202; 0; 0]
| rt_203_hit d i k h it :
    citem (getcc (getarr m d) i) = Some it -> ikey it = k -> rtrans m (R203 d i k h) RB [0; 1; ival it]
| rt_203_next d i k h :
    (forall it, citem (getcc (getarr m d) i) = Some it -> ikey it <> k) ->
    rtrans m (R203 d i k h) (R202 d (next_in (length (getarr m d)) i) k h) [202; 0; 0].

Lemma rstep_cases m th th' o :
  rstep m th = Some (th', o) ->
  (rpcof th = RB /\ exists k h, rscript th = RLookup k h :: rscript th' /\ rpcof th' = R201 k h) \/
  (rpcof th <> RB /\ rscript th' = rscript th /\ rtrans m (rpcof th) (rpcof th') o).
Proof.
  unfold rstep. intros E.
  destruct (rpcof th) as [|k h|d i k h|d i k h]; [left; split; [reflexivity|]|right; split; [discriminate|]..].
  - destruct (rscript th) as [|[k h] rest]; [discriminate E|].
    injection E as E _. subst th'. exists k, h. split; reflexivity.
  - injection E as E1 E2. subst th' o. split; [reflexivity|apply rt_201].
  - unfold lk_from202 in E.
    destruct (Z.eqb_spec (ctag (getcc (getarr m d) i)) 0) as [T0|T0];
      [|destruct (Z.eqb_spec (ctag (getcc (getarr m d) i)) (norm h)) as [T|T]];
      injection E as E1 E2; subst th' o; (split; [reflexivity|]);
      [apply rt_202_miss|apply rt_202_match|apply rt_202_next]; assumption.
  - unfold lk_from203 in E. destruct (citem (getcc (getarr m d) i)) as [it|] eqn:Ci;
      [destruct (Z.eqb_spec (ikey it) k) as [K|K]|]; injection E as E1 E2; subst th' o; (split; [reflexivity|]).
    + apply (rt_203_hit m d i k h it Ci K).
    + apply rt_203_next. intros x Q. rewrite Ci in Q. injection Q as Q. subst x. exact K.
    + apply rt_203_next. intros x Q. rewrite Ci in Q. discriminate Q.
Qed.

Definition pc_ok (m : mem) (pc : rpc) : Prop :=
  match pc with
  | RB => True
  | R201 k h => h = hashf k
  | R202 d i k h | R203 d i k h => h = hashf k /\ (d <= data m)%nat /\ (i < length (getarr m d))%nat
  end.
Definition ROk (m : mem) (th : rthread) : Prop := Forall rop_ok (rscript th) /\ pc_ok m (rpcof th).

Lemma pc_ok_trans m pc pc' o : (0 < length (cur_arr m))%nat -> pc_ok m pc -> rtrans m pc pc' o -> pc_ok m pc'.
Proof.
  intros Hn OK T.
  assert (Next : forall d i k h, pc_ok m (R202 d i k h) -> pc_ok m (R202 d (next_in (length (getarr m d)) i) k h)).
  { intros d i k h (Eh & Hd & Hi). split; [exact Eh|]. split; [exact Hd|apply next_in_lt; exact Hi]. }
  destruct T; cbn [pc_ok] in *; try exact I; try exact OK.
  - split; [exact OK|]. split; [lia|apply home_in_lt; exact Hn].
  - apply (Next d i k h OK).
  - apply (Next d i k h OK).
Qed.

Record GInv (g : gstate) : Prop := {
  gi_w : exists c a pend, WInvAt (gmem g) (gw g) (gwpc g) (gws g) c a pend;
  gi_old : OldOK (gmem g);
  gi_r : Forall (ROk (gmem g)) (grs g)
}.

(* the current array after a non-publishing segment *)
Definition arr_after (A : list ccell) (pc : wpc) : list ccell :=
  match pc with
  | W211 s it | W221 s it _ | W213 s it _ _ | W214 _ s it => set_item A s (Some it)
  | W212 s it | W222 s it _ => set_tag A s (ntag it)
  | W231 i => set_tag A i 1
  | W232 i => set_item A i None
  | W233 i => set_tag A i 0
  | _ => A
  end.

Definition data_pc (pc : wpc) : Prop := match pc with W241 _ | W251 _ _ => True | _ => False end.

Lemma length_arr_after A pc : length (arr_after A pc) = length A.
Proof. destruct pc; cbn [arr_after]; try reflexivity; try apply length_set_item; apply length_set_tag. Qed.

Lemma frame_upd m a' :
  (data m < length (arrs m))%nat ->
  let m' := upd_arr m (data m) a' in
  data m' = data m /\ cur_arr m' = a' /\ (forall d, d <> data m -> getarr m' d = getarr m d).
Proof.
  intros DL m'. split; [reflexivity|]. split; [apply getarr_upd_same; exact DL|].
  intros d Hd. apply getarr_upd_other. intros Q. apply Hd. symmetry. exact Q.
Qed.

Lemma wstep_frame m w pc ws c a pend :
  WInvAt m w pc ws c a pend ->
  let m' := wmem_after m pc in
  (~ data_pc pc /\ data m' = data m /\ cur_arr m' = arr_after (cur_arr m) pc /\
   (forall d, d <> data m -> getarr m' d = getarr m d)) \/
  (data_pc pc /\ data m' = S (data m) /\
   (forall d, (d <= data m)%nat -> getarr m' d = getarr m d) /\ QuietOK (cur_arr m)).
Proof.
  intros H m'. pose proof (pc_shape _ _ _ _ _ _ _ H) as Q. destruct H as (_ & _ & Cm & _ & PI).
  pose proof (data_lt _ _ _ _ Cm) as DL.
  assert (New : forall nd, data (store_data m nd) = S (data m) /\
                           (forall d, (d <= data m)%nat -> getarr (store_data m nd) d = getarr m d)).
  { intros nd. destruct Cm as (_ & L & _). split; [exact L|]. intros d Hd. apply getarr_store_data_old. lia. }
  assert (Efa : forall fa s it, pc = W214 fa s it -> fa = data m).
  { intros fa s it E. subst pc. exact (pc214_data m w fa s it c pend PI). }
  assert (Keep : ~ False /\ data m = data m /\ cur_arr m = cur_arr m /\ (forall d, d <> data m -> getarr m d = getarr m d))
    by (repeat split; intros F; exact F).
  unfold m'. destruct pc; cbn [wmem_after arr_after data_pc]; try rewrite (Efa _ _ _ eq_refl).
  (* WB, 201-203: no shared write *)
  1-4: left; exact Keep.
  (* 211-233: one word of the current array *)
  1-9: left; split; [intros F; exact F|exact (frame_upd m _ DL)].
  (* 241, 251: a fresh array behind the quiescent current one *)
  all: right; (split; [exact I|]); (split; [apply New|]); (split; [apply New|exact Q]).
Qed.

Lemma Forall_set_nth {A} (P : A -> Prop) (l : list A) : forall i x,
  Forall P l -> P x -> Forall P (set_nth l i x).
Proof.
  induction l as [|y l IH]; intros i x F Px; [constructor|].
  inversion F as [|? ? Py Fl]; subst. destruct i as [|i]; cbn [set_nth]; constructor; try assumption.
  apply IH; assumption.
Qed.

Lemma Forall_nth_error {A} (P : A -> Prop) (l : list A) i x : Forall P l -> nth_error l i = Some x -> P x.
Proof. intros F E. rewrite Forall_forall in F. apply F. apply (nth_error_In l i E). Qed.

Lemma AWF_pos a : AWF a -> (0 < length a)%nat.
Proof. intros A. destruct (aw_empty _ A) as (e & He & _). lia. Qed.

Lemma all_awf g d : GInv g -> (d <= data (gmem g))%nat -> AWF (getarr (gmem g) d).
Proof.
  intros [(c & a & pend & W) Old _] Hd. destruct (Nat.eq_dec d (data (gmem g))) as [E|E].
  - subst d. apply (cur_awf _ _ _ _ _ _ _ W).
  - apply QuietOK_AWF. apply Old. lia.
Qed.

Lemma lstep_O g g' o :
  lstep g O = Some (g', o) ->
  wstep (gmem g) (gw g) (gwpc g) (gws g) = Some ((gmem g', gw g', gwpc g', o), gws g') /\ grs g' = grs g.
Proof.
  cbn [lstep]. destruct (wstep (gmem g) (gw g) (gwpc g) (gws g)) as [[[[[m' w'] pc'] o'] ws']|]; [|discriminate].
  intros E. injection E as E1 E2. subst g' o'. split; reflexivity.
Qed.

Lemma ginv_wstep g g' o : GInv g -> lstep g O = Some (g', o) -> GInv g'.
Proof.
  intros [(c & a & pend & W) Old Rs] E. destruct (lstep_O g g' o E) as [St Er].
  destruct (wstep_inv _ _ _ _ _ _ _ _ W St) as [Em SO].
  pose proof (wstep_frame _ _ _ _ _ _ _ W) as FR. cbv zeta in FR. rewrite <- Em in FR.
  constructor.
  - destruct SO as [(_ & pend' & W' & _)|(Epc & op & a' & r1 & r2 & _ & _ & _ & _ & W')].
    + exists c, a, pend'. exact W'.
    + rewrite Epc. exists (fst (sstep c op)), a', []. exact W'.
  - intros d Hd. destruct FR as [(_ & Ed & _ & Eo)|(_ & Ed & Eo & Q)]; rewrite Ed in Hd.
    + rewrite Eo by lia. apply Old. exact Hd.
    + rewrite Eo by lia. destruct (Nat.eq_dec d (data (gmem g))) as [E0|E0]; [subst d; exact Q|apply Old; lia].
  - rewrite Er. apply Forall_forall. intros th Hin. rewrite Forall_forall in Rs. destruct (Rs th Hin) as [S1 S2].
    split; [exact S1|].
    assert (K : forall d i, (d <= data (gmem g))%nat -> (i < length (getarr (gmem g) d))%nat ->
                (d <= data (gmem g'))%nat /\ (i < length (getarr (gmem g') d))%nat).
    { intros d i Hd Hi. destruct FR as [(_ & Ed & Ec & Eo)|(_ & Ed & Eo & _)]; rewrite Ed.
      - split; [exact Hd|]. destruct (Nat.eq_dec d (data (gmem g))) as [E0|E0].
        + subst d. rewrite <- Ed at 1. fold (cur_arr (gmem g')). rewrite Ec, length_arr_after. exact Hi.
        + rewrite Eo by exact E0. exact Hi.
      - split; [lia|]. rewrite Eo by exact Hd. exact Hi. }
    destruct (rpcof th); try exact S2; (split; [apply S2|apply K; apply S2]).
Qed.

Lemma ginv_rstep g r g' o : GInv g -> lstep g (S r) = Some (g', o) -> GInv g'.
Proof.
  intros G E. pose proof G as [Wi Old Rs]. cbn [lstep] in E.
  destruct (nth_error (grs g) r) as [th|] eqn:N; [|discriminate E].
  destruct (rstep (gmem g) th) as [[th' o']|] eqn:St; [|discriminate E].
  injection E as E1 E2. subst g' o'.
  constructor; cbn [gmem gw gwpc gws grs]; try assumption.
  apply Forall_set_nth; [exact Rs|].
  destruct (Forall_nth_error _ _ _ _ Rs N) as [S1 S2].
  destruct (rstep_cases _ _ _ _ St) as [(Pc & k & h & Sc & Pc')|(Pc & Sc & T)].
  - rewrite Sc in S1. inversion S1 as [|? ? Ok Rest]; subst. split; [exact Rest|]. rewrite Pc'. exact Ok.
  - split; [rewrite Sc; exact S1|]. apply (pc_ok_trans _ _ _ _ (AWF_pos _ (all_awf g _ G (le_n _))) S2 T).
Qed.

Lemma ginv_step g t g' o : GInv g -> lstep g t = Some (g', o) -> GInv g'.
Proof. destruct t as [|r]; [apply ginv_wstep|apply ginv_rstep]. Qed.

Definition step_or_stay (g : gstate) (t : nat) : gstate :=
  match lstep g t with Some (g1, _) => g1 | None => g end.
Fixpoint ltrace (g : gstate) (sch : list nat) : list gstate :=
  match sch with [] => [g] | t :: r => g :: ltrace (step_or_stay g t) r end.
Definition lfinal (g : gstate) (sch : list nat) : gstate := fold_left step_or_stay sch g.

Lemma lfinal_lrun : forall sch g, lfinal g sch = fst (lrun g sch).
Proof.
  induction sch as [|t r IH]; intros g; [reflexivity|]. cbn [lfinal fold_left lrun]. unfold step_or_stay at 2.
  destruct (lstep g t) as [[g1 o]|].
  - fold (lfinal g1 r). rewrite IH. destruct (lrun g1 r). reflexivity.
  - fold (lfinal g r). rewrite IH. destruct (lrun g r). reflexivity.
Qed.

Lemma ltrace_head g sch : In g (ltrace g sch).
Proof. destruct sch; left; reflexivity. Qed.

Lemma ltrace_final : forall sch g, In (lfinal g sch) (ltrace g sch).
Proof.
  induction sch as [|t r IH]; intros g; [left; reflexivity|]. cbn [lfinal fold_left ltrace]. right. apply IH.
Qed.

Lemma lfinal_snoc g sch t : lfinal g (sch ++ [t]) = step_or_stay (lfinal g sch) t.
Proof. unfold lfinal. rewrite fold_left_app. reflexivity. Qed.

Lemma ltrace_snoc t : forall sch g, ltrace g (sch ++ [t]) = ltrace g sch ++ [step_or_stay (lfinal g sch) t].
Proof.
  induction sch as [|x sch IH]; intros g; [reflexivity|]. cbn [app ltrace lfinal fold_left]. rewrite IH. reflexivity.
Qed.

Lemma ltrace_inv (P : gstate -> Prop) :
  (forall g t g' o, P g -> lstep g t = Some (g', o) -> P g') ->
  forall sch g gj, P g -> In gj (ltrace g sch) -> P gj.
Proof.
  intros Step. induction sch as [|t s IH]; intros g gj G Hin; cbn [ltrace] in Hin.
  - destruct Hin as [Hin|[]]. subst gj. exact G.
  - destruct Hin as [Hin|Hin]; [subst gj; exact G|]. apply (IH (step_or_stay g t) gj); [|exact Hin].
    unfold step_or_stay. destruct (lstep g t) as [[g1 o]|] eqn:E; [apply (Step g t g1 o G E)|exact G].
Qed.

Lemma ginv_ltrace sch g gj : GInv g -> In gj (ltrace g sch) -> GInv gj.
Proof. apply (ltrace_inv GInv ginv_step). Qed.

Lemma ginv_lfinal g sch : GInv g -> GInv (lfinal g sch).
Proof. intros G. apply (ginv_ltrace sch g _ G (ltrace_final sch g)). Qed.

Lemma slots_new_table cap : slots (new_table cap) = repeat Empty (init_slots cap).
Proof. unfold init_slots, new_table. cbn [slots]. rewrite repeat_length. reflexivity. Qed.

Lemma winv_init cap ws rss :
  wproto ainit ws ->
  let g := init_state cap ws rss in WInvAt (gmem g) (gw g) (gwpc g) (gws g) (cinit cap) ainit [].
Proof.
  intros P. split; [apply Rel_init|]. split; [exact P|]. split; [repeat split; reflexivity|].
  split; [intros k s it Ph; discriminate Ph|]. split; [reflexivity|]. split; [|repeat split; reflexivity].
  unfold cur_arr, getarr. cbn [init_state gmem data arrs nth cinit ctab]. rewrite slots_new_table. symmetry. apply cmap_repeat.
Qed.

Lemma ginv_init cap ws rss :
  wproto ainit ws -> Forall (Forall rop_ok) rss -> GInv (init_state cap ws rss).
Proof.
  intros P F. constructor.
  - exists (cinit cap), ainit, []. apply (winv_init cap ws rss P).
  - intros d Hd. cbn [init_state gmem data] in Hd. lia.
  - apply Forall_forall. intros th Hin. apply in_map_iff in Hin. destruct Hin as (s & E & Is). subst th.
    split; cbn [rscript rpcof]; [|exact I]. rewrite Forall_forall in F. apply F. exact Is.
Qed.

Definition reachable (g : gstate) : Prop :=
  exists cap ws rss sch,
    wproto ainit ws /\ Forall (Forall rop_ok) rss /\ g = fst (lrun (init_state cap ws rss) sch).

Theorem ginv_reachable g : reachable g -> GInv g.
Proof.
  intros (cap & ws & rss & sch & P & F & E). subst g. rewrite <- lfinal_lrun. apply ginv_lfinal. apply ginv_init; assumption.
Qed.

Lemma reachable_step g t g' o : reachable g -> lstep g t = Some (g', o) -> reachable g'.
Proof.
  intros (cap & ws & rss & sch & P & F & E) St. exists cap, ws, rss, (sch ++ [t]).
  split; [exact P|]. split; [exact F|]. subst g. rewrite <- lfinal_lrun in *.
  unfold lfinal at 1. rewrite fold_left_app. cbn [fold_left]. unfold step_or_stay at 1. fold (lfinal (init_state cap ws rss) sch).
  rewrite St. reflexivity.
Qed.

Lemma reachable_lfinal sch g : reachable g -> reachable (lfinal g sch).
Proof. intros R. apply (ltrace_inv reachable reachable_step sch g _ R (ltrace_final sch g)). Qed.

Definition published (a : list ccell) (p : nat) (it : item) : Prop :=
  2 <= ctag (getcc a p) /\ citem (getcc a p) = Some it.

(* slot p is reachable from the home slot of hash h over non-empty cells *)
Definition creach (a : list ccell) (h : Z) (p : nat) : Prop :=
  exists d, (d < length a)%nat /\ iter_next (length a) d (home_in (length a) h) = p /\
            forall j, (j < d)%nat -> ctag (getcc a (iter_next (length a) j (home_in (length a) h))) <> 0.

Record WFc (g : gstate) : Prop := {
  wfc_arrs : length (arrs (gmem g)) = S (data (gmem g));
  wfc_empty : forall d, (d <= data (gmem g))%nat ->
     exists e, (e < length (getarr (gmem g) d))%nat /\ ctag (getcc (getarr (gmem g) d) e) = 0;
  wfc_tag : forall d p it, (d <= data (gmem g))%nat -> published (getarr (gmem g) d) p it ->
     ctag (getcc (getarr (gmem g) d) p) = norm (ihash it) /\ ihash it = hashf (ikey it);
  wfc_reach : forall d p it, (d <= data (gmem g))%nat -> published (getarr (gmem g) d) p it ->
     creach (getarr (gmem g) d) (ihash it) p;
  (* whatever the tags of the two cells: stronger than "no key is published twice" *)
  wfc_uniq : forall d p q x y, (d <= data (gmem g))%nat ->
     citem (getcc (getarr (gmem g) d) p) = Some x -> citem (getcc (getarr (gmem g) d) q) = Some y ->
     ikey x = ikey y -> p = q;
  wfc_tag_item : forall d p, (d <= data (gmem g))%nat -> 2 <= ctag (getcc (getarr (gmem g) d) p) ->
     exists it, citem (getcc (getarr (gmem g) d) p) = Some it;
  wfc_half : forall p it, Half (cur_arr (gmem g)) p it -> half_pc (gwpc g) p it;
  wfc_half_one : forall p q x y, Half (cur_arr (gmem g)) p x -> Half (cur_arr (gmem g)) q y -> p = q /\ x = y;
  wfc_old_quiet : forall d p it, (d < data (gmem g))%nat -> ~ Half (getarr (gmem g) d) p it
}.

Lemma abs_cell_published a p it : published a p it -> getc (absl a) p = Live it.
Proof.
  intros [T I]. rewrite getc_absl. unfold abs_cell. rewrite I.
  destruct (Z.eqb_spec (ctag (getcc a p)) 0); [lia|]. destruct (Z.eqb_spec (ctag (getcc a p)) 1); [lia|]. reflexivity.
Qed.

Lemma abs_cell_nonempty c : abs_cell c <> Empty -> ctag c <> 0.
Proof. unfold abs_cell. intros H E. rewrite E in H. apply H. reflexivity. Qed.

Lemma AWF_creach a p it : AWF a -> published a p it -> creach a (ihash it) p.
Proof.
  intros A Pb. pose proof (abs_cell_published a p it Pb) as G.
  destruct (lwf_reach _ _ _ (aw_lwf _ A) p it G) as (d & Hd & E & W).
  exists d. split; [exact Hd|]. split; [exact E|]. intros j Hj.
  apply abs_cell_nonempty. rewrite <- getc_absl. apply (walkne_nth _ _ _ _ _ W Hj).
Qed.

Theorem GInv_WFc g : GInv g -> WFc g.
Proof.
  intros G. pose proof G as [(c & a & pend & W) Old _].
  destruct (cur_awf _ _ _ _ _ _ _ W) as [_ Hf].
  constructor.
  - apply W.
  - intros d Hd. apply (aw_empty _ (all_awf g d G Hd)).
  - intros d p it Hd [T I]. pose proof (all_awf g d G Hd) as A.
    destruct (aw_tag _ A p T) as (x & Ix & Tx). rewrite I in Ix. injection Ix as Ix. subst x.
    split; [exact Tx|]. apply (aw_icons _ A p it I).
  - intros d p it Hd Pb. apply AWF_creach; [apply (all_awf g d G Hd)|exact Pb].
  - intros d p q x y Hd. apply (aw_items _ (all_awf g d G Hd)).
  - intros d p Hd T. destruct (aw_tag _ (all_awf g d G Hd) p T) as (x & Ix & _). exists x. exact Ix.
  - exact Hf.
  - intros p q x y Hp Hq. pose proof (Hf p x Hp) as Fp. pose proof (Hf q y Hq) as Fq.
    unfold half_pc in *.
    (* both name the writer's program counter: same slot; at 212/222 the pc names the item as well, at 232
       the two items are the item of that one cell *)
    destruct Fp as [Fp|[(wp & Fp)|Fp]]; destruct Fq as [Fq|[(wq & Fq)|Fq]]; rewrite Fp in Fq;
      try discriminate Fq; injection Fq as E1; subst; try (split; reflexivity).
    destruct Hp as [_ Ip]. destruct Hq as [_ Iq]. rewrite Ip in Iq. injection Iq as Iq. split; [reflexivity|exact Iq].
  - intros d p it Hd. apply (QuietOK_AWF _ (Old d Hd)).
Qed.

Theorem wfc_invariant g : reachable g -> WFc g.
Proof. intros R. apply GInv_WFc. apply ginv_reachable. exact R. Qed.

(* arrays other than the current one are frozen: no step of any thread changes them, the array list
   only grows, and a replaced array never becomes current again *)
Theorem old_arrays_frozen g t g' o :
  reachable g -> lstep g t = Some (g', o) ->
  (data (gmem g) <= data (gmem g'))%nat /\
  (forall d, (d < data (gmem g))%nat -> getarr (gmem g') d = getarr (gmem g) d) /\
  (data (gmem g) < data (gmem g') -> getarr (gmem g') (data (gmem g)) = getarr (gmem g) (data (gmem g)))%nat.
Proof.
  intros R E. pose proof (ginv_reachable g R) as [(c & a & pend & W) _ _].
  destruct t as [|r].
  - destruct (lstep_O g g' o E) as [St _]. destruct (wstep_inv _ _ _ _ _ _ _ _ W St) as [Em _]. rewrite Em.
    destruct (wstep_frame _ _ _ _ _ _ _ W) as [(_ & Ed & _ & Eo)|(_ & Ed & Eo & _)]; rewrite Ed.
    + split; [lia|]. split; [intros d Hd; apply Eo; lia|lia].
    + split; [lia|]. split; [intros d Hd; apply Eo; lia|intros _; apply Eo; lia].
  - cbn [lstep] in E. destruct (nth_error (grs g) r) as [th|]; [|discriminate E].
    destruct (rstep (gmem g) th) as [[th' o']|]; [|discriminate E].
    injection E as E1 E2. subst g' o'. cbn [gmem]. split; [lia|]. split; [reflexivity|lia].
Qed.

Lemma srun_cons c op ws :
  srun c (op :: ws) = [0; fst (snd (sstep c op)); snd (snd (sstep c op))] :: srun (fst (sstep c op)) ws.
Proof. cbn [srun]. destruct (sstep c op) as [c' [r1 r2]]. reflexivity. Qed.

(* Safety: whatever the number of steps, the operation results observed so far are exactly the first
   results of the sequential model run on the same script; and once the script is exhausted they are
   all of them. *)
Lemma alone_gen : forall N g c a pend,
  WInvAt (gmem g) (gw g) (gwpc g) (gws g) c a pend ->
  exists j, completions (snd (lrun g (repeat O N))) = firstn j (srun c (pend ++ gws g)) /\
            (gwpc (fst (lrun g (repeat O N))) = WB -> gws (fst (lrun g (repeat O N))) = [] ->
             completions (snd (lrun g (repeat O N))) = srun c (pend ++ gws g)).
Proof.
  induction N as [|N IH]; intros g c a pend W.
  - cbn [repeat lrun snd fst completions filter]. exists O. split; [reflexivity|].
    intros Epc Ews. destruct W as (_ & _ & _ & _ & PI). rewrite Epc in PI.
    destruct PI as (Ep & _). rewrite Ep, Ews. reflexivity.
  - cbn [repeat lrun]. cbn [lstep].
    destruct (wstep (gmem g) (gw g) (gwpc g) (gws g)) as [[[[[m' w'] pc'] o] ws']|] eqn:St.
    + destruct (wstep_inv _ _ _ _ _ _ _ _ W St) as [_ SO].
      set (g1 := {| gmem := m'; gw := w'; gwpc := pc'; gws := ws'; grs := grs g; gnextid := gnextid g |}).
      destruct SO as [(NC & pend' & W' & Ep)|(Epc & op & a' & r1 & r2 & Ep & _ & Eo & Es & W')].
      * destruct (IH g1 c a pend' W') as (j & Ej & Ef). cbn [g1 gws] in Ej, Ef. rewrite Ep in Ej, Ef.
        destruct (lrun g1 (repeat O N)) as [g2 os]. cbn [snd fst completions filter] in *. rewrite NC.
        exists j. split; [exact Ej|exact Ef].
      * subst pc'. destruct (IH g1 (fst (sstep c op)) a' [] W') as (j & Ej & Ef). cbn [g1 gws app] in Ej, Ef.
        destruct (lrun g1 (repeat O N)) as [g2 os]. cbn [snd fst completions filter] in *.
        subst o. cbn [is_completion]. rewrite Ep, srun_cons, Es. cbn [fst snd].
        exists (S j). cbn [firstn]. split; [rewrite Ej; reflexivity|].
        intros Q1 Q2. rewrite (Ef Q1 Q2). reflexivity.
    + destruct (IH g c a pend W) as (j & Ej & Ef).
      destruct (lrun g (repeat O N)) as [g2 os]. cbn [snd fst completions filter is_completion] in *.
      exists j. split; [exact Ej|exact Ef].
Qed.

Theorem writer_alone_refines_sequential cap ws rss N :
  wproto ainit ws ->
  let run := lrun (init_state cap ws rss) (repeat O N) in
  (exists j, completions (snd run) = firstn j (srun (cinit cap) ws)) /\
  (gwpc (fst run) = WB -> gws (fst run) = [] -> completions (snd run) = srun (cinit cap) ws).
Proof.
  intros P run. destruct (alone_gen N _ _ _ _ (winv_init cap ws rss P)) as (j & Ej & Ef).
  split; [exists j; exact Ej|exact Ef].
Qed.

(* what the writer knows about the cell it is about to write *)
Definition weffect_facts (A : list ccell) (pc : wpc) : Prop :=
  match pc with
  | W211 s _ | W221 s _ _ => ctag (getcc A s) < 2
  | W212 s it | W222 s it _ => ctag (getcc A s) < 2 /\ 2 <= ntag it
  | W213 s it _ _ | W214 _ s it =>
      exists old, (s < length A)%nat /\ 2 <= ctag (getcc A s) /\ citem (getcc A s) = Some old /\ ikey it = ikey old
  | W232 i => ctag (getcc A i) = 1
  | W233 i => ctag (getcc A i) = 1 /\ ctag (getcc A (next_in (length A) i)) = 0
  | _ => True
  end.

Lemma weffect m w pc ws c a pend : WInvAt m w pc ws c a pend -> weffect_facts (cur_arr m) pc.
Proof.
  intros (R & _ & _ & _ & PI). destruct (Rel_cur_facts c a R) as (LW & _ & _).
  set (l := slots (ctab c)) in *.
  assert (NL : forall s, is_live (getc l s) = false -> ctag (conc (getc l s)) < 2)
    by (intros s; destruct (getc l s); cbn [is_live conc ctag cempty]; try discriminate; lia).
  assert (Repl : forall s it op r1 r2, ReplMid w c op s it r1 r2 -> weffect_facts (cmap l) (W213 s it r1 r2)).
  { intros s it op r1 r2 RM. destruct (ReplMid_old _ _ _ _ _ _ _ RM) as (old & G & K). fold l in G. exists old. rewrite length_cmap, getcc_cmap, G.
    split; [apply (getc_live_lt _ _ _ G)|]. split; [apply ntag_ge2; apply (lwf_cons _ _ _ LW s old G)|].
    split; [reflexivity|exact K]. }
  assert (Ins1 : forall op s it tbf, cur_arr m = cmap l -> InsMid w c op s it tbf -> ctag (getcc (cur_arr m) s) < 2).
  { intros op s it tbf Hc IM. destruct (InsMid_facts _ _ _ _ _ _ IM) as (_ & N & _). rewrite Hc, getcc_cmap. exact (NL _ N). }
  assert (Ins2 : forall op s it tbf, cur_arr m = half_ins l s it -> InsMid w c op s it tbf ->
                 ctag (getcc (cur_arr m) s) < 2 /\ 2 <= ntag it).
  { intros op s it tbf Hc IM. destruct (InsMid_facts _ _ _ _ _ _ IM) as (Hd & N & Cit & _). rewrite Hc. unfold half_ins.
    rewrite (getcc_half l s _ it s Hd), Nat.eqb_refl. split; [exact (NL _ N)|apply ntag_ge2; exact Cit]. }
  destruct pc as [|k h|d i k h|d i k h|dst it|dst it|s it r1 r2|fa s it|s it wt|s it wt|i|i|i|n0|nd lv]; cbn [PcInv weffect_facts] in *; fold l in PI; try exact I;
    (* 211, 221 by Ins1; 212, 222 by Ins2 *)
    try (destruct PI as (op & _ & Hc & IM); first [exact (Ins1 _ _ _ _ Hc IM)|exact (Ins2 _ _ _ _ Hc IM)]).
  - destruct PI as (op & _ & Hc & RM). rewrite Hc. exact (Repl _ _ _ _ _ RM).
  - destruct PI as (op & _ & Hc & RM & _). rewrite Hc. exact (Repl _ _ _ _ _ RM).
  - destruct PI as (k & h & it0 & _ & Hc & RM). pose proof (RemMid_live _ _ _ _ _ _ RM) as G.
    rewrite Hc. unfold half_rem. rewrite (getcc_half l i 1 it0 i (getc_live_lt _ _ _ G)), Nat.eqb_refl. reflexivity.
  - destruct (pc233_list m w i c pend PI) as (l' & Hc & LW' & Hi & G & Gnx).
    rewrite Hc, length_cmap, !getcc_cmap, (lwf_len _ _ _ LW'), G, Gnx. split; reflexivity.
Qed.

(* an insert's item store (211, 221) parks at its tag store (212, 222): what hq_writer needs to call
   the stored item alive at once *)
Lemma item_store_then_tag_store g g' o :
  lstep g O = Some (g', o) ->
  (forall s it, gwpc g = W211 s it -> gwpc g' = W212 s it) /\
  (forall s it wt, gwpc g = W221 s it wt -> gwpc g' = W222 s it wt).
Proof.
  intros E. destruct (lstep_O g g' o E) as [St _]. split.
  - intros s it Epc. rewrite Epc in St. unfold wstep in St. cbv zeta in St. injection St as _ _ Q _ _. symmetry. exact Q.
  - intros s it wt Epc. rewrite Epc in St. unfold wstep in St. cbv zeta in St. injection St as _ _ Q _ _. symmetry. exact Q.
Qed.

(* the one word a non-publishing segment writes: a tag ... *)
Definition wr_tag (pc : wpc) : option (nat * Z) :=
  match pc with
  | W212 s it | W222 s it _ => Some (s, ntag it)
  | W231 i => Some (i, 1)
  | W233 i => Some (i, 0)
  | _ => None
  end.
(* ... or an item *)
Definition wr_item (pc : wpc) : option (nat * option item) :=
  match pc with
  | W211 s it | W221 s it _ | W213 s it _ _ | W214 _ s it => Some (s, Some it)
  | W232 i => Some (i, None)
  | _ => None
  end.

Lemma ctag_arr_after A pc q :
  ctag (getcc (arr_after A pc) q) =
  match wr_tag pc with
  | Some (s, t) => if Nat.eqb s q && Nat.ltb s (length A) then t else ctag (getcc A q)
  | None => ctag (getcc A q)
  end.
Proof. destruct pc; cbn [arr_after wr_tag]; first [apply ctag_set_tag|apply ctag_set_item|reflexivity]. Qed.

Lemma citem_arr_after A pc q :
  citem (getcc (arr_after A pc) q) =
  match wr_item pc with
  | Some (s, x) => if Nat.eqb s q && Nat.ltb s (length A) then x else citem (getcc A q)
  | None => citem (getcc A q)
  end.
Proof. destruct pc; cbn [arr_after wr_item]; first [apply citem_set_item|apply citem_set_tag|reflexivity]. Qed.

Definition item_store_pc (pc : wpc) (q : nat) (it : item) : Prop :=
  pc = W211 q it \/ (exists wt, pc = W221 q it wt) \/ (exists r1 r2, pc = W213 q it r1 r2) \/
  (exists fa, pc = W214 fa q it).

Lemma wr_item_store pc q it : wr_item pc = Some (q, Some it) -> item_store_pc pc q it.
Proof.
  unfold item_store_pc. destruct pc as [|k0 h0|d0 i0 k0 h0|d0 i0 k0 h0|s0 x0|s0 x0|s0 x0 r1 r2|fa s0 x0|s0 x0 wt|s0 x0 wt|s0|s0|s0|n0|nd lv]; cbn [wr_item]; intros H; try discriminate H; injection H as E1 E2; subst.
  - left. reflexivity.
  - right. right. left. exists r1, r2. reflexivity.
  - right. right. right. exists fa. reflexivity.
  - right. left. exists wt. reflexivity.
Qed.

Lemma arr_after_item A pc q it :
  citem (getcc (arr_after A pc) q) = Some it ->
  citem (getcc A q) = Some it \/ (item_store_pc pc q it /\ (q < length A)%nat).
Proof.
  rewrite citem_arr_after. destruct (wr_item pc) as [[s x]|] eqn:W; [|intros H; left; exact H].
  destruct (Nat.eqb_spec s q) as [E|E]; [|intros H; left; exact H].
  destruct (Nat.ltb_spec s (length A)) as [L|L]; [|intros H; left; exact H].
  cbn [andb]. intros H. subst s x. right. split; [apply wr_item_store; exact W|exact L].
Qed.

Lemma arr_after_item_keep A pc q :
  (forall it, ~ item_store_pc pc q it) -> pc <> W232 q -> citem (getcc (arr_after A pc) q) = citem (getcc A q).
Proof.
  intros N N2. rewrite citem_arr_after. destruct (wr_item pc) as [[s x]|] eqn:W; [|reflexivity].
  destruct (Nat.eqb_spec s q) as [E|E]; [|reflexivity]. subst s. exfalso. destruct x as [it|].
  - apply (N it). apply wr_item_store. exact W.
  - apply N2. destruct pc; cbn [wr_item] in W; try discriminate W. injection W as W. subst q. reflexivity.
Qed.

Definition tag_store_pc (pc : wpc) (q : nat) (v : Z) : Prop :=
  (exists it, pc = W212 q it /\ v = ntag it) \/ (exists it wt, pc = W222 q it wt /\ v = ntag it) \/
  (pc = W231 q /\ v = 1) \/ (pc = W233 q /\ v = 0).

Lemma wr_tag_store pc q v : wr_tag pc = Some (q, v) -> tag_store_pc pc q v.
Proof.
  unfold tag_store_pc. destruct pc as [|k0 h0|d0 i0 k0 h0|d0 i0 k0 h0|s0 x0|s0 x0|s0 x0 r1 r2|fa s0 x0|s0 x0 wt|s0 x0 wt|s0|s0|s0|n0|nd lv]; cbn [wr_tag]; intros H; try discriminate H; injection H as E1 E2; subst.
  - left. exists x0. split; reflexivity.
  - right. left. exists x0, wt. split; reflexivity.
  - right. right. left. split; reflexivity.
  - right. right. right. split; reflexivity.
Qed.

Lemma arr_after_tag A pc q :
  ctag (getcc (arr_after A pc) q) = ctag (getcc A q) \/
  ((q < length A)%nat /\ tag_store_pc pc q (ctag (getcc (arr_after A pc) q))).
Proof.
  rewrite ctag_arr_after. destruct (wr_tag pc) as [[s t]|] eqn:W; [|left; reflexivity].
  destruct (Nat.eqb_spec s q) as [E|E]; [|left; reflexivity].
  destruct (Nat.ltb_spec s (length A)) as [L|L]; [|left; reflexivity].
  cbn [andb]. subst s. right. split; [exact L|apply wr_tag_store; exact W].
Qed.

Lemma wview g g' o :
  GInv g -> lstep g O = Some (g', o) ->
  grs g' = grs g /\ weffect_facts (cur_arr (gmem g)) (gwpc g) /\
  ((~ data_pc (gwpc g) /\ data (gmem g') = data (gmem g) /\
    cur_arr (gmem g') = arr_after (cur_arr (gmem g)) (gwpc g) /\
    (forall d, d <> data (gmem g) -> getarr (gmem g') d = getarr (gmem g) d)) \/
   (data_pc (gwpc g) /\ data (gmem g') = S (data (gmem g)) /\
    (forall d, (d <= data (gmem g))%nat -> getarr (gmem g') d = getarr (gmem g) d) /\
    QuietOK (cur_arr (gmem g)))).
Proof.
  intros [(c & a & pend & W) _ _] E. destruct (lstep_O g g' o E) as [St Er].
  destruct (wstep_inv _ _ _ _ _ _ _ _ W St) as [Em _]. rewrite Em.
  split; [exact Er|]. split; [apply (weffect _ _ _ _ _ _ _ W)|apply (wstep_frame _ _ _ _ _ _ _ W)].
Qed.

(* reader r of g; an index beyond the thread list reads as an idle reader, which never steps *)
Definition rth (g : gstate) (r : nat) : rthread := nth r (grs g) idle_reader.

Lemma rth_ok g r : GInv g -> pc_ok (gmem g) (rpcof (rth g r)).
Proof.
  intros G. unfold rth. destruct (nth_in_or_default r (grs g) idle_reader) as [Hin|E]; [|rewrite E; exact I].
  pose proof (gi_r _ G) as F. rewrite Forall_forall in F. apply (F _ Hin).
Qed.

Lemma lstep_reader g r g' o :
  lstep g (S r) = Some (g', o) ->
  gmem g' = gmem g /\ gwpc g' = gwpc g /\
  exists th th', nth_error (grs g) r = Some th /\ rstep (gmem g) th = Some (th', o) /\
                 grs g' = set_nth (grs g) r th'.
Proof.
  intros E. cbn [lstep] in E. destruct (nth_error (grs g) r) as [th|] eqn:N; [|discriminate E].
  destruct (rstep (gmem g) th) as [[th' o']|] eqn:St; [|discriminate E].
  injection E as E1 E2. subst g' o'. cbn [gmem gwpc grs]. split; [reflexivity|]. split; [reflexivity|].
  exists th, th'. repeat split; assumption.
Qed.

Lemma rth_step g t g' o r :
  lstep g t = Some (g', o) ->
  (t <> S r /\ rth g' r = rth g r) \/
  (t = S r /\ rstep (gmem g) (rth g r) = Some (rth g' r, o)).
Proof.
  intros E. destruct t as [|r'].
  - left. split; [discriminate|]. destruct (lstep_O g g' o E) as (_ & Er). unfold rth. rewrite Er. reflexivity.
  - destruct (lstep_reader g r' g' o E) as (_ & _ & th & th' & N & St & Er). unfold rth. rewrite Er.
    destruct (Nat.eq_dec r' r) as [Q|Q].
    + subst r'. right. split; [reflexivity|]. rewrite (nth_error_nth _ _ _ N).
      rewrite nth_set_nth_same by (apply nth_error_Some; rewrite N; discriminate). exact St.
    + left. split; [intros Z; apply Q; injection Z as Z; exact Z|]. apply nth_set_nth_other. exact Q.
Qed.

Lemma own_trans g r g' o :
  lstep g (S r) = Some (g', o) -> rpcof (rth g r) <> RB ->
  gmem g' = gmem g /\ rtrans (gmem g) (rpcof (rth g r)) (rpcof (rth g' r)) o.
Proof.
  intros E NB. split; [apply (lstep_reader g r g' o E)|].
  destruct (rth_step g (S r) g' o r E) as [[N _]|[_ St]]; [destruct (N eq_refl)|].
  destruct (rstep_cases _ _ _ _ St) as [(B & _)|(_ & _ & T)]; [destruct (NB B)|exact T].
Qed.

(* a history invariant of reader r, given as a predicate Q of the history, the memory and the
   reader's program counter, holds all along ITS lookup of k *)
Section ReaderInv.
Variables (r : nat) (k : Z) (Q : list gstate -> mem -> rpc -> Prop).
Hypothesis Q_start : forall H m h, Q H m (R201 k h).
Hypothesis Q_mono : forall H H' m pc, (forall x, In x H -> In x H') -> Q H m pc -> Q H' m pc.
Hypothesis Q_writer : forall H g g' o pc,
  GInv g -> In g H -> Q H (gmem g) pc -> lstep g O = Some (g', o) -> Q (g' :: H) (gmem g') pc.
Hypothesis Q_own : forall H g pc pc' o,
  GInv g -> In g H -> Q H (gmem g) pc -> pc_ok (gmem g) pc -> rtrans (gmem g) pc pc' o -> Q H (gmem g) pc'.

Definition Inv (H : list gstate) (g : gstate) : Prop := Q H (gmem g) (rpcof (rth g r)).

Lemma inv_step H g t g' o :
  GInv g -> In g H -> Inv H g -> lstep g t = Some (g', o) -> (t = S r -> rpcof (rth g r) <> RB) ->
  Inv (g' :: H) g'.
Proof.
  intros G IH I0 E NB. unfold Inv in *. destruct (rth_step g t g' o r E) as [[Nt Eth]|[Et _]].
  - rewrite Eth. destruct t as [|r']; [apply (Q_writer H g g' o _ G IH I0 E)|].
    destruct (lstep_reader g r' g' o E) as (Em & _). rewrite Em. apply (Q_mono H); [intros x; apply in_cons|exact I0].
  - subst t. destruct (own_trans g r g' o E (NB eq_refl)) as [Em T]. rewrite Em. apply (Q_mono H); [intros x; apply in_cons|].
    apply (Q_own H g _ _ o G IH I0 (rth_ok g r G) T).
Qed.

Lemma rpc_RB_dec (pc : rpc) : pc = RB \/ pc <> RB.
Proof. destruct pc; [left; reflexivity|right; discriminate..]. Qed.

(* Where reader r stands with respect to its lookup "RLookup k h" whose remaining script is rest: not yet
   started; inside it, and then the invariant holds; or past it (its script is shorter than rest, or as
   long and the reader is back at the boundary), which the hypotheses of ph_inside exclude. *)
Definition Stage (h : Z) (rest : list rop) (H : list gstate) (g : gstate) : Prop :=
  (rpcof (rth g r) = RB /\ rscript (rth g r) = RLookup k h :: rest) \/
  (rpcof (rth g r) <> RB /\ rscript (rth g r) = rest /\ Inv H g) \/
  ((length (rscript (rth g r)) < length rest)%nat \/
   (rpcof (rth g r) = RB /\ length (rscript (rth g r)) = length rest)).

Lemma ph_step h rest H g t g' o :
  GInv g -> In g H -> Stage h rest H g -> lstep g t = Some (g', o) -> Stage h rest (g' :: H) g'.
Proof.
  intros G IH P E. destruct (rth_step g t g' o r E) as [[Nt Eth]|[Et St]].
  - destruct P as [[P1 P2]|[(P1 & P2 & P3)|P]].
    + left. rewrite Eth. split; assumption.
    + right. left. rewrite Eth. split; [exact P1|]. split; [exact P2|].
      apply (inv_step H g t g' o G IH P3 E). intros Q0. contradiction.
    + right. right. rewrite Eth. exact P.
  - subst t. destruct (rstep_cases _ _ _ _ St) as [(Pc & k0 & h0 & Sc & Pc')|(Pc & Sc & _)].
    + destruct P as [[P1 P2]|[(P1 & P2 & P3)|P]].
      * right. left. rewrite Sc in P2. injection P2 as Q1 Q2 Q3. subst k0 h0.
        split; [rewrite Pc'; discriminate|]. split; [exact Q3|]. unfold Inv. rewrite Pc'. apply Q_start.
      * contradiction.
      * right. right. left. rewrite Sc in P. cbn [length] in P. destruct P as [P|[_ P]]; lia.
    + destruct P as [[P1 P2]|[(P1 & P2 & P3)|P]].
      * contradiction.
      * pose proof (inv_step H g (S r) g' o G IH P3 E (fun _ => P1)) as HI'.
        destruct (rpc_RB_dec (rpcof (rth g' r))) as [Pc'|Pc'].
        -- right. right. right. split; [exact Pc'|]. rewrite Sc, P2. reflexivity.
        -- right. left. split; [exact Pc'|]. split; [rewrite Sc; exact P2|exact HI'].
      * right. right. rewrite Sc. destruct P as [P|[P _]]; [left; exact P|contradiction].
Qed.

Lemma ph_run h rest g0 sch :
  GInv g0 -> Stage h rest [g0] g0 -> Stage h rest (ltrace g0 sch) (lfinal g0 sch).
Proof.
  intros G P0. induction sch as [|t sch IH] using rev_ind; [exact P0|].
  assert (Mono : forall H H' g, (forall x, In x H -> In x H') -> Stage h rest H g -> Stage h rest H' g).
  { intros H H' g Sub [P|[(P1 & P2 & P3)|P]]; [left; exact P| |right; right; exact P].
    right. left. split; [exact P1|]. split; [exact P2|apply (Q_mono H H' _ _ Sub P3)]. }
  rewrite ltrace_snoc, lfinal_snoc. unfold step_or_stay. destruct (lstep (lfinal g0 sch) t) as [[g1 o]|] eqn:E.
  - apply (Mono (g1 :: ltrace g0 sch)); [intros x [I|I]; apply in_or_app; [right; left; exact I|left; exact I]|].
    apply (ph_step h rest _ _ t g1 o (ginv_lfinal g0 sch G) (ltrace_final sch g0) IH E).
  - apply (Mono (ltrace g0 sch)); [intros x I; apply in_or_app; left; exact I|exact IH].
Qed.

Lemma ph_inside h rest g0 sch g2 o :
  GInv g0 -> rpcof (rth g0 r) = RB -> rscript (rth g0 r) = RLookup k h :: rest ->
  rpcof (rth (lfinal g0 sch) r) <> RB -> rscript (rth (lfinal g0 sch) r) = rest ->
  lstep (lfinal g0 sch) (S r) = Some (g2, o) ->
  exists pc pc', Q (ltrace g0 sch) (gmem (lfinal g0 sch)) pc /\ rtrans (gmem (lfinal g0 sch)) pc pc' o.
Proof.
  intros G Pc Sc Pc1 Sc1 E.
  destruct (ph_run h rest g0 sch G (or_introl (conj Pc Sc))) as [[P _]|[(_ & _ & HI)|P]].
  - contradiction.
  - exists (rpcof (rth (lfinal g0 sch) r)), (rpcof (rth g2 r)). split; [exact HI|apply (own_trans _ r g2 o E Pc1)].
  - exfalso. rewrite Sc1 in P. destruct P as [P|[P _]]; [lia|contradiction].
Qed.
End ReaderInv.

(* item it is installed in the current array: published, or stored by an insert whose tag store is
   still to come (its lifetime starts at the writer's FIRST store and ends at the tag store of the
   removing op, at the replacing item store, or when clear publishes the fresh array) *)
Definition alive_in (it : item) (g : gstate) : Prop :=
  exists s, citem (getcc (cur_arr (gmem g)) s) = Some it /\
            (2 <= ctag (getcc (cur_arr (gmem g)) s) \/ gwpc g = W212 s it \/ exists wt, gwpc g = W222 s it wt).

Definition seen (H : list gstate) (it : item) : Prop := exists gj, In gj H /\ alive_in it gj.

Definition all_seen (H : list gstate) (a : list ccell) : Prop :=
  forall s it, citem (getcc a s) = Some it -> seen H it.

Definition HInv (r : nat) (k : Z) (H : list gstate) (g : gstate) : Prop :=
  match rpcof (rth g r) with
  | RB => True
  | R201 k' _ => k' = k
  | R202 d i k' _ =>
      k' = k /\ (d <= data (gmem g))%nat /\ (d = data (gmem g) \/ all_seen H (getarr (gmem g) d))
  | R203 d i k' _ =>
      k' = k /\ (d <= data (gmem g))%nat /\ (d = data (gmem g) \/ all_seen H (getarr (gmem g) d)) /\
      (forall it, citem (getcc (getarr (gmem g) d) i) = Some it -> seen H it)
  end.

(* HInv as a predicate of the memory and the reader's program counter:
   HInv r k H g is hq k H (gmem g) (rpcof (rth g r)) *)
Definition hq (k : Z) (H : list gstate) (m : mem) (pc : rpc) : Prop :=
  match pc with
  | RB => True
  | R201 k' _ => k' = k
  | R202 d i k' _ => k' = k /\ (d <= data m)%nat /\ (d = data m \/ all_seen H (getarr m d))
  | R203 d i k' _ =>
      k' = k /\ (d <= data m)%nat /\ (d = data m \/ all_seen H (getarr m d)) /\
      (forall it, citem (getcc (getarr m d) i) = Some it -> seen H it)
  end.

Lemma seen_mono H H' it : (forall x, In x H -> In x H') -> seen H it -> seen H' it.
Proof. intros Sub (gj & I & A). exists gj. split; [apply Sub; exact I|exact A]. Qed.

Lemma hq_mono k H H' m pc : (forall x, In x H -> In x H') -> hq k H m pc -> hq k H' m pc.
Proof.
  intros Sub. pose proof (fun it => seen_mono H H' it Sub) as S1.
  assert (D1 : forall d, d = data m \/ all_seen H (getarr m d) -> d = data m \/ all_seen H' (getarr m d)).
  { intros d [D|D]; [left; exact D|right; intros s it Hi; apply S1; apply (D s it Hi)]. }
  destruct pc as [|k' h|d i k' h|d i k' h]; cbn [hq]; try (intros Q; exact Q).
  - intros (Ek & Hd & D). split; [exact Ek|]. split; [exact Hd|exact (D1 d D)].
  - intros (Ek & Hd & D & C). split; [exact Ek|]. split; [exact Hd|]. split; [exact (D1 d D)|].
    intros it Hi. apply S1. apply (C it Hi).
Qed.

Lemma HInv_mono r k H H' g : (forall x, In x H -> In x H') -> HInv r k H g -> HInv r k H' g.
Proof. apply hq_mono. Qed.

Lemma quiet_alive g s it :
  QuietOK (cur_arr (gmem g)) -> citem (getcc (cur_arr (gmem g)) s) = Some it -> alive_in it g.
Proof.
  intros Q Hi. destruct (QuietOK_AWF _ Q) as [A NH]. exists s. split; [exact Hi|]. left.
  destruct (Z_lt_le_dec (ctag (getcc (cur_arr (gmem g)) s)) 2) as [L|L]; [|exact L].
  exfalso. apply (NH s it). split; assumption.
Qed.

(* an item store makes its item alive at once: a replacement lands in a published cell, an insert's
   first store is followed by its tag store *)
Lemma hq_writer k H g g' o pc :
  GInv g -> In g H -> hq k H (gmem g) pc -> lstep g O = Some (g', o) -> hq k (g' :: H) (gmem g') pc.
Proof.
  intros G IH HI E. destruct (wview g g' o G E) as (_ & WF & V).
  destruct (item_store_then_tag_store g g' o E) as (P212 & P222).
  pose proof (fun it => seen_mono H (g' :: H) it (fun x => in_cons g' x H)) as Cons.
  assert (Frozen : forall d, (d <= data (gmem g))%nat ->
            (d = data (gmem g) \/ all_seen H (getarr (gmem g) d)) ->
            (d <= data (gmem g'))%nat /\ (d = data (gmem g') \/ all_seen (g' :: H) (getarr (gmem g') d))).
  { intros d Hd D. destruct V as [(_ & Ed & _ & Eo)|(_ & Ed & Eo & Q)]; rewrite Ed.
    - split; [exact Hd|]. destruct D as [D|D]; [left; exact D|].
      destruct (Nat.eq_dec d (data (gmem g))) as [E0|E0]; [left; exact E0|].
      right. rewrite (Eo d E0). intros s it Hi. apply Cons. apply (D s it Hi).
    - split; [lia|]. right. rewrite (Eo d Hd). intros s it Hi. apply Cons.
      destruct D as [D|D]; [|apply (D s it Hi)].
      subst d. exists g. split; [exact IH|]. apply (quiet_alive g s it Q Hi). }
  destruct pc as [|k' h|d i k' h|d i k' h]; cbn [hq] in *; try exact HI.
  - destruct HI as (Ek & Hd & D). split; [exact Ek|]. apply (Frozen d Hd D).
  - destruct HI as (Ek & Hd & D & C). destruct (Frozen d Hd D) as [F1 F2].
    split; [exact Ek|]. split; [exact F1|]. split; [exact F2|].
    intros it Hi.
    destruct V as [(ND & Ed & Ec & Eo)|(_ & Ed & Eo & Q)].
    + destruct (Nat.eq_dec d (data (gmem g))) as [E0|E0].
      * subst d. fold (cur_arr (gmem g)) in C. assert (Hi' := Hi). rewrite <- Ed in Hi'. fold (cur_arr (gmem g')) in Hi'.
        rewrite Ec in Hi'. destruct (arr_after_item _ _ _ _ Hi') as [Old|[St Li]].
        -- apply Cons. apply (C it Old).
        -- exists g'. split; [left; reflexivity|]. exists i. rewrite Ec. split; [exact Hi'|].
           destruct St as [St|[(wt & St)|[(r1 & r2 & St)|(fa & St)]]].
           ++ right. left. apply (P212 i it St).
           ++ right. right. exists wt. apply (P222 i it wt St).
           ++ left. rewrite St in WF |- *. cbn [arr_after]. rewrite ctag_set_item. destruct WF as (old & _ & T & _). exact T.
           ++ left. rewrite St in WF |- *. cbn [arr_after]. rewrite ctag_set_item. destruct WF as (old & _ & T & _). exact T.
      * rewrite (Eo d E0) in Hi. apply Cons. apply (C it Hi).
    + rewrite (Eo d Hd) in Hi. apply Cons. apply (C it Hi).
Qed.

(* a matching tag (>= 2) read in the current array shows a published cell: its item is alive now *)
Lemma hq_own k H g pc pc' o :
  GInv g -> In g H -> hq k H (gmem g) pc -> pc_ok (gmem g) pc -> rtrans (gmem g) pc pc' o ->
  hq k H (gmem g) pc'.
Proof.
  intros G IH HI OK T.
  destruct T as [k' h|d i k' h T0|d i k' h T0 T|d i k' h T0 T|d i k' h it Ci K|d i k' h NK]; cbn [hq pc_ok] in *;
    try exact I; try exact HI.
  - split; [exact HI|]. split; [lia|left; reflexivity].
  - destruct HI as (Ek & Hd & D). split; [exact Ek|]. split; [exact Hd|]. split; [exact D|]. intros it Hi.
    destruct D as [D|D]; [|apply (D i it Hi)]. subst d. exists g. split; [exact IH|]. exists i.
    split; [exact Hi|]. left. fold (cur_arr (gmem g)) in T. rewrite T, (proj1 OK). apply norm_ge2. apply hashf_nonneg.
  - destruct HI as (Ek & Hd & D & _). split; [exact Ek|]. split; assumption.
Qed.

Lemma hq_hit k H m pc pc' v :
  hq k H m pc -> rtrans m pc pc' [0; 1; v] -> exists it, ikey it = k /\ ival it = v /\ seen H it.
Proof.
  intros HI T. inversion T as [| | | |d i k' h it Ci K|]; subst. destruct HI as (Ek & _ & _ & C).
  exists it. split; [exact Ek|]. split; [reflexivity|apply (C it Ci)].
Qed.

(* A hit is sound, and key and value are the two fields of ONE item.
   g0 is any reachable state in which reader r is at an operation boundary with "Lookup k h" next.
   Whatever happens next (any schedule sch, any number of writer operations), if r is still inside
   that lookup at the end of sch and its next step returns a hit with value v, then there is an item
   object `it` with ikey it = k and ival it = v that was installed in the current array (published, or
   its inserting op had done its first store) in at least one of the states visited since g0:
   the lookup overlaps the item's lifetime. *)
Theorem reader_sound_hit g0 r k h rest sch g2 v :
  reachable g0 ->
  rpcof (rth g0 r) = RB -> rscript (rth g0 r) = RLookup k h :: rest ->
  rpcof (rth (lfinal g0 sch) r) <> RB -> rscript (rth (lfinal g0 sch) r) = rest ->
  lstep (lfinal g0 sch) (S r) = Some (g2, [0; 1; v]) ->
  exists it, ikey it = k /\ ival it = v /\ exists gj, In gj (ltrace g0 sch) /\ alive_in it gj.
Proof.
  intros R Pc Sc Pc1 Sc1 E.
  destruct (ph_inside r k (hq k) (fun _ _ _ => eq_refl) (hq_mono k) (hq_writer k) (hq_own k)
              h rest g0 sch g2 _ (ginv_reachable g0 R) Pc Sc Pc1 Sc1 E) as (pc & pc' & HI & T).
  apply (hq_hit k _ _ _ _ v HI T).
Qed.

Definition absent_cur (k : Z) (g : gstate) : Prop :=
  forall p it, published (cur_arr (gmem g)) p it -> ikey it <> k.
Definition witnessed (H : list gstate) (k : Z) : Prop := exists gj, In gj H /\ absent_cur k gj.

Definition cahead (a : list ccell) (i p : nat) : Prop :=
  exists e, iter_next (length a) e i = p /\
            forall j, (j < e)%nat -> ctag (getcc a (iter_next (length a) j i)) <> 0.
Definition key_ahead (a : list ccell) (i : nat) (k : Z) : Prop :=
  exists p x, published a p x /\ ikey x = k /\ cahead a i p.

(* the key is published ahead of the reader in the array it walks, or was seen absent *)
Definition mq (k : Z) (H : list gstate) (m : mem) (pc : rpc) : Prop :=
  match pc with
  | RB => True
  | R201 k' _ => k' = k
  | R202 d i k' _ | R203 d i k' _ =>
      k' = k /\ (d <= data m)%nat /\ (witnessed H k \/ key_ahead (getarr m d) i k)
  end.

Lemma witnessed_mono H H' k : (forall x, In x H -> In x H') -> witnessed H k -> witnessed H' k.
Proof. intros Sub (gj & I & A). exists gj. split; [apply Sub; exact I|exact A]. Qed.

Lemma mq_mono k H H' m pc : (forall x, In x H -> In x H') -> mq k H m pc -> mq k H' m pc.
Proof.
  intros Sub.
  assert (D1 : forall a i, witnessed H k \/ key_ahead a i k -> witnessed H' k \/ key_ahead a i k).
  { intros a i [D|D]; [left; apply (witnessed_mono H H' k Sub D)|right; exact D]. }
  destruct pc as [|k' h|d i k' h|d i k' h]; cbn [mq]; try (intros Q; exact Q).
  - intros (Ek & Hd & D). split; [exact Ek|]. split; [exact Hd|exact (D1 _ _ D)].
  - intros (Ek & Hd & D). split; [exact Ek|]. split; [exact Hd|exact (D1 _ _ D)].
Qed.

Lemma key_dec a k :
  AWF a -> (exists p x, published a p x /\ ikey x = k) \/ (forall p x, published a p x -> ikey x <> k).
Proof.
  intros A. destruct (amapl (absl a) k) as [x|] eqn:E.
  - left. apply amapl_some in E. destruct E as [[p G] K]. exists p, x. split; [|exact K].
    rewrite getc_absl in G. unfold abs_cell in G. pose proof (aw_tagnn _ A p) as NN.
    destruct (Z.eqb_spec (ctag (getcc a p)) 0); [discriminate G|].
    destruct (Z.eqb_spec (ctag (getcc a p)) 1); [discriminate G|].
    destruct (citem (getcc a p)) as [y|] eqn:Ci; [|discriminate G]. injection G as G. subst y.
    split; [lia|exact Ci].
  - right. intros p x Pb. apply (amapl_none _ _ x E). exists p. apply abs_cell_published. exact Pb.
Qed.

Lemma cahead_home a p x k :
  AWF a -> published a p x -> ikey x = k -> cahead a (home_in (length a) (hashf k)) p.
Proof.
  intros A Pb K. destruct (AWF_creach a p x A Pb) as (d & _ & E & W).
  destruct Pb as [_ Ci]. pose proof (aw_icons _ A p x Ci) as Cx. unfold consistent in Cx.
  rewrite Cx, K in E, W. exists d. split; assumption.
Qed.

Lemma cahead_advance a i p : cahead a i p -> p <> i -> cahead a (next_in (length a) i) p.
Proof.
  intros (e & E & W) N. destruct e as [|e]; [cbn [iter_next] in E; congruence|].
  exists e. split; [exact E|]. intros j Hj. apply (W (S j)). lia.
Qed.

Lemma cahead_here a i p : cahead a i p -> ctag (getcc a i) = 0 -> p = i.
Proof.
  intros (e & E & W) T. destruct e as [|e]; [symmetry; exact E|]. exfalso. apply (W O); [lia|exact T].
Qed.

Lemma key_ahead_after a pc i k :
  AWF a -> weffect_facts a pc -> key_ahead a i k ->
  key_ahead (arr_after a pc) i k \/ (forall q y, published (arr_after a pc) q y -> ikey y <> k).
Proof.
  intros A WF (p & x & [Tp Ip] & K & (e & E & W)).
  (* is the segment the tag store of the removal of p ? *)
  destruct (arr_after_tag a pc p) as [Tsame|[Lp TS]].
  - left.
    assert (Ip' : exists x', citem (getcc (arr_after a pc) p) = Some x' /\ ikey x' = k).
    { (* the cell still holds an item of key k: an item store into it can only be a replacement by an
         item of the same key, the other item stores go to cells with a tag below 2 *)
      rewrite citem_arr_after. destruct (wr_item pc) as [[s x0]|] eqn:Wr; [|exists x; split; assumption].
      destruct (Nat.eqb_spec s p) as [Q|Q]; [subst s|exists x; split; assumption].
      destruct pc as [|k0 h0|d0 i0 k0 h0|d0 i0 k0 h0|s0 x1|s0 x1|s0 x1 r1 r2|fa s0 x1|s0 x1 wt|s0 x1 wt|s0|s0|s0|n0|nd lv]; cbn [wr_item] in Wr; try discriminate Wr; injection Wr as E1 E2; subst x0; rewrite <- E1 in *;
        cbn [weffect_facts] in WF.
      - lia.
      - destruct WF as (old & L & _ & Io & Ko). apply Nat.ltb_lt in L. rewrite L.
        rewrite Ip in Io. injection Io as Io. subst old. exists x1. split; [reflexivity|]. rewrite Ko. exact K.
      - destruct WF as (old & L & _ & Io & Ko). apply Nat.ltb_lt in L. rewrite L.
        rewrite Ip in Io. injection Io as Io. subst old. exists x1. split; [reflexivity|]. rewrite Ko. exact K.
      - lia.
      - lia. }
    destruct Ip' as (x' & Ix' & Kx').
    exists p, x'. split; [split; [rewrite Tsame; exact Tp|exact Ix']|]. split; [exact Kx'|].
    exists e. rewrite length_arr_after. split; [exact E|]. intros j Hj.
    destruct (arr_after_tag a pc (iter_next (length a) j i)) as [Ts|[_ TS]]; [rewrite Ts; apply (W j Hj)|].
    destruct TS as [(it & Epc & V)|[(it & wt & Epc & V)|[[Epc V]|[Epc V]]]]; rewrite V; rewrite Epc in WF.
    + destruct WF as (_ & N2). lia.
    + destruct WF as (_ & N2). lia.
    + lia.
    + exfalso. destruct WF as (_ & Tn).
      assert (En : next_in (length a) (iter_next (length a) j i) = iter_next (length a) (S j) i)
        by (rewrite iter_next_S; reflexivity).
      rewrite En in Tn. destruct (Nat.eq_dec (S j) e) as [Q|Q].
      * rewrite Q, E in Tn. lia.
      * apply (W (S j)); [lia|exact Tn].
  - destruct TS as [(it & Epc & V)|[(it & wt & Epc & V)|[[Epc V]|[Epc V]]]]; rewrite Epc in *.
    + exfalso. destruct WF as (T & _). lia.
    + exfalso. destruct WF as (T & _). lia.
    + right. cbn [arr_after] in *. intros q y [Tq Iq] Ky.
      rewrite citem_set_tag in Iq. rewrite ctag_set_tag in Tq.
      destruct (Nat.eqb_spec p q) as [Q|Q]; cbn [andb] in Tq.
      * apply Nat.ltb_lt in Lp. rewrite Lp in Tq. lia.
      * apply Q. apply (aw_items _ A p q x y Ip Iq). rewrite K, Ky. reflexivity.
    + exfalso. destruct WF as (T & _). lia.
Qed.

Lemma mq_writer k H g g' o pc :
  GInv g -> In g H -> mq k H (gmem g) pc -> lstep g O = Some (g', o) -> mq k (g' :: H) (gmem g') pc.
Proof.
  intros G IH MI E. destruct (wview g g' o G E) as (_ & WF & V).
  assert (Core : forall d i, (d <= data (gmem g))%nat ->
            (witnessed H k \/ key_ahead (getarr (gmem g) d) i k) ->
            (d <= data (gmem g'))%nat /\ (witnessed (g' :: H) k \/ key_ahead (getarr (gmem g') d) i k)).
  { intros d i Hd [Wt|KA]; [split; [destruct V as [(_ & Ed & _)|(_ & Ed & _)]; lia|left; apply (witnessed_mono H); [intros x; apply in_cons|exact Wt]]|].
    destruct V as [(ND & Ed & Ec & Eo)|(_ & Ed & Eo & Q)].
    - rewrite Ed. split; [exact Hd|]. destruct (Nat.eq_dec d (data (gmem g))) as [E0|E0].
      + subst d. fold (cur_arr (gmem g)) in KA. rewrite <- Ed. fold (cur_arr (gmem g')). rewrite Ec.
        destruct (key_ahead_after _ (gwpc g) i k (all_awf g _ G (le_n _)) WF KA) as [KA'|Ab].
        * right. exact KA'.
        * left. exists g'. split; [left; reflexivity|]. unfold absent_cur. rewrite Ec. exact Ab.
      + right. rewrite (Eo d E0). exact KA.
    - rewrite Ed. split; [lia|]. right. rewrite (Eo d Hd). exact KA. }
  destruct pc as [|k' h|d i k' h|d i k' h]; cbn [mq] in *; try exact MI;
    (destruct MI as (Ek & Hd & D); split; [exact Ek|apply (Core d i Hd D)]).
Qed.

(* the walk stays behind the published cell of k: it can only pass a cell whose tag or key differs *)
Lemma mq_own k H g pc pc' o :
  GInv g -> In g H -> mq k H (gmem g) pc -> pc_ok (gmem g) pc -> rtrans (gmem g) pc pc' o ->
  mq k H (gmem g) pc'.
Proof.
  intros G IH MI OK T.
  (* the walk passes cell i, which does not publish k *)
  assert (Adv : forall d i k' h, mq k H (gmem g) (R202 d i k' h) ->
            (forall x, 2 <= ctag (getcc (getarr (gmem g) d) i) -> citem (getcc (getarr (gmem g) d) i) = Some x ->
                       ikey x = k -> False) ->
            mq k H (gmem g) (R202 d (next_in (length (getarr (gmem g) d)) i) k' h)).
  { intros d i k' h (Ek & Hd & D) NP. split; [exact Ek|]. split; [exact Hd|].
    destruct D as [D|(p & x & [Tp Ip] & K & CA)]; [left; exact D|].
    right. exists p, x. split; [split; assumption|]. split; [exact K|].
    apply cahead_advance; [exact CA|]. intros Q. subst p. apply (NP x Tp Ip K). }
  destruct T as [k' h|d i k' h T0|d i k' h T0 T|d i k' h T0 T|d i k' h it Ci K|d i k' h NK]; cbn [pc_ok] in *;
    try exact I; try exact MI.
  - cbn [mq] in *. subst k'. split; [reflexivity|]. split; [lia|].
    pose proof (all_awf g _ G (le_n _)) as A. fold (cur_arr (gmem g)) in *.
    destruct (key_dec (cur_arr (gmem g)) k A) as [(p & x & Pb & K)|Ab].
    + right. exists p, x. split; [exact Pb|]. split; [exact K|]. rewrite OK. apply (cahead_home _ p x k A Pb K).
    + left. exists g. split; [exact IH|exact Ab].
  - apply (Adv d i k' h MI). intros x Tp Ip K. apply T. pose proof (all_awf g d G (proj1 (proj2 MI))) as A.
    destruct (aw_tag _ A i Tp) as (y & Iy & Ty). rewrite Ip in Iy. injection Iy as Iy. subst y.
    rewrite Ty. unfold ntag. rewrite (aw_icons _ A i x Ip), K, (proj1 OK), (proj1 MI). reflexivity.
  - apply (Adv d i k' h MI). intros x _ Ip K. apply (NK x Ip). rewrite K. symmetry. apply MI.
Qed.

Lemma mq_miss k H m pc pc' : mq k H m pc -> rtrans m pc pc' [0; 0; 0] -> witnessed H k.
Proof.
  intros MI T. inversion T as [|d i k' h T0| | | |]; subst. destruct MI as (_ & _ & [D|(p & x & [Tp _] & _ & CA)]); [exact D|].
  exfalso. rewrite (cahead_here _ i p CA T0) in Tp. lia.
Qed.

(* A miss is sound: if the lookup returns a miss, then in at least one of the states visited
   between the reader's first step and its return, key k had no published cell in the current array
   (the array the reader was using at that instant, or the array that had replaced it: an array that
   is replaced is frozen, so "k is published ahead of the reader in its snapshot" persists). *)
Theorem reader_sound_miss g0 r k h rest sch g2 :
  reachable g0 ->
  rpcof (rth g0 r) = RB -> rscript (rth g0 r) = RLookup k h :: rest ->
  rpcof (rth (lfinal g0 sch) r) <> RB -> rscript (rth (lfinal g0 sch) r) = rest ->
  lstep (lfinal g0 sch) (S r) = Some (g2, [0; 0; 0]) ->
  exists gj, In gj (ltrace g0 sch) /\ absent_cur k gj.
Proof.
  intros R Pc Sc Pc1 Sc1 E.
  destruct (ph_inside r k (mq k) (fun _ _ _ => eq_refl) (mq_mono k) (mq_writer k) (mq_own k)
              h rest g0 sch g2 _ (ginv_reachable g0 R) Pc Sc Pc1 Sc1 E) as (pc & pc' & MI & T).
  apply (mq_miss k _ _ _ _ MI T).
Qed.

Lemma lookup_completion g r g2 o :
  lstep g (S r) = Some (g2, o) -> rpcof (rth g r) <> RB -> rpcof (rth g2 r) = RB ->
  o = [0; 0; 0] \/ exists v, o = [0; 1; v].
Proof.
  intros E NB B. destruct (own_trans g r g2 o E NB) as [_ T]. rewrite B in T.
  inversion T; [left; reflexivity|right; eexists; reflexivity].
Qed.

(* a key resident with the same item x during the whole lookup is found, with that very item *)
Corollary resident_key_found g0 r k h rest sch g2 o x :
  reachable g0 ->
  rpcof (rth g0 r) = RB -> rscript (rth g0 r) = RLookup k h :: rest ->
  rpcof (rth (lfinal g0 sch) r) <> RB -> rscript (rth (lfinal g0 sch) r) = rest ->
  lstep (lfinal g0 sch) (S r) = Some (g2, o) -> rpcof (rth g2 r) = RB ->
  ikey x = k -> (forall gj, In gj (ltrace g0 sch) -> exists p, published (cur_arr (gmem gj)) p x) ->
  o = [0; 1; ival x].
Proof.
  intros R Pc Sc Pc1 Sc1 E B K Res.
  destruct (lookup_completion _ r g2 o E Pc1 B) as [Eo|[v Eo]]; subst o.
  - exfalso. destruct (reader_sound_miss g0 r k h rest sch g2 R Pc Sc Pc1 Sc1 E) as (gj & I & Ab).
    destruct (Res gj I) as [p Pb]. apply (Ab p x Pb K).
  - destruct (reader_sound_hit g0 r k h rest sch g2 v R Pc Sc Pc1 Sc1 E) as (it & Ki & Vi & gj & I & (s & Ci & _)).
    destruct (Res gj I) as [p [_ Cp]].
    pose proof (all_awf gj _ (ginv_ltrace sch g0 gj (ginv_reachable g0 R) I) (le_n _)) as A.
    fold (cur_arr (gmem gj)) in A.
    assert (Esp : s = p) by (apply (aw_items _ A s p it x Ci Cp); rewrite Ki, K; reflexivity).
    subst s. rewrite Ci in Cp. injection Cp as Cp. subst it. rewrite Vi. reflexivity.
Qed.

(* no resurrection, no phantom: a key with no installed item during the whole lookup is not found *)
Corollary absent_key_not_found g0 r k h rest sch g2 o :
  reachable g0 ->
  rpcof (rth g0 r) = RB -> rscript (rth g0 r) = RLookup k h :: rest ->
  rpcof (rth (lfinal g0 sch) r) <> RB -> rscript (rth (lfinal g0 sch) r) = rest ->
  lstep (lfinal g0 sch) (S r) = Some (g2, o) -> rpcof (rth g2 r) = RB ->
  (forall gj it, In gj (ltrace g0 sch) -> alive_in it gj -> ikey it <> k) ->
  o = [0; 0; 0].
Proof.
  intros R Pc Sc Pc1 Sc1 E B Ab.
  destruct (lookup_completion _ r g2 o E Pc1 B) as [Eo|[v Eo]]; subst o; [reflexivity|].
  exfalso. destruct (reader_sound_hit g0 r k h rest sch g2 v R Pc Sc Pc1 Sc1 E) as (it & Ki & _ & gj & I & Al).
  apply (Ab gj it I Al Ki).
Qed.

(* a lookup never returns an item of another key, even when tags collide: whatever it returns is the
   value field of an item whose key field is the requested key (one object) *)
Corollary never_wrong_key g0 r k h rest sch g2 v :
  reachable g0 ->
  rpcof (rth g0 r) = RB -> rscript (rth g0 r) = RLookup k h :: rest ->
  rpcof (rth (lfinal g0 sch) r) <> RB -> rscript (rth (lfinal g0 sch) r) = rest ->
  lstep (lfinal g0 sch) (S r) = Some (g2, [0; 1; v]) ->
  exists it, ikey it = k /\ ival it = v.
Proof.
  intros R Pc Sc Pc1 Sc1 E.
  destruct (reader_sound_hit g0 r k h rest sch g2 v R Pc Sc Pc1 Sc1 E) as (it & K & V & _).
  exists it. split; assumption.
Qed.

(* e is the distance from slot i to the first empty slot of array a *)
Definition FE (a : list ccell) (n i e : nat) : Prop :=
  ctag (getcc a (iter_next n e i)) = 0 /\ forall j, (j < e)%nat -> ctag (getcc a (iter_next n j i)) <> 0.

Lemma FE_first a n : forall d i, ctag (getcc a (iter_next n d i)) = 0 -> exists e, (e <= d)%nat /\ FE a n i e.
Proof.
  induction d as [|d IH]; intros i T.
  - exists O. split; [lia|]. split; [exact T|]. intros j Hj. lia.
  - destruct (Z.eq_dec (ctag (getcc a i)) 0) as [Z0|Z0].
    + exists O. split; [lia|]. split; [exact Z0|]. intros j Hj. lia.
    + cbn [iter_next] in T. destruct (IH (next_in n i) T) as (e & He & T' & W').
      exists (S e). split; [lia|]. split; [exact T'|]. intros j Hj. destruct j as [|j]; [exact Z0|].
      cbn [iter_next]. apply W'. lia.
Qed.

Lemma FE_exists a i : AWF a -> (i < length a)%nat -> exists e, (e < length a)%nat /\ FE a (length a) i e.
Proof.
  intros A Hi. destruct (aw_empty _ A) as (e0 & He0 & T0).
  destruct (iter_next_covers (length a) i e0 Hi He0) as (d & Hd & Ed).
  rewrite <- Ed in T0. destruct (FE_first a (length a) d i T0) as (e & He & F). exists e. split; [lia|exact F].
Qed.

Lemma FE_advance a n i e :
  FE a n i e -> ctag (getcc a i) <> 0 -> exists e', e = S e' /\ FE a n (next_in n i) e'.
Proof.
  intros [T W] NZ. destruct e as [|e]; [exfalso; apply NZ; exact T|].
  exists e. split; [reflexivity|]. split; [exact T|]. intros j Hj. apply (W (S j)). lia.
Qed.

Definition is_tagload (g : gstate) (r t : nat) : bool :=
  Nat.eqb t (S r) && match rpcof (rth g r) with R202 _ _ _ _ => true | _ => false end.
(* the writer segments that perform a shared store *)
Definition store_pc (pc : wpc) : bool :=
  match pc with WB | W201 _ _ | W202 _ _ _ _ | W203 _ _ _ _ => false | _ => true end.
Definition is_wstore (g : gstate) (t : nat) : bool := Nat.eqb t O && store_pc (gwpc g).

Fixpoint tagloads (r : nat) (g : gstate) (sch : list nat) : nat :=
  match sch with
  | [] => O
  | t :: s => ((if is_tagload g r t then 1 else 0) + tagloads r (step_or_stay g t) s)%nat
  end.
Fixpoint wstores (g : gstate) (sch : list nat) : nat :=
  match sch with
  | [] => O
  | t :: s => ((if is_wstore g t then 1 else 0) + wstores (step_or_stay g t) s)%nat
  end.

(* after c loads and w writer stores the reader at slot i of a is e slots from the first empty one *)
Definition near (c w : nat) (a : list ccell) (i : nat) : Prop :=
  exists e, FE a (length a) i e /\ (c + e + 1 <= length a * (w + 1))%nat.

Definition tq (c w : nat) (m : mem) (pc : rpc) : Prop :=
  match pc with
  | RB => True
  | R201 _ _ => c = O
  | R202 d i _ _ => (d <= data m)%nat /\ (i < length (getarr m d))%nat /\ near c w (getarr m d) i
  | R203 d i _ _ =>
      (d <= data m)%nat /\ (i < length (getarr m d))%nat /\
      near c w (getarr m d) (next_in (length (getarr m d)) i)
  end.
Definition TInv (r c w : nat) (g : gstate) : Prop := tq c w (gmem g) (rpcof (rth g r)).

Lemma near_mono c w w' a i : near c w a i -> (w <= w')%nat -> near c w' a i.
Proof. intros (e & F & B) L. exists e. split; [exact F|nia]. Qed.

(* a store may move the first empty slot, but it stays less than n away: one more round is allowed *)
Lemma near_refresh c w a a' i :
  near c w a i -> AWF a' -> length a' = length a -> (i < length a)%nat -> near c (S w) a' i.
Proof.
  intros (e & _ & B) A' Len Hi. rewrite <- Len in Hi. destruct (FE_exists a' i A' Hi) as (e' & He' & F').
  exists e'. split; [exact F'|]. rewrite Len in *. nia.
Qed.

Lemma arr_after_nostore A pc : store_pc pc = false -> arr_after A pc = A.
Proof. destruct pc; cbn [store_pc arr_after]; try discriminate; reflexivity. Qed.

Lemma tq_writer c w g g' o pc :
  GInv g -> tq c w (gmem g) pc -> lstep g O = Some (g', o) ->
  tq c (w + (if store_pc (gwpc g) then 1 else 0)) (gmem g') pc.
Proof.
  intros G TI E. pose proof (ginv_step g O g' o G E) as G'.
  destruct (wview g g' o G E) as (_ & _ & V).
  assert (Core : forall d i,
            (d <= data (gmem g))%nat -> (i < length (getarr (gmem g) d))%nat -> near c w (getarr (gmem g) d) i ->
            (d <= data (gmem g'))%nat /\ length (getarr (gmem g') d) = length (getarr (gmem g) d) /\
            near c (w + (if store_pc (gwpc g) then 1 else 0)) (getarr (gmem g') d) i).
  { intros d i Hd Hi N.
    assert (Same : getarr (gmem g') d = getarr (gmem g) d ->
              length (getarr (gmem g') d) = length (getarr (gmem g) d) /\
              near c (w + (if store_pc (gwpc g) then 1 else 0)) (getarr (gmem g') d) i).
    { intros Q. rewrite Q. split; [reflexivity|apply (near_mono c w _ _ _ N); lia]. }
    destruct V as [(ND & Ed & Ec & Eo)|(_ & Ed & Eo & _)]; (split; [lia|]).
    - destruct (Nat.eq_dec d (data (gmem g))) as [E0|E0]; [|apply Same; apply (Eo d E0)].
      subst d. assert (Ec' : getarr (gmem g') (data (gmem g)) = arr_after (cur_arr (gmem g)) (gwpc g))
        by (rewrite <- Ed at 1; exact Ec).
      destruct (store_pc (gwpc g)) eqn:SP; [|apply Same; rewrite Ec'; apply arr_after_nostore; exact SP].
      assert (Len : length (getarr (gmem g') (data (gmem g))) = length (getarr (gmem g) (data (gmem g))))
        by (rewrite Ec'; apply length_arr_after).
      split; [exact Len|]. rewrite Nat.add_1_r.
      apply (near_refresh c w _ _ i N (all_awf g' (data (gmem g)) G' ltac:(lia)) Len Hi).
    - apply Same. apply (Eo d Hd). }
  destruct pc as [|k h|d i k h|d i k h]; cbn [tq] in *; try exact TI.
  - destruct TI as (Hd & Hi & X). destruct (Core d i Hd Hi X) as (C1 & C2 & C3). rewrite C2.
    split; [exact C1|]. split; [exact Hi|exact C3].
  - destruct TI as (Hd & Hi & X).
    destruct (Core d (next_in (length (getarr (gmem g) d)) i) Hd (next_in_lt _ _ Hi) X) as (C1 & C2 & C3).
    rewrite C2. split; [exact C1|]. split; [exact Hi|exact C3].
Qed.

(* a tag load of a non-empty slot brings the reader one slot closer to the first empty one *)
Lemma tq_own c w g pc pc' o :
  GInv g -> tq c w (gmem g) pc -> rtrans (gmem g) pc pc' o ->
  tq (c + (if match pc with R202 _ _ _ _ => true | _ => false end then 1 else 0)) w (gmem g) pc'.
Proof.
  intros G TI T.
  destruct T as [k' h|d i k' h T0|d i k' h T0 T|d i k' h T0 T|d i k' h it Ci K|d i k' h NK]; cbn [tq] in *;
    try exact I.
  - subst c. pose proof (all_awf g _ G (le_n _)) as A. fold (cur_arr (gmem g)) in *.
    assert (Hh : (home_in (length (cur_arr (gmem g))) h < length (cur_arr (gmem g)))%nat)
      by (apply home_in_lt; apply AWF_pos; exact A).
    split; [lia|]. split; [exact Hh|].
    destruct (FE_exists _ _ A Hh) as (e & He & F). exists e. split; [exact F|]. nia.
  - (* 202, matching tag: the load is counted, the slot is not empty *)
    destruct TI as (Hd & Hi & e & F & B). destruct (FE_advance _ _ i e F T0) as (e' & Ee & F'). subst e.
    split; [exact Hd|]. split; [exact Hi|]. exists e'. split; [exact F'|lia].
  - destruct TI as (Hd & Hi & e & F & B). destruct (FE_advance _ _ i e F T0) as (e' & Ee & F'). subst e.
    split; [exact Hd|]. split; [apply next_in_lt; exact Hi|]. exists e'. split; [exact F'|lia].
  - (* 203, key mismatch: an item load is not counted *)
    destruct TI as (Hd & Hi & e & F & B).
    split; [exact Hd|]. split; [apply next_in_lt; exact Hi|]. exists e. split; [exact F|]. lia.
Qed.

Lemma tinv_step r c w g t g' o :
  GInv g -> TInv r c w g -> lstep g t = Some (g', o) -> rpcof (rth g r) <> RB ->
  TInv r (c + (if is_tagload g r t then 1 else 0)) (w + (if is_wstore g t then 1 else 0)) g'.
Proof.
  intros G TI E NB. unfold TInv, is_tagload, is_wstore in *.
  destruct (rth_step g t g' o r E) as [[Nt Eth]|[Et _]].
  - rewrite Eth. destruct t as [|r'].
    + cbn [Nat.eqb andb]. rewrite Nat.add_0_r. apply (tq_writer c w g g' o _ G TI E).
    + destruct (lstep_reader g r' g' o E) as (Em & _). rewrite Em.
      destruct (Nat.eqb_spec (S r') (S r)) as [Q|_]; [destruct (Nt Q)|]. cbn [andb Nat.eqb]. rewrite !Nat.add_0_r. exact TI.
  - subst t. destruct (own_trans g r g' o E NB) as [Em T]. rewrite Em, Nat.eqb_refl. cbn [andb Nat.eqb].
    rewrite (Nat.add_0_r w). apply (tq_own c w g _ _ o G TI T).
Qed.

Lemma tagload_steps g r t : is_tagload g r t = true -> lstep g t <> None.
Proof.
  unfold is_tagload. intros H. apply andb_true_iff in H. destruct H as [Et Pc]. apply Nat.eqb_eq in Et. subst t.
  unfold rth in Pc. cbn [lstep]. destruct (nth_error (grs g) r) as [th|] eqn:N.
  - rewrite (nth_error_nth _ _ idle_reader N) in Pc. unfold rstep.
    destruct (rpcof th) as [|k h|d i k h|d i k h]; try discriminate Pc.
    destruct (lk_from202 (gmem g) d i h); discriminate.
  - rewrite (nth_overflow _ idle_reader) in Pc; [discriminate Pc|]. apply nth_error_None. exact N.
Qed.

Lemma wstore_steps g t : is_wstore g t = true -> lstep g t <> None.
Proof.
  unfold is_wstore. intros H. apply andb_true_iff in H. destruct H as [Et Pc]. apply Nat.eqb_eq in Et. subst t.
  cbn [lstep].
  destruct (wstep (gmem g) (gw g) (gwpc g) (gws g)) as [[[[[m' w'] pc'] o'] ws']|] eqn:W; [discriminate|].
  exfalso. unfold wstep in W. destruct (gwpc g); cbn [store_pc] in Pc; try discriminate Pc; discriminate W.
Qed.

Lemma tinv_run r : forall sch g c w,
  GInv g -> TInv r c w g ->
  (forall gj, In gj (ltrace g sch) -> rpcof (rth gj r) <> RB) ->
  TInv r (c + tagloads r g sch) (w + wstores g sch) (lfinal g sch).
Proof.
  induction sch as [|t s IH]; intros g c w G TI In_.
  - cbn [tagloads wstores lfinal fold_left]. rewrite !Nat.add_0_r. exact TI.
  - cbn [tagloads wstores lfinal fold_left]. fold (lfinal (step_or_stay g t) s).
    assert (NB : rpcof (rth g r) <> RB) by (apply In_; apply ltrace_head).
    assert (In' : forall gj, In gj (ltrace (step_or_stay g t) s) -> rpcof (rth gj r) <> RB).
    { intros gj I. apply In_. cbn [ltrace]. right. exact I. }
    destruct (lstep g t) as [[g1 o]|] eqn:E.
    + assert (Es : step_or_stay g t = g1) by (unfold step_or_stay; rewrite E; reflexivity). rewrite Es in *.
      rewrite !Nat.add_assoc. apply (IH g1 _ _ (ginv_step g t g1 o G E)); [|exact In'].
      apply (tinv_step r c w g t g1 o G TI E NB).
    + assert (Es : step_or_stay g t = g) by (unfold step_or_stay; rewrite E; reflexivity). rewrite Es in *.
      destruct (is_tagload g r t) eqn:TL; [exfalso; apply (tagload_steps g r t TL E)|].
      destruct (is_wstore g t) eqn:WS; [exfalso; apply (wstore_steps g t WS E)|].
      cbn [Nat.add]. apply (IH g c w G TI In').
Qed.

(* The probe bound.  g1: reader r has just started a lookup (parked at 201).  As long as it is still inside
   that lookup, the number of tag loads (slots probed) it has done, PLUS ONE for a last one still to
   come, is at most n * (w + 1): n = size of the array it probes, w = number of writer segments that
   performed a shared store meanwhile.  So a lookup probes at most n * (w + 1) slots, and at most n
   when the writer is idle: every array always has an empty cell. *)
Theorem reader_terminates g1 r k h sch d i k' h' :
  reachable g1 -> rpcof (rth g1 r) = R201 k h ->
  (forall gj, In gj (ltrace g1 sch) -> rpcof (rth gj r) <> RB) ->
  (rpcof (rth (lfinal g1 sch) r) = R202 d i k' h' \/ rpcof (rth (lfinal g1 sch) r) = R203 d i k' h') ->
  (tagloads r g1 sch + 1 <= length (getarr (gmem (lfinal g1 sch)) d) * (wstores g1 sch + 1))%nat.
Proof.
  intros R Pc In_ Fin. pose proof (ginv_reachable g1 R) as G.
  assert (TI : TInv r 0 0 g1) by (unfold TInv; rewrite Pc; reflexivity).
  pose proof (tinv_run r sch g1 0 0 G TI In_) as T. cbn [Nat.add] in T. unfold TInv in T.
  destruct Fin as [F|F]; rewrite F in T; cbv zeta in T; destruct T as (_ & _ & e & _ & B); lia.
Qed.

Corollary reader_terminates_idle_writer g1 r k h sch d i k' h' :
  reachable g1 -> rpcof (rth g1 r) = R201 k h ->
  (forall gj, In gj (ltrace g1 sch) -> rpcof (rth gj r) <> RB) ->
  (rpcof (rth (lfinal g1 sch) r) = R202 d i k' h' \/ rpcof (rth (lfinal g1 sch) r) = R203 d i k' h') ->
  wstores g1 sch = O ->
  (tagloads r g1 sch < length (getarr (gmem (lfinal g1 sch)) d))%nat.
Proof.
  intros R Pc In_ Fin W0. pose proof (reader_terminates g1 r k h sch d i k' h' R Pc In_ Fin) as B.
  rewrite W0 in B. lia.
Qed.

Definition arr_items_ok (Own : item -> Prop) (a : list ccell) : Prop :=
  forall p x, citem (getcc a p) = Some x -> Own x.
(* items are immutable values: the only item objects ever present in shared memory or in the script
   still to run (the operation in progress included) are those of Own *)
Definition ItemsOK (Own : item -> Prop) (g : gstate) : Prop :=
  (exists c a pend, WInvAt (gmem g) (gw g) (gwpc g) (gws g) c a pend /\
                    forall x, In x (script_items (pend ++ gws g)) -> Own x) /\
  (forall d, (d <= data (gmem g))%nat -> arr_items_ok Own (getarr (gmem g) d)).

Lemma arr_items_repeat Own n : arr_items_ok Own (repeat cempty n).
Proof.
  intros p x Q. unfold getcc in Q.
  assert (E : nth p (repeat cempty n) cempty = cempty).
  { clear. revert p. induction n as [|n IH]; intros p; destruct p; cbn [repeat nth]; try reflexivity. apply IH. }
  rewrite E in Q. discriminate Q.
Qed.

(* the item a segment stores is the one of the operation in progress; a rebuilt array holds the items
   of the array it replaces *)
Lemma items_after (Own : item -> Prop) m w pc ws c a pend :
  WInvAt m w pc ws c a pend -> (forall x, In x (script_items pend) -> Own x) ->
  (forall d, (d <= data m)%nat -> arr_items_ok Own (getarr m d)) ->
  forall d, (d <= data (wmem_after m pc))%nat -> arr_items_ok Own (getarr (wmem_after m pc) d).
Proof.
  intros W Sp A. pose proof W as (_ & _ & _ & _ & PI).
  assert (It : forall op it, pend = [op] -> In it (op_items op) -> Own it).
  { intros op it Ep Ii. apply Sp. rewrite Ep. unfold script_items. cbn [flat_map]. rewrite app_nil_r. exact Ii. }
  destruct (wstep_frame _ _ _ _ _ _ _ W) as [(_ & Ed & Ec & Eo)|(Dp & Ed & Eo & _)]; cbv zeta in *; rewrite Ed; intros d Hd.
  - destruct (Nat.eq_dec d (data m)) as [E|E]; [|rewrite (Eo d E); apply (A d Hd)].
    subst d. rewrite <- Ed. fold (cur_arr (wmem_after m pc)). rewrite Ec. intros q x Q.
    destruct (arr_after_item _ _ _ _ Q) as [Old|[St _]]; [apply (A (data m) (le_n _) q x Old)|].
    destruct St as [St|[(wt & St)|[(r1 & r2 & St)|(fa & St)]]]; subst pc; cbn [PcInv] in PI.
    + destruct PI as (op & Ep & _ & IM). exact (It op x Ep (InsMid_item _ _ _ _ _ _ IM)).
    + destruct PI as (op & Ep & _ & IM). exact (It op x Ep (InsMid_item _ _ _ _ _ _ IM)).
    + destruct PI as (op & Ep & _ & RM). exact (It op x Ep (ReplMid_item _ _ _ _ _ _ _ RM)).
    + destruct PI as (op & Ep & _ & RM & _). exact (It op x Ep (ReplMid_item _ _ _ _ _ _ _ RM)).
  - destruct (Nat.eq_dec d (S (data m))) as [E|E]; [|rewrite (Eo d ltac:(lia)); apply A; lia].
    subst d. rewrite <- Ed. fold (cur_arr (wmem_after m pc)).
    destruct pc as [|k h|d i k h|d i k h|dst it|dst it|s it r1 r2|fa s it|s it wt|s it wt|i|i|i|n0|nd lv]; cbn [data_pc] in Dp; try contradiction; cbn [wmem_after PcInv] in *; rewrite cur_store_data.
    + apply arr_items_repeat.
    + destruct (pc251_tables m w nd lv c pend PI) as (t1 & t2 & Hc & _ & _ & End & Sub). subst nd.
      intros p x Q. rewrite getcc_cmap in Q. apply citem_conc in Q. destruct (Sub x (ex_intro _ p Q)) as [q Gq].
      apply (A (data m) (le_n _) q x). fold (cur_arr m). rewrite Hc, getcc_cmap, Gq. reflexivity.
Qed.

Lemma itemsok_step Own g t g' o : ItemsOK Own g -> lstep g t = Some (g', o) -> ItemsOK Own g'.
Proof.
  intros [(c & a & pend & W & Sc) A] E. destruct t as [|r].
  - destruct (lstep_O g g' o E) as [St _]. destruct (wstep_inv _ _ _ _ _ _ _ _ W St) as [Em SO].
    unfold script_items in Sc. rewrite flat_map_app in Sc. split.
    + destruct SO as [(_ & pend' & W' & Ep)|(Epc & op & a' & r1 & r2 & Ep & _ & _ & _ & W')].
      * exists c, a, pend'. split; [exact W'|]. unfold script_items. rewrite Ep, flat_map_app. exact Sc.
      * rewrite Epc. exists (fst (sstep c op)), a', []. split; [exact W'|]. intros x Ix. apply Sc.
        rewrite <- flat_map_app, Ep. cbn [flat_map]. apply in_or_app. right. exact Ix.
    + rewrite Em. apply (items_after Own _ _ _ _ _ _ _ W); [|exact A]. intros x Ix. apply Sc. apply in_or_app. left. exact Ix.
  - cbn [lstep] in E. destruct (nth_error (grs g) r) as [th|]; [|discriminate E].
    destruct (rstep (gmem g) th) as [[th' o']|]; [|discriminate E].
    injection E as E1 E2. subst g' o'. split; [exists c, a, pend; split; assumption|exact A].
Qed.

Lemma itemsok_ltrace Own sch g gj : ItemsOK Own g -> In gj (ltrace g sch) -> ItemsOK Own gj.
Proof. apply (ltrace_inv (ItemsOK Own) (itemsok_step Own)). Qed.

Lemma itemsok_init cap ws rss :
  wproto ainit ws -> ItemsOK (fun x => In x (script_items ws)) (init_state cap ws rss).
Proof.
  intros P. split; [exists (cinit cap), ainit, []; split; [apply (winv_init cap ws rss P)|intros x Ix; exact Ix]|].
  intros d Hd p x Q. exfalso. cbn [init_state gmem data] in Hd. assert (d = O) by lia. subst d.
  apply (arr_items_repeat (fun _ => False) _ p x Q).
Qed.

(* the abstract machine records every item object the script creates ... *)
Lemma wastep_issued a op a' : wastep a op = Some a' -> aissued a' = op_items op ++ aissued a.
Proof.
  intros S. destruct op as [it|k h|k h|it| |it| ]; cbn [op_items app];
    try apply (wastep_ins a _ a' it S (or_introl eq_refl)); cbn [wastep] in S.
  - apply (wastep_remove a k h a' S).
  - apply (wastep_probe a k h a' S).
  - injection S as S. subst a'. reflexivity.
  - injection S as S. subst a'. reflexivity.
Qed.

(* ... and Rel keeps identities distinct among them (r_ids): run the whole script abstractly *)
Lemma wproto_issued : forall ws c a,
  Rel hashf c a -> wproto a ws ->
  exists c' a', Rel hashf c' a' /\ forall x, In x (script_items ws) \/ In x (aissued a) -> In x (aissued a').
Proof.
  induction ws as [|op ws IH]; intros c a R P.
  - exists c, a. split; [exact R|]. intros x [[]|I]. exact I.
  - destruct P as (a1 & S & P'). destruct (IH _ _ (sstep_refines c a op a1 R S) P') as (c' & a' & R' & Sub).
    exists c', a'. split; [exact R'|]. intros x I. apply Sub. rewrite (wastep_issued a op a1 S).
    unfold script_items in I. cbn [flat_map] in I.
    destruct I as [I|I]; [apply in_app_or in I; destruct I as [I|I]|]; [right|left; exact I|right]; apply in_or_app;
      [left|right]; exact I.
Qed.

(* In any execution from the initial state with writer script ws: a hit returns the key
   and the value of ONE item object `it`, which is the object created by ONE operation of the script
   (no other operation of the script created an object with that identity).  Item objects are
   immutable values: ItemsOK says no reachable state holds any other item object anywhere. *)
Theorem single_item_snapshot cap ws rss sch0 r k h rest sch g2 v :
  wproto ainit ws -> Forall (Forall rop_ok) rss ->
  let g0 := lfinal (init_state cap ws rss) sch0 in
  rpcof (rth g0 r) = RB -> rscript (rth g0 r) = RLookup k h :: rest ->
  rpcof (rth (lfinal g0 sch) r) <> RB -> rscript (rth (lfinal g0 sch) r) = rest ->
  lstep (lfinal g0 sch) (S r) = Some (g2, [0; 1; v]) ->
  exists it, In it (script_items ws) /\ ikey it = k /\ ival it = v /\
             (forall it', In it' (script_items ws) -> iid it' = iid it -> it' = it).
Proof.
  intros P F g0 Pc Sc Pc1 Sc1 E.
  assert (R : reachable g0).
  { exists cap, ws, rss, sch0. split; [exact P|]. split; [exact F|]. unfold g0. apply lfinal_lrun. }
  destruct (reader_sound_hit g0 r k h rest sch g2 v R Pc Sc Pc1 Sc1 E) as (it & K & V & gj & I & (s & Ci & _)).
  assert (IO : ItemsOK (fun x => In x (script_items ws)) gj).
  { apply (itemsok_ltrace _ sch g0 gj); [|exact I]. unfold g0.
    pose proof (itemsok_ltrace _ sch0 (init_state cap ws rss) (lfinal (init_state cap ws rss) sch0)
                  (itemsok_init cap ws rss P) (ltrace_final sch0 _)) as Q. exact Q. }
  destruct IO as (_ & A). pose proof (A (data (gmem gj)) (le_n _) s it Ci) as Ii. cbn beta in Ii.
  exists it. split; [exact Ii|]. split; [exact K|]. split; [exact V|].
  intros it' Ii' Eid. destruct (wproto_issued ws _ _ (Rel_init hashf cap) P) as (c' & a' & R' & Sub).
  apply (r_ids _ _ _ R' it' it (Sub _ (or_introl Ii')) (Sub _ (or_introl Ii)) Eid).
Qed.

End Lts.

Module Flicker.
(* keys 1 and 2 collide on hash 5 (same tag, home slot 5 of 8); fillers 10..14 hash to 8..12 (slots 0..4) *)
Definition hf (k : Z) : Z := if k <? 10 then 5 else k - 2.
Lemma hf_nonneg k : 0 <= hf k.
Proof. unfold hf. destruct (Z.ltb_spec k 10); lia. Qed.
Definition mk (k v id : Z) : item := {| ikey := k; ihash := hf k; ival := v; iid := id |}.

Definition ws : list wop :=
  [WStore (mk 1 10 0); WStore (mk 10 100 1); WStore (mk 11 110 2); WStore (mk 12 120 3); WStore (mk 13 130 4);
   WRemove 1 5; WStore (mk 14 140 5); WProbe 2 5; WPublish (mk 2 50 6)].
Definition rss : list (list rop) := [[RLookup 2 5]; [RLookup 2 5]; [RLookup 2 5]].
Definition g0 := init_state 0 ws rss.

Definition W := O. Definition R1 := 1%nat. Definition R2 := 2%nat. Definition R3 := 3%nat.
Definition sch : list nat :=
  repeat W 15 ++                      (* five inserts: key 1 sits in slot 5 *)
  [R1; R1; R1] ++                     (* reader 1: 201, 202, loads the MATCHING tag of key 1's cell, parks at 203 *)
  repeat W 7 ++                       (* Remove 1: lookup, tag:=1, item:=nil, reclaim tag:=0 *)
  repeat W 3 ++                       (* one more insert (key 14) *)
  [W] ++                              (* Probe 2: absent, cursor on slot 5 *)
  [W; W] ++                           (* Publish (2,50): parks at 221, then ITEM store, parks at 222 *)
  [R1] ++                             (* reader 1 loads the item of slot 5: the re-inserted one -> HIT 50 *)
  [R2; R2; R2] ++                     (* reader 2, started after reader 1 returned: tag of slot 5 is 0 -> MISS *)
  [W] ++                              (* Publish's TAG store; load bound reached: rebuild, parks at 251 *)
  [R3; R3; R3; R3] ++                 (* reader 3: HIT 50 -- Publish has still not completed *)
  [W].                                (* rehash's data store: Publish completes only now *)

Definition obs := snd (lrun g0 sch).

Example ws_protocol : wproto hf ainit ws.
Proof. cbn [ws wproto]. repeat (eexists; split; [vm_compute; reflexivity|]). exact I. Qed.

Example g0_reachable : reachable hf (lfinal g0 sch).
Proof.
  apply reachable_lfinal. exists 0, ws, rss, []. split; [exact ws_protocol|]. split; [|reflexivity].
  repeat constructor.
Qed.

(* the tail of the execution, from Publish's entry on *)
Example flicker_observations :
  skipn 29 (combine sch obs) =
  [(W, [221; 0; 0]); (W, [222; 0; 0]);                              (* item stored, tag still 0 *)
   (R1, [0; 1; 50]);                                                  (* PRESENT (stale tag of key 1 + new item) *)
   (R2, [201; 0; 0]); (R2, [202; 0; 0]); (R2, [0; 0; 0]);             (* ABSENT *)
   (W, [251; 0; 0]);                                                  (* tag stored; Publish still in progress *)
   (R3, [201; 0; 0]); (R3, [202; 0; 0]); (R3, [203; 0; 0]); (R3, [0; 1; 50]);  (* PRESENT *)
   (W, [0; 0; 0])].                                                   (* the ONE write operation completes here *)
Proof. vm_compute. reflexivity. Qed.

(* reader 1 had loaded the matching tag of the PREVIOUS occupant (key 1) of slot 5 *)
Example reader1_parked_on_old_tag :
  let g := lfinal g0 (firstn 18 sch) in
  rpcof (rth g 0) = R203 0 5 2 5 /\
  getcc (cur_arr (gmem g)) 5 = {| ctag := 5; citem := Some (mk 1 10 0) |}.
Proof. vm_compute. split; reflexivity. Qed.

(* when reader 1 returns, slot 5 is half-written: tag 0 (empty!) with the new item *)
Example slot_half_written :
  let g := lfinal g0 (firstn 31 sch) in
  getcc (cur_arr (gmem g)) 5 = {| ctag := 0; citem := Some (mk 2 50 6) |} /\ gwpc g = W222 5 (mk 2 50 6) false.
Proof. vm_compute. split; reflexivity. Qed.

(* A reachable execution (one writer, three readers) in which the SAME key is observed
   present, then absent, then present, all strictly inside ONE writer operation (the Publish):
   the first reader returns before the second starts, the second before the third starts, and the
   writer completes no operation in between. Lookups are therefore not atomic with respect to
   whole writer operations. *)
Theorem atomic_flicker_refuted :
  exists (ws : list wop) (rss : list (list rop)) (sch1 sch2 sch3 sch4 : list nat) (v : Z),
    wproto hf ainit ws /\
    let g0 := init_state 0 ws rss in
    let g1 := lfinal g0 sch1 in               (* the writer is parked at 222: item stored, tag not yet *)
    let g2 := lfinal g1 sch2 in let g3 := lfinal g2 sch3 in let g4 := lfinal g3 sch4 in
    gwpc g1 = W222 5 (mk 2 v 6) false /\
    (* reader 1 (which loaded a matching tag from the slot's previous occupant) returns the new item *)
    sch2 = [1%nat] /\ snd (lrun g1 sch2) = [[0; 1; v]] /\
    (* reader 2 runs a whole lookup after that, and misses *)
    sch3 = [2; 2; 2]%nat /\ rpcof (rth g2 1) = RB /\ last (snd (lrun g2 sch3)) [] = [0; 0; 0] /\
    (* reader 3 runs a whole lookup after that (the writer did its tag store in between), and hits *)
    sch4 = [0; 3; 3; 3; 3]%nat /\ rpcof (rth g3 2) = RB /\ last (snd (lrun g3 sch4)) [] = [0; 1; v] /\
    (* and the writer's operation is still not complete *)
    gwpc g4 <> WB /\ completions (filter (fun o => true) (snd (lrun g3 [O]))) = [].
Proof.
  exists ws, rss, (firstn 31 sch), [1%nat], [2; 2; 2]%nat, [0; 3; 3; 3; 3]%nat, 50.
  split; [exact ws_protocol|]. vm_compute. repeat split; try reflexivity; discriminate.
Qed.
End Flicker.

Module NonVacuity.
Definition hf (k : Z) : Z := 5.
Lemma hf_nonneg k : 0 <= hf k.
Proof. unfold hf. lia. Qed.
Definition mk (k v id : Z) : item := {| ikey := k; ihash := 5; ival := v; iid := id |}.

(* colliding keys 1, 2, 3 (slots 5, 6, 7); remove 2 (tombstone in slot 6: slot 7 is occupied);
   re-insert 2 into the tombstone; two readers looking for 3 and 2, interleaved at every yield *)
Definition ws : list wop :=
  [WStore (mk 1 10 0); WStore (mk 2 20 1); WStore (mk 3 30 2); WRemove 2 5; WStore (mk 2 21 3)].
Definition rss : list (list rop) := [[RLookup 3 5; RLookup 2 5]; [RLookup 2 5; RLookup 2 5]].
Definition g0 := init_state 0 ws rss.
Definition sch : list nat := concat (repeat [0; 1; 2]%nat 30).

Example ws_protocol : wproto hf ainit ws.
Proof. cbn [ws wproto]. repeat (eexists; split; [vm_compute; reflexivity|]). exact I. Qed.

Example g0_reachable : reachable hf g0.
Proof. exists 0, ws, rss, []. split; [exact ws_protocol|]. split; [|reflexivity]. repeat constructor. Qed.

(* WFc holds in each of the 91 states of the execution (by the theorem, not by evaluation) *)
Example wfc_every_state : Forall (WFc hf) (ltrace g0 sch).
Proof.
  apply Forall_forall. intros g I. apply GInv_WFc; [exact hf_nonneg|].
  apply (ginv_ltrace hf hf_nonneg sch g0 g); [|exact I]. apply (ginv_reachable hf hf_nonneg). exact g0_reachable.
Qed.

(* what the three threads observed, in completion order (thread, observation) *)
Example observations :
  filter (fun x => is_completion (snd x)) (combine sch (snd (lrun g0 sch))) =
  [(O, [0; 0; 0]);            (* writer: Store 1 *)
   (1%nat, [0; 0; 0]);        (* reader 1: Lookup 3 missed (key 3 not yet stored) *)
   (2%nat, [0; 0; 0]);        (* reader 2: Lookup 2 missed (it overlapped the insert of key 2) *)
   (O, [0; 0; 0]);            (* writer: Store 2 *)
   (O, [0; 0; 0]);            (* writer: Store 3 *)
   (1%nat, [0; 1; 20]);       (* reader 1: Lookup 2 *)
   (2%nat, [0; 1; 20]);       (* reader 2: Lookup 2 *)
   (O, [0; 1; 0]);            (* writer: Remove 2 *)
   (O, [0; 0; 0])].           (* writer: Store 2 again, into the tombstone *)
Proof. vm_compute. reflexivity. Qed.

(* the execution does go through half-written cells: a removal between its two stores ... *)
Example passes_through_half_removal :
  exists g, nth_error (ltrace g0 sch) 46 = Some g /\ gwpc g = W232 6 /\
            getcc (cur_arr (gmem g)) 6 = {| ctag := 1; citem := Some (mk 2 20 1) |}.
Proof. eexists. split; [vm_compute; reflexivity|]. vm_compute. split; reflexivity. Qed.

(* ... and an insert into the tombstone between its two stores *)
Example passes_through_half_insert :
  exists g, nth_error (ltrace g0 sch) 55 = Some g /\ gwpc g = W212 6 (mk 2 21 3) /\
            getcc (cur_arr (gmem g)) 6 = {| ctag := 1; citem := Some (mk 2 21 3) |}.
Proof. eexists. split; [vm_compute; reflexivity|]. vm_compute. split; reflexivity. Qed.
End NonVacuity.

(* the stream interface declares the same script (item ids from the counter, as ht_step does) *)
Example stream_declares_script :
  let decls : list (list Z) :=
    [[1;0;1;1;5;10]; [1;0;1;2;5;20]; [1;0;1;3;5;30]; [1;0;1;4;5;40]; [1;0;2;2;5;0]; [1;0;3;5;5;0];
     [1;0;2;4;5;0]; [1;0;2;3;5;0]; [1;0;4;5;5;50]; [1;0;3;1;5;0]; [1;0;6;1;5;11]; [1;0;2;9;5;0];
     [1;0;3;7;5;0]; [1;0;7;0;0;0]; [1;0;4;6;5;60]; [1;0;1;1;5;12]; [1;0;1;6;5;61];
     [1;2;10;3;5;0]; [1;1;10;2;5;0]] in
  let g := fold_left (fun g o => fst (htl_step g o)) decls (htl_init [0]) in
  gws g = AloneExample.ws /\
  map rscript (grs g) = [[RLookup 2 5]; [RLookup 3 5]] /\
  snd (htl_step g [2; 0]) = [211; 0; 0] /\ snd (htl_step g [2; 2]) = [201; 0; 0] /\ snd (htl_step g [2; 3]) = [-1].
Proof. vm_compute. repeat split; reflexivity. Qed.

Print Assumptions wfc_invariant.
Print Assumptions old_arrays_frozen.
Print Assumptions writer_alone_refines_sequential.
Print Assumptions reader_sound_hit.
Print Assumptions reader_sound_miss.
Print Assumptions resident_key_found.
Print Assumptions absent_key_not_found.
Print Assumptions single_item_snapshot.
Print Assumptions reader_terminates.
Print Assumptions Flicker.atomic_flicker_refuted.
Print Assumptions NonVacuity.wfc_every_state.
