(* ShutdownApply.v: the end of Close against calls that drain a shard's ring after Close has finished (finding F15).

   Go code modelled (cache.go Close, writes.go applyWriteBatch / clearDirect), one shard:
     Close, last steps:   [finalized.Store(true)]          (only in the repaired code: parameter [fixed])
                          s.mu.Lock(); clearShard(s); s.mu.Unlock()
     a late drainer:      s.mu.Lock(); for each Set command: if finalized { skip } else { applySet }; s.mu.Unlock()
   A late drainer is any call that began before Close and reaches applyWriteBatch afterwards with a command that
   was published during shutdown (Sync, Clear, a SieveTinyLFU Get miss, the helper of a synchronous writer).
   Any number of them, every interleaving.  [size] counts the entries of the shard. *)
From Coq Require Import List Arith Bool Lia.
Import ListNotations.

Inductive pcC := C0 | C1 | C2 | C3 | CDone.           (* before the flag / flag set / lock held / cleared / released *)
Inductive pcD := D0 | D1 | D2 | DDone.                 (* before the lock / lock held / command handled / released *)

Record st := mkSt { fin : bool; lock : option nat; size : nat; pcc : pcC; pcd : list pcD }.
(* lock owner: 0 = the closer, S i = drainer i *)

Inductive label := LC | LD (i : nat).

Fixpoint upd_nth (l : list pcD) (i : nat) (x : pcD) : list pcD :=
  match l, i with
  | [], _ => []
  | _ :: r, O => x :: r
  | y :: r, S j => y :: upd_nth r j x
  end.

Definition step (fixed : bool) (s : st) (l : label) : option st :=
  match l with
  | LC =>
      match pcc s with
      | C0 => Some (mkSt (if fixed then true else fin s) (lock s) (size s) C1 (pcd s))
      | C1 => match lock s with
              | None => Some (mkSt (fin s) (Some 0) (size s) C2 (pcd s))
              | Some _ => None
              end
      | C2 => Some (mkSt (fin s) (lock s) 0 C3 (pcd s))
      | C3 => Some (mkSt (fin s) None (size s) CDone (pcd s))
      | CDone => None
      end
  | LD i =>
      match nth_error (pcd s) i with
      | Some D0 => match lock s with
                   | None => Some (mkSt (fin s) (Some (S i)) (size s) (pcc s) (upd_nth (pcd s) i D1))
                   | Some _ => None
                   end
      | Some D1 => Some (mkSt (fin s) (lock s) (if fin s then size s else S (size s)) (pcc s) (upd_nth (pcd s) i D2))
      | Some D2 => Some (mkSt (fin s) None (size s) (pcc s) (upd_nth (pcd s) i DDone))
      | _ => None
      end
  end.

Definition init (n0 : nat) (k : nat) : st := mkSt false None n0 C0 (repeat D0 k).

Inductive reachable (fixed : bool) (n0 k : nat) : st -> Prop :=
| r_init : reachable fixed n0 k (init n0 k)
| r_step s l s' : reachable fixed n0 k s -> step fixed s l = Some s' -> reachable fixed n0 k s'.

Fixpoint exec (fixed : bool) (s : st) (ls : list label) : option st :=
  match ls with
  | [] => Some s
  | l :: r => match step fixed s l with Some s1 => exec fixed s1 r | None => None end
  end.

(* the invariant of the repaired code: the flag is up from the closer's first step on, and once the closer has
   cleared the shard it stays empty *)
Definition Inv (s : st) : Prop :=
  (pcc s <> C0 -> fin s = true) /\ ((pcc s = C3 \/ pcc s = CDone) -> size s = 0).

Lemma inv_step s l s' : Inv s -> step true s l = Some s' -> Inv s'.
Proof.
  intros [Hf Hz] H. destruct l as [|i]; cbn [step] in H.
  - destruct (pcc s) eqn:E.
    + injection H as <-. split; cbn; [reflexivity|]. intros [X|X]; discriminate.
    + destruct (lock s); [discriminate|]. injection H as <-. split; cbn.
      * intros _. apply Hf. discriminate.
      * intros [X|X]; discriminate.
    + injection H as <-. split; cbn.
      * intros _. apply Hf. discriminate.
      * reflexivity.
    + injection H as <-. split; cbn.
      * intros _. apply Hf. discriminate.
      * intros _. apply Hz. left. reflexivity.
    + discriminate.
  - destruct (nth_error (pcd s) i) as [[| | |]|]; try discriminate.
    + destruct (lock s); [discriminate|]. injection H as <-. split; cbn; assumption.
    + injection H as <-. split; cbn; [assumption|].
      intros X. assert (F : fin s = true).
      { apply Hf. destruct X as [X|X]; rewrite X; discriminate. }
      rewrite F. apply Hz. exact X.
    + injection H as <-. split; cbn; assumption.
Qed.

Lemma inv_reachable n0 k s : reachable true n0 k s -> Inv s.
Proof.
  induction 1 as [|s l s' R IH S].
  - split; cbn; [congruence|]. intros [X|X]; discriminate.
  - eapply inv_step; eassumption.
Qed.

(* F15, repaired code: whatever the late drainers do and whenever they do it, once Close has returned the shard is
   empty and stays empty (for any number of drainers and any initial contents) *)
Theorem closed_cache_stays_empty n0 k s :
  reachable true n0 k s -> pcc s = CDone -> size s = 0.
Proof. intros R E. apply (inv_reachable _ _ _ R). right. exact E. Qed.

(* the code before the repair: one late drainer, the schedule of the harness's lateDrainProbe (Close runs to
   completion, then the drainer applies its command) leaves an entry in the closed cache *)
Theorem closed_cache_refuted_before_fix :
  exists s, exec false (init 1 1) [LC; LC; LC; LC; LD 0; LD 0; LD 0] = Some s /\
            pcc s = CDone /\ pcd s = [DDone] /\ size s = 1.
Proof. eexists. split; [vm_compute; reflexivity|]. repeat split. Qed.

Lemma exec_reachable fixed n0 k ls : forall s s', reachable fixed n0 k s -> exec fixed s ls = Some s' -> reachable fixed n0 k s'.
Proof.
  induction ls as [|l r IH]; cbn [exec]; intros s s' R E.
  - injection E as <-. exact R.
  - destruct (step fixed s l) as [s1|] eqn:S1; [|discriminate]. eapply IH; [|exact E]. econstructor; eassumption.
Qed.

(* non-vacuity of the theorem: the same schedule on the repaired code is a reachable run, and ends empty *)
Example same_schedule_after_fix :
  exists s, exec true (init 1 1) [LC; LC; LC; LC; LD 0; LD 0; LD 0] = Some s /\
            reachable true 1 1 s /\ pcc s = CDone /\ pcd s = [DDone] /\ size s = 0.
Proof.
  eexists. split; [vm_compute; reflexivity|]. split.
  - apply (exec_reachable true 1 1 [LC; LC; LC; LC; LD 0; LD 0; LD 0] (init 1 1)); [apply r_init|]. vm_compute. reflexivity.
  - repeat split.
Qed.

Print Assumptions closed_cache_stays_empty.
Print Assumptions closed_cache_refuted_before_fix.
