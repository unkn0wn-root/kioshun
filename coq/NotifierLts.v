(* NotifierLts.v — executable labelled transition system of the delivery of removal notifications
   (kioshun: shard.go dropItem / stageRemoval, eviction.go removeNotifyWorker / drainRemovals, cache.go Close).
   Threads: any number of Mutators (scripts of removals `(sh, id)`, five atomic steps each: the caller's
   mu.Lock, stageRemoval's append, dropItem's removePending.Store(true) and signal(removeWake), the caller's
   Unlock), the single Notifier (select; per shard: load flag / lock / swap / clear flag /
   unlock / one listener call per step, a listener call may run a nested stage on the notifier thread),
   and a Closer (close(closeCh); wait for the notifier to have exited).
   One `step` runs one atomic action of one thread.  No proofs in this file (NotifierProofs.v). *)
Require Import KV.Base.
Local Open Scope nat_scope.

(* who holds a shard lock *)
Inductive owner := OwMut (t : nat) | OwNot.

Record shard := mkShard {
  buf : list Z;            (* s.removeBuf: staged notification ids, oldest first *)
  pending : bool;          (* s.removePending *)
  mu : option owner        (* s.mu *)
}.

(* progress of one removal (dropItem under its caller's lock): before mu.Lock / after Lock / after
   stageRemoval's append / after removePending.Store(true) / after signal(removeWake) (before Unlock) *)
Inductive mpc := MIdle | MLocked | MAppended | MFlagged | MSignalled.

(* a mutator: remaining script (head = the operation in progress when mpos <> MIdle) *)
Record mutator := mkMut { script : list (nat * Z); mpos : mpc }.

Inductive npc :=
| NSelect                                   (* parked at the select of removeNotifyWorker *)
| NCheck (i : nat)                          (* drainRemovals, shard i: about to Load removePending *)
| NLock (i : nat)                           (* about to s.mu.Lock() *)
| NSwap (i : nat)                           (* holding the lock: buf := removeBuf; removeBuf = nil *)
| NClear (i : nat)                          (* removePending.Store(false) *)
| NUnlock (i : nat)                         (* s.mu.Unlock() *)
| NDeliver (i : nat)                        (* listener loop over the swapped-out buffer (`hand`) *)
| NReent (i : nat) (p : mpc) (j : nat) (y : Z)  (* inside a listener call: nested stageRemoval(j, y) at p *)
| NExited.                                  (* worker returned (workers.Done) *)

Inductive cpc := CStart | CWait | CDone.

Record state := mkSt {
  nsh : nat;
  shards : nat -> shard;
  wakeTok : bool;                 (* removeWake holds its (single) token *)
  closeCh : bool;                 (* closeCh is closed *)
  muts : nat -> mutator;
  npos : npc;
  hand : list Z;                  (* rest of the swapped-out buffer still to be delivered *)
  final : bool;                   (* this drain is the closeCh one *)
  cpos : cpc;
  staged : list (nat * Z);        (* ghost: every (shard, id) ever appended, in order *)
  delivered : list (nat * Z);     (* ghost: every listener call, in order *)
  late : list (nat * Z)           (* ghost: ids whose flag store came after the final visit of their shard *)
}.

Definition set_shards (s : state) (v : nat -> shard) : state :=
  mkSt (nsh s) v (wakeTok s) (closeCh s) (muts s) (npos s) (hand s) (final s) (cpos s) (staged s) (delivered s) (late s).
Definition set_wakeTok (s : state) (v : bool) : state :=
  mkSt (nsh s) (shards s) v (closeCh s) (muts s) (npos s) (hand s) (final s) (cpos s) (staged s) (delivered s) (late s).
Definition set_closeCh (s : state) (v : bool) : state :=
  mkSt (nsh s) (shards s) (wakeTok s) v (muts s) (npos s) (hand s) (final s) (cpos s) (staged s) (delivered s) (late s).
Definition set_muts (s : state) (v : nat -> mutator) : state :=
  mkSt (nsh s) (shards s) (wakeTok s) (closeCh s) v (npos s) (hand s) (final s) (cpos s) (staged s) (delivered s) (late s).
Definition set_npos (s : state) (v : npc) : state :=
  mkSt (nsh s) (shards s) (wakeTok s) (closeCh s) (muts s) v (hand s) (final s) (cpos s) (staged s) (delivered s) (late s).
Definition set_hand (s : state) (v : list Z) : state :=
  mkSt (nsh s) (shards s) (wakeTok s) (closeCh s) (muts s) (npos s) v (final s) (cpos s) (staged s) (delivered s) (late s).
Definition set_final (s : state) (v : bool) : state :=
  mkSt (nsh s) (shards s) (wakeTok s) (closeCh s) (muts s) (npos s) (hand s) v (cpos s) (staged s) (delivered s) (late s).
Definition set_cpos (s : state) (v : cpc) : state :=
  mkSt (nsh s) (shards s) (wakeTok s) (closeCh s) (muts s) (npos s) (hand s) (final s) v (staged s) (delivered s) (late s).
Definition set_staged (s : state) (v : list (nat * Z)) : state :=
  mkSt (nsh s) (shards s) (wakeTok s) (closeCh s) (muts s) (npos s) (hand s) (final s) (cpos s) v (delivered s) (late s).
Definition set_delivered (s : state) (v : list (nat * Z)) : state :=
  mkSt (nsh s) (shards s) (wakeTok s) (closeCh s) (muts s) (npos s) (hand s) (final s) (cpos s) (staged s) v (late s).
Definition set_late (s : state) (v : list (nat * Z)) : state :=
  mkSt (nsh s) (shards s) (wakeTok s) (closeCh s) (muts s) (npos s) (hand s) (final s) (cpos s) (staged s) (delivered s) v.

(* function update *)
Definition fupd {A : Type} (f : nat -> A) (i : nat) (x : A) : nat -> A :=
  fun k => if k =? i then x else f k.

Definition set_shard (s : state) (i : nat) (d : shard) : state := set_shards s (fupd (shards s) i d).

(* the notifier's FINAL drain has already made its (only) visit of shard sh:
   it loaded removePending = false there, or it swapped the buffer out *)
Definition passed (s : state) (sh : nat) : bool :=
  final s &&
  match npos s with
  | NSelect => false
  | NCheck i | NLock i | NSwap i => sh <? i
  | NClear i | NUnlock i | NDeliver i | NReent i _ _ _ => sh <=? i
  | NExited => true
  end.

(* one atomic step of the removal of id on shard sh (see mpc) at progress p, run by `who` *)
Definition stage_step (s : state) (who : owner) (p : mpc) (sh : nat) (id : Z) : option (state * mpc) :=
  let d := shards s sh in
  match p with
  | MIdle =>
      match mu d with
      | None => Some (set_shard s sh (mkShard (buf d) (pending d) (Some who)), MLocked)
      | Some _ => None                                   (* blocked in mu.Lock *)
      end
  | MLocked =>
      Some (set_staged (set_shard s sh (mkShard (buf d ++ [id]) (pending d) (mu d))) (staged s ++ [(sh, id)]),
            MAppended)
  | MAppended =>
      let s1 := set_shard s sh (mkShard (buf d) true (mu d)) in
      Some (if passed s sh then set_late s1 (late s ++ [(sh, id)]) else s1, MFlagged)
  | MFlagged => Some (set_wakeTok s true, MSignalled)    (* non-blocking send, capacity 1: coalesces *)
  | MSignalled => Some (set_shard s sh (mkShard (buf d) (pending d) None), MIdle)
  end.

Definition mut_step (s : state) (t : nat) : option state :=
  let m := muts s t in
  match script m with
  | [] => None
  | (sh, id) :: r =>
      if sh <? nsh s then
        match stage_step s (OwMut t) (mpos m) sh id with
        | None => None
        | Some (s1, p') =>
            Some (set_muts s1 (fupd (muts s1) t
                    (mkMut (match p' with MIdle => r | _ => script m end) p')))
        end
      else None
  end.

(* re: the listener's re-entrant staging (delivered id -> optional (shard, new id));
   c: resolution of a select with both cases ready (true prefers closeCh) *)
Definition not_step (re : Z -> option (nat * Z)) (c : bool) (s : state) : option state :=
  match npos s with
  | NSelect =>
      if wakeTok s && negb (c && closeCh s) then Some (set_npos (set_wakeTok s false) (NCheck 0))
      else if closeCh s then Some (set_final (set_npos s (NCheck 0)) true)
      else None
  | NCheck i =>
      if i <? nsh s then
        if pending (shards s i) then Some (set_npos s (NLock i)) else Some (set_npos s (NCheck (S i)))
      else Some (set_npos s (if final s then NExited else NSelect))
  | NLock i =>
      let d := shards s i in
      match mu d with
      | None => Some (set_npos (set_shard s i (mkShard (buf d) (pending d) (Some OwNot))) (NSwap i))
      | Some _ => None
      end
  | NSwap i =>
      let d := shards s i in
      Some (set_npos (set_hand (set_shard s i (mkShard [] (pending d) (mu d))) (buf d)) (NClear i))
  | NClear i =>
      let d := shards s i in
      Some (set_npos (set_shard s i (mkShard (buf d) false (mu d))) (NUnlock i))
  | NUnlock i =>
      let d := shards s i in
      Some (set_npos (set_shard s i (mkShard (buf d) (pending d) None)) (NDeliver i))
  | NDeliver i =>
      match hand s with
      | [] => Some (set_npos s (NCheck (S i)))
      | x :: r =>
          let s1 := set_delivered (set_hand s r) (delivered s ++ [(i, x)]) in
          match re x with
          | Some (j, y) => if j <? nsh s then Some (set_npos s1 (NReent i MIdle j y)) else Some s1
          | None => Some s1
          end
      end
  | NReent i p j y =>
      match stage_step s OwNot p j y with
      | None => None
      | Some (s1, p') =>
          Some (set_npos s1 (match p' with MIdle => NDeliver i | _ => NReent i p' j y end))
      end
  | NExited => None
  end.

Definition close_step (s : state) : option state :=
  match cpos s with
  | CStart => Some (set_cpos (set_closeCh s true) CWait)          (* close(c.closeCh) *)
  | CWait => match npos s with NExited => Some (set_cpos s CDone) | _ => None end   (* workers.Wait *)
  | CDone => None
  end.

Inductive label := LMut (t : nat) | LNot (c : bool) | LClose.

Definition step (re : Z -> option (nat * Z)) (s : state) (l : label) : option state :=
  match l with
  | LMut t => mut_step s t
  | LNot c => not_step re c s
  | LClose => close_step s
  end.

Definition init (n : nat) (scripts : list (list (nat * Z))) : state :=
  mkSt n (fun _ => mkShard [] false None) false false
       (fun t => mkMut (nth t scripts []) MIdle)
       NSelect [] false CStart [] [] [].

Fixpoint exec (re : Z -> option (nat * Z)) (s : state) (ls : list label) : option state :=
  match ls with
  | [] => Some s
  | l :: r => match step re s l with Some s1 => exec re s1 r | None => None end
  end.

Inductive reachable (re : Z -> option (nat * Z)) (n : nat) (scripts : list (list (nat * Z))) : state -> Prop :=
| reach_init : reachable re n scripts (init n scripts)
| reach_step s l s' : reachable re n scripts s -> step re s l = Some s' -> reachable re n scripts s'.

(* per-shard projection of a ghost list *)
Definition proj (sh : nat) (l : list (nat * Z)) : list Z :=
  map snd (filter (fun p => fst p =? sh) l).

(* for the observation of a state in examples: bufs and pending flags of shards 0..n-1 *)
Definition bufs (s : state) : list (list Z) := map (fun k => buf (shards s k)) (seq 0 (nsh s)).
Definition pendings (s : state) : list bool := map (fun k => pending (shards s k)) (seq 0 (nsh s)).

(* ------------------------------------------------------------------ order-swapped MUTANT (not the Go code)
   stageRemoval with the signal sent BEFORE removePending.Store(true).  Used only to show that the
   flag-before-signal order of the real code is necessary (NotifierProofs.signal_before_flag_loses_wake).
   The `late` ghost is not maintained here. *)
Definition stage_step_sigfirst (s : state) (who : owner) (p : mpc) (sh : nat) (id : Z) : option (state * mpc) :=
  let d := shards s sh in
  match p with
  | MAppended => Some (set_wakeTok s true, MFlagged)                                  (* signal first *)
  | MFlagged => Some (set_shard s sh (mkShard (buf d) true (mu d)), MSignalled)       (* then the flag *)
  | _ => stage_step s who p sh id
  end.

Definition mut_step_sigfirst (s : state) (t : nat) : option state :=
  let m := muts s t in
  match script m with
  | [] => None
  | (sh, id) :: r =>
      if sh <? nsh s then
        match stage_step_sigfirst s (OwMut t) (mpos m) sh id with
        | None => None
        | Some (s1, p') =>
            Some (set_muts s1 (fupd (muts s1) t
                    (mkMut (match p' with MIdle => r | _ => script m end) p')))
        end
      else None
  end.

Definition step_sigfirst (re : Z -> option (nat * Z)) (s : state) (l : label) : option state :=
  match l with
  | LMut t => mut_step_sigfirst s t
  | LNot c => not_step re c s
  | LClose => close_step s
  end.

Fixpoint exec_sigfirst (re : Z -> option (nat * Z)) (s : state) (ls : list label) : option state :=
  match ls with
  | [] => Some s
  | l :: r => match step_sigfirst re s l with Some s1 => exec_sigfirst re s1 r | None => None end
  end.
