(* A verified linearizability checker for per-key histories of a lossy map.
   Executable (extracts with ExtrOcamlBasic). *)
From Coq Require Import List ZArith Lia Bool Arith Permutation.
Require Import KV.Base.
Import ListNotations.
Open Scope Z_scope.

Inductive kop : Type :=
| KSet (v : Z) (err : bool)
| KGet (res : option Z)
| KDelete (ok : bool)
| KExists (ok : bool).

Record call : Type := mkCall { inv : Z; ret : Z; op : kop }.

(* the exact (loss-free) register: state, operation with its observed result, next state *)
Inductive reg_step : option Z -> kop -> option Z -> Prop :=
| rs_set_ok   s v : reg_step s (KSet v false) (Some v)
| rs_set_err  s v : reg_step s (KSet v true) s
| rs_get      s   : reg_step s (KGet s) s
| rs_del_hit  v   : reg_step (Some v) (KDelete true) None
| rs_del_miss     : reg_step None (KDelete false) None
| rs_ex_hit   v   : reg_step (Some v) (KExists true) (Some v)
| rs_ex_miss      : reg_step None (KExists false) None.

(* [le a b]: a is b after zero or one silent loss step (Some v -> None) *)
Definition le (a b : option Z) : Prop := a = b \/ a = None.

(* a run of the lossy register over a sequence of calls, from a start content to a final content;
   loss steps may happen before every call and at the end *)
Inductive lrun : option Z -> list call -> option Z -> Prop :=
| lrun_nil s t : le t s -> lrun s [] t
| lrun_cons s s0 s1 c r t :
    le s0 s -> reg_step s0 (op c) s1 -> lrun s1 r t -> lrun s (c :: r) t.

(* a sequence respects real time: nobody placed later returned before an earlier one was invoked *)
Inductive rt_ok : list call -> Prop :=
| rt_nil : rt_ok []
| rt_cons c r : Forall (fun d => ~ ret d < inv c) r -> rt_ok r -> rt_ok (c :: r).

Definition linearizable_to (init : option Z) (h : list call) (t : option Z) : Prop :=
  exists l, Permutation l h /\ rt_ok l /\ lrun init l t.

Definition linearizable (init : option Z) (h : list call) : Prop :=
  exists t, linearizable_to init h t.

Lemma le_refl a : le a a.
Proof. left; reflexivity. Qed.

Lemma le_none a : le None a.
Proof. right; reflexivity. Qed.

Lemma le_trans a b c : le a b -> le b c -> le a c.
Proof. unfold le; intros [-> | ->] [-> | ->]; auto. Qed.

Lemma le_none_inv a : le a None -> a = None.
Proof. intros [H|H]; exact H. Qed.

#[local] Hint Resolve le_refl le_none : core.

Lemma rt_ok_app_inv l1 l2 : rt_ok (l1 ++ l2) -> rt_ok l1 /\ rt_ok l2.
Proof.
  induction l1 as [|c l1 IH]; cbn [app]; intros H.
  - split; [constructor | exact H].
  - inversion H as [|? ? HF HR]; subst.
    destruct (IH HR) as [H1 H2]. split; [|exact H2].
    constructor; [|exact H1].
    apply Forall_app in HF. apply HF.
Qed.

Lemma rt_ok_remove l1 c l2 : rt_ok (l1 ++ c :: l2) -> rt_ok (l1 ++ l2).
Proof.
  induction l1 as [|d l1 IH]; cbn [app]; intros H.
  - inversion H; assumption.
  - inversion H as [|? ? HF HR]; subst. constructor; [|auto].
    apply Forall_app in HF. destruct HF as [HF1 HF2].
    apply Forall_app. split; [exact HF1|]. inversion HF2; assumption.
Qed.

Lemma rt_ok_mid A b R :
  rt_ok (A ++ b :: R) ->
  (forall a, In a R -> ~ ret a < inv b) /\ (forall a, In a A -> ~ ret b < inv a).
Proof.
  induction A as [|d A IH]; cbn [app]; intros H.
  - inversion H as [|? ? HF HR]; subst. split.
    + intros a Ha. rewrite Forall_forall in HF. exact (HF a Ha).
    + intros a [].
  - inversion H as [|? ? HF HR]; subst. destruct (IH HR) as [H1 H2]. split; [exact H1|].
    intros a [<- | Ha]; [|exact (H2 a Ha)].
    rewrite Forall_forall in HF. apply HF. apply in_or_app. right; left; reflexivity.
Qed.

Lemma rt_ok_iff l :
  rt_ok l <-> (forall l1 a l2 b l3, l = l1 ++ a :: l2 ++ b :: l3 -> ~ ret b < inv a).
Proof.
  split.
  - intros H l1 a l2 b l3 ->.
    apply rt_ok_app_inv in H. destruct H as [_ H].
    inversion H as [|? ? HF _]; subst.
    rewrite Forall_forall in HF. apply HF. apply in_or_app; right; left; reflexivity.
  - induction l as [|c l IH]; intros H; constructor.
    + rewrite Forall_forall. intros d Hd.
      apply in_split in Hd. destruct Hd as [l2 [l3 ->]].
      apply (H [] c l2 d l3). reflexivity.
    + apply IH. intros l1 a l2 b l3 ->.
      apply (H (c :: l1) a l2 b l3). reflexivity.
Qed.

Lemma rt_ok_front c l1 l2 rest :
  rt_ok (l1 ++ c :: l2) -> Permutation (l1 ++ l2) rest ->
  (forall d, In d rest -> ~ ret d < inv c) ->
  rt_ok (c :: l1 ++ l2).
Proof.
  intros H HP Hmin. constructor.
  - rewrite Forall_forall. intros d Hd. apply Hmin. eapply Permutation_in; eauto.
  - eapply rt_ok_remove; eauto.
Qed.

Lemma lrun_app_inv s A R t : lrun s (A ++ R) t -> exists m, lrun s A m /\ lrun m R t.
Proof.
  revert s; induction A as [|c A IH]; cbn [app]; intros s H.
  - exists s. split; [constructor; auto | exact H].
  - inversion H as [|? s0 s1 ? ? ? Hle Hst Hr]; subst.
    destruct (IH _ Hr) as [m [H1 H2]]. exists m. split; [|exact H2].
    econstructor; eauto.
Qed.

Lemma lrun_weaken_start s s' l t : le s s' -> lrun s l t -> lrun s' l t.
Proof.
  intros Hle H. inversion H; subst.
  - constructor. eapply le_trans; eauto.
  - econstructor; [eapply le_trans; eauto | eauto | eauto].
Qed.

Lemma lrun_weaken_end s l t t' : le t' t -> lrun s l t -> lrun s l t'.
Proof.
  intros Hle H. induction H.
  - constructor. eapply le_trans; eauto.
  - econstructor; eauto.
Qed.

Lemma lrun_app s A m R t : lrun s A m -> lrun m R t -> lrun s (A ++ R) t.
Proof.
  intros H1 H2. induction H1; cbn [app].
  - eapply lrun_weaken_start; eauto.
  - econstructor; eauto.
Qed.

Lemma linearizable_iff_none init h : linearizable init h <-> linearizable_to init h None.
Proof.
  split.
  - intros [t [l [HP [HR HL]]]]. exists l. repeat split; auto.
    eapply lrun_weaken_end; [|exact HL]. auto.
  - intros H. exists None. exact H.
Qed.

Definition oz_eqb (a b : option Z) : bool :=
  match a, b with
  | Some x, Some y => x =? y
  | None, None => true
  | _, _ => false
  end.

Lemma oz_eqb_spec a b : oz_eqb a b = true <-> a = b.
Proof.
  destruct a as [x|], b as [y|]; cbn; try (split; congruence).
  rewrite Z.eqb_eq. split; congruence.
Qed.

Lemma oz_eqb_refl a : oz_eqb a a = true.
Proof. apply oz_eqb_spec; reflexivity. Qed.

(* One call under loss: because a loss may precede the call, the best (largest w.r.t. le)
   content after the call is a function of the content before it. *)
Definition lstep (s : option Z) (o : kop) : option (option Z) :=
  match o with
  | KSet v false => Some (Some v)
  | KSet _ true => Some s
  | KGet None => Some None
  | KGet (Some v) => if oz_eqb s (Some v) then Some s else None
  | KDelete true => match s with Some _ => Some None | None => None end
  | KDelete false => Some None
  | KExists true => match s with Some _ => Some s | None => None end
  | KExists false => Some None
  end.

Lemma lstep_sound s o s1 :
  lstep s o = Some s1 -> exists s0, le s0 s /\ reg_step s0 o s1.
Proof.
  destruct o as [v [|]|[v|]|[|]|[|]]; cbn [lstep]; intros H;
    try (destruct (oz_eqb s (Some v)) eqn:E; [apply oz_eqb_spec in E; subst s|discriminate]);
    try (destruct s as [x|]; [|discriminate]); injection H as <-;
    eexists; (split; [|constructor]); auto.
Qed.

(* where the exact step needs the content present (s0 = Some v), no loss happened before it,
   so s0 = s *)
Lemma lstep_complete s s0 o s1 :
  le s0 s -> reg_step s0 o s1 -> exists s1', lstep s o = Some s1' /\ le s1 s1'.
Proof.
  intros Hle Hst. destruct Hst; cbn [lstep]; try destruct s0 as [v|];
    try (destruct Hle as [<- | Hle]; [|discriminate]); rewrite ?oz_eqb_refl; eauto.
Qed.

Lemma lstep_mono a b o a' :
  le a b -> lstep a o = Some a' -> exists b', lstep b o = Some b' /\ le a' b'.
Proof.
  intros Hle H. apply lstep_sound in H. destruct H as [s0 [H0 Hst]].
  eapply lstep_complete; [|exact Hst]. eapply le_trans; eauto.
Qed.

Definition is_ok_set (o : kop) : bool :=
  match o with KSet _ false => true | _ => false end.

Lemma lstep_shrinks s o s1 : is_ok_set o = false -> lstep s o = Some s1 -> le s1 s.
Proof.
  destruct o as [v [|]|[v|]|[|]|[|]]; cbn; intros Hn H; try discriminate;
    try destruct (oz_eqb s (Some v)); try destruct s; inversion H; auto.
Qed.

Fixpoint drun (s : option Z) (l : list call) : option (option Z) :=
  match l with
  | [] => Some s
  | c :: r => match lstep s (op c) with Some s1 => drun s1 r | None => None end
  end.

Lemma drun_mono a b l f :
  le a b -> drun a l = Some f -> exists f', drun b l = Some f' /\ le f f'.
Proof.
  revert a b; induction l as [|c l IH]; cbn [drun]; intros a b Hle H.
  - inversion H; subst. eauto.
  - destruct (lstep a (op c)) as [a1|] eqn:E; [|discriminate].
    destruct (lstep_mono _ _ _ _ Hle E) as [b1 [Eb Hle1]]. rewrite Eb. eauto.
Qed.

Lemma drun_app s A R : drun s (A ++ R) = match drun s A with Some m => drun m R | None => None end.
Proof.
  revert s; induction A as [|c A IH]; cbn [app drun]; intros s; [reflexivity|].
  destruct (lstep s (op c)); auto.
Qed.

Lemma drun_remove s l1 c l2 f :
  is_ok_set (op c) = false ->
  drun s (l1 ++ c :: l2) = Some f -> exists f', drun s (l1 ++ l2) = Some f' /\ le f f'.
Proof.
  intros Hn H. rewrite drun_app in *. destruct (drun s l1) as [m|]; [|discriminate].
  cbn [drun] in H. destruct (lstep m (op c)) as [m1|] eqn:E; [|discriminate].
  eapply drun_mono; [|exact H]. eapply lstep_shrinks; eauto.
Qed.

Lemma lrun_drun s l t : lrun s l t <-> exists f, drun s l = Some f /\ le t f.
Proof.
  split.
  - intros H. induction H as [s t Hle | s s0 s1 c r t Hle Hst Hr IH].
    + exists s. split; [reflexivity | exact Hle].
    + destruct IH as [f [Hf Htf]].
      destruct (lstep_complete _ _ _ _ Hle Hst) as [s1' [E Hle1]].
      destruct (drun_mono _ _ _ _ Hle1 Hf) as [f' [Hf' Hff']].
      exists f'. cbn [drun]. rewrite E. split; [exact Hf' | eapply le_trans; eauto].
  - revert s; induction l as [|c l IH]; cbn [drun]; intros s [f [Hf Htf]].
    + inversion Hf; subst. constructor; exact Htf.
    + destruct (lstep s (op c)) as [s1|] eqn:E; [|discriminate].
      destruct (lstep_sound _ _ _ E) as [s0 [Hle Hst]].
      econstructor; eauto.
Qed.

(* all ways to pick one element, with the remaining ones (order preserved) *)
Fixpoint picks (l : list call) : list (call * list call) :=
  match l with
  | [] => []
  | c :: r => (c, r) :: map (fun p => (fst p, c :: snd p)) (picks r)
  end.

Lemma picks_perm l c rest : In (c, rest) (picks l) -> Permutation (c :: rest) l.
Proof.
  revert c rest; induction l as [|d l IH]; cbn [picks]; intros c rest H; [destruct H|].
  destruct H as [H|H].
  - inversion H; subst. apply Permutation_refl.
  - apply in_map_iff in H. destruct H as [[c' r'] [E Hin]]. cbn in E. inversion E; subst.
    apply IH in Hin. eapply perm_trans; [apply perm_swap|]. constructor. exact Hin.
Qed.

Lemma picks_in l c : In c l -> exists rest, In (c, rest) (picks l).
Proof.
  induction l as [|d l IH]; cbn [picks]; intros H; [destruct H|].
  destruct H as [-> | H].
  - exists l. left; reflexivity.
  - destruct (IH H) as [rest Hr]. exists (d :: rest). right.
    apply in_map_iff. exists (c, rest). split; [reflexivity | exact Hr].
Qed.

Lemma picks_length l c rest : In (c, rest) (picks l) -> length l = S (length rest).
Proof.
  intros H. apply picks_perm in H. apply Permutation_length in H. cbn in H. congruence.
Qed.

Definition is_min (c : call) (rest : list call) : bool :=
  forallb (fun d => negb (ret d <? inv c)) rest.

Lemma is_min_spec c rest : is_min c rest = true <-> (forall d, In d rest -> ~ ret d < inv c).
Proof.
  unfold is_min. rewrite forallb_forall. split; intros H d Hd; specialize (H d Hd).
  - apply negb_true_iff in H. apply Z.ltb_ge in H. lia.
  - apply negb_true_iff. apply Z.ltb_ge. lia.
Qed.

(* a pick that can be committed to without backtracking: minimal, enabled, not a successful
   Set, and leaving the content unchanged *)
Definition greedy (s : option Z) (p : call * list call) : bool :=
  negb (is_ok_set (op (fst p)))
  && match lstep s (op (fst p)) with Some s1 => oz_eqb s1 s | None => false end
  && is_min (fst p) (snd p).

Lemma greedy_spec s c rest :
  greedy s (c, rest) = true <->
  is_ok_set (op c) = false /\ lstep s (op c) = Some s /\ is_min c rest = true.
Proof.
  unfold greedy. cbn [fst snd]. rewrite !andb_true_iff, negb_true_iff.
  destruct (lstep s (op c)) as [s1|]; [rewrite oz_eqb_spec|]; intuition congruence.
Qed.

Section Search.
  Variable fin : option Z -> bool.

  Fixpoint search (fuel : nat) (s : option Z) (rem : list call) : bool :=
    match rem with
    | [] => fin s
    | _ :: _ =>
      match fuel with
      | O => false
      | S f =>
        let ps := picks rem in
        match find (greedy s) ps with
        | Some p => search f s (snd p)
        | None =>
          existsb (fun p =>
                     is_min (fst p) (snd p)
                     && match lstep s (op (fst p)) with
                        | Some s1 => search f s1 (snd p)
                        | None => false
                        end) ps
        end
      end
    end.

  Lemma search_unfold f s rem :
    rem <> [] ->
    search (S f) s rem =
    match find (greedy s) (picks rem) with
    | Some p => search f s (snd p)
    | None => existsb (fun p => is_min (fst p) (snd p)
                        && match lstep s (op (fst p)) with
                           | Some s1 => search f s1 (snd p) | None => false end)
                      (picks rem)
    end.
  Proof. destruct rem; [congruence | reflexivity]. Qed.

  Definition dlin (s : option Z) (rem : list call) : Prop :=
    exists l f, Permutation l rem /\ rt_ok l /\ drun s l = Some f /\ fin f = true.

  Lemma dlin_nil s : dlin s [] <-> fin s = true.
  Proof.
    split.
    - intros (l & f & HP & _ & HD & HF). apply Permutation_sym, Permutation_nil in HP. subst l.
      injection HD as <-. exact HF.
    - intros H. exists [], s. repeat split; auto. constructor.
  Qed.

  Lemma dlin_pick s s1 rem c rest :
    In (c, rest) (picks rem) -> is_min c rest = true -> lstep s (op c) = Some s1 ->
    dlin s1 rest -> dlin s rem.
  Proof.
    intros Hin Hmin E (l & f & HP & HR & HD & HF). exists (c :: l), f. repeat split; auto.
    - eapply perm_trans; [|apply picks_perm; exact Hin]. constructor; exact HP.
    - constructor; [|exact HR]. rewrite Forall_forall. intros d Hd.
      apply (proj1 (is_min_spec c rest) Hmin). eapply Permutation_in; eauto.
    - cbn [drun]. rewrite E. exact HD.
  Qed.

  Lemma search_sound fuel : forall s rem, search fuel s rem = true -> dlin s rem.
  Proof.
    induction fuel as [|fuel IH]; intros s rem H;
      (destruct rem as [|c0 rem0]; [apply dlin_nil; exact H|]); [discriminate|].
    rewrite search_unfold in H by discriminate.
    destruct (find _ _) as [[c rest]|] eqn:Ef.
    - cbn [snd] in H. apply find_some in Ef as [Hin Hg]. apply greedy_spec in Hg as (_ & E & Hmin).
      eapply dlin_pick; eauto.
    - apply existsb_exists in H as [[c rest] [Hin Hb]]. cbn [fst snd] in Hb.
      apply andb_true_iff in Hb as [Hmin Hs].
      destruct (lstep s (op c)) as [s1|] eqn:E; [|discriminate].
      eapply dlin_pick; eauto.
  Qed.

  Hypothesis fin_up : forall a b, le a b -> fin a = true -> fin b = true.

  Lemma search_complete fuel :
    forall s rem, (length rem <= fuel)%nat -> dlin s rem -> search fuel s rem = true.
  Proof.
    induction fuel as [|fuel IH]; intros s rem Hlen HL;
      (destruct rem as [|c0 rem0]; [exact (proj1 (dlin_nil s) HL)|]); [cbn in Hlen; lia|].
    rewrite search_unfold by discriminate.
    destruct HL as (l & f & HP & HR & HD & HF).
    destruct (find _ _) as [[c rest]|] eqn:Ef.
    - (* a greedy pick can be moved to the front of any linearization *)
      cbn [snd]. apply find_some in Ef as [Hin Hg]. apply greedy_spec in Hg as (Hns & E & Hmin).
      pose proof (picks_perm _ _ _ Hin) as HPr.
      assert (Hc : In c l).
      { eapply Permutation_in; [apply Permutation_sym; exact HP|].
        eapply Permutation_in; [exact HPr|]. left; reflexivity. }
      apply in_split in Hc. destruct Hc as [l1 [l2 ->]].
      assert (HP' : Permutation (l1 ++ l2) rest).
      { apply Permutation_cons_inv with (a := c).
        eapply perm_trans; [apply Permutation_middle|].
        eapply perm_trans; [exact HP|]. apply Permutation_sym; exact HPr. }
      destruct (drun_remove _ _ _ _ _ Hns HD) as [f' [HD' Hle]].
      apply IH.
      + apply picks_length in Hin. lia.
      + exists (l1 ++ l2), f'. repeat split; auto.
        * eapply rt_ok_remove; eauto.
        * eapply fin_up; eauto.
    - destruct l as [|c l'].
      { apply Permutation_nil in HP. discriminate. }
      assert (Hc : In c (c0 :: rem0)) by (eapply Permutation_in; [exact HP | left; reflexivity]).
      destruct (picks_in _ _ Hc) as [rest Hin].
      pose proof (picks_perm _ _ _ Hin) as HPr.
      assert (HP' : Permutation l' rest).
      { apply Permutation_cons_inv with (a := c).
        eapply perm_trans; [exact HP | apply Permutation_sym; exact HPr]. }
      apply existsb_exists. exists (c, rest). split; [exact Hin|]. cbn [fst snd].
      inversion HR as [|? ? HFa HR']; subst.
      apply andb_true_iff. split.
      + apply is_min_spec. intros d Hd. rewrite Forall_forall in HFa. apply HFa.
        eapply Permutation_in; [apply Permutation_sym; exact HP' | exact Hd].
      + cbn [drun] in HD. destruct (lstep s (op c)) as [s1|] eqn:E; [|discriminate].
        apply IH.
        * apply picks_length in Hin. lia.
        * exists l', f. repeat split; auto.
  Qed.
End Search.

Lemma search_nil fin f s : search fin f s [] = fin s.
Proof. destruct f; reflexivity. Qed.

Lemma search_fuel fin :
  (forall a b, le a b -> fin a = true -> fin b = true) ->
  forall f1 f2 s rem, (length rem <= f1)%nat -> (length rem <= f2)%nat ->
  search fin f1 s rem = search fin f2 s rem.
Proof.
  intros Hup f1 f2 s rem H1 H2. apply eq_true_iff_eq.
  split; intros H; apply search_complete; auto; eapply search_sound; eauto.
Qed.

(* The remaining calls are a sub-list of the history h, represented by a mask over h. *)
Fixpoint select (h : list call) (m : list bool) : list call :=
  match h, m with
  | c :: h', true :: m' => c :: select h' m'
  | _ :: h', false :: m' => select h' m'
  | _, _ => []
  end.

Fixpoint picks_m (h : list call) (m : list bool) : list (call * list bool) :=
  match h, m with
  | c :: h', true :: m' =>
      (c, false :: m') :: map (fun p => (fst p, true :: snd p)) (picks_m h' m')
  | _ :: h', false :: m' => map (fun p => (fst p, false :: snd p)) (picks_m h' m')
  | _, _ => []
  end.

Lemma picks_m_spec h : forall m,
  map (fun p => (fst p, select h (snd p))) (picks_m h m) = picks (select h m).
Proof.
  induction h as [|c h IH]; intros m; [destruct m; reflexivity|].
  destruct m as [|[|] m]; cbn [picks_m select picks map fst snd]; [reflexivity| |].
  - f_equal. rewrite <- IH. rewrite !map_map. apply map_ext. intros [d m']; reflexivity.
  - rewrite <- IH. rewrite !map_map. apply map_ext. intros [d m']; reflexivity.
Qed.

Lemma select_all h : select h (repeat true (length h)) = h.
Proof. induction h as [|c h IH]; cbn; [reflexivity | rewrite IH; reflexivity]. Qed.

(* a binary trie from masks to the contents known to fail for that mask *)
Inductive btrie : Type :=
| BLeaf
| BNode (here : list (option Z)) (f t : btrie).

Fixpoint bt_mem (t : btrie) (m : list bool) (s : option Z) : bool :=
  match t with
  | BLeaf => false
  | BNode here f t' =>
    match m with
    | [] => existsb (oz_eqb s) here
    | b :: m' => bt_mem (if b then t' else f) m' s
    end
  end.

Fixpoint bt_add (t : btrie) (m : list bool) (s : option Z) : btrie :=
  match m with
  | [] => match t with
          | BLeaf => BNode [s] BLeaf BLeaf
          | BNode here f t' => BNode (s :: here) f t'
          end
  | b :: m' =>
    match t with
    | BLeaf => if b then BNode [] BLeaf (bt_add BLeaf m' s) else BNode [] (bt_add BLeaf m' s) BLeaf
    | BNode here f t' =>
      if b then BNode here f (bt_add t' m' s) else BNode here (bt_add f m' s) t'
    end
  end.

Lemma bt_mem_leaf m s : bt_mem BLeaf m s = false.
Proof. reflexivity. Qed.

Lemma bt_mem_add : forall m t m' s s',
  bt_mem (bt_add t m s) m' s' = true -> (m' = m /\ s' = s) \/ bt_mem t m' s' = true.
Proof.
  induction m as [|b m IH]; intros t m' s s' H.
  - destruct t as [|here f t']; cbn [bt_add] in H.
    + destruct m' as [|b' m']; cbn in H.
      * rewrite orb_false_r in H. apply oz_eqb_spec in H. left; auto.
      * destruct b'; discriminate.
    + destruct m' as [|b' m']; cbn [bt_mem] in *.
      * cbn [existsb] in H. apply orb_true_iff in H. destruct H as [H|H]; [|right; exact H].
        apply oz_eqb_spec in H. left; auto.
      * right; exact H.
  - destruct t as [|here f t']; cbn [bt_add] in H.
    + destruct b; destruct m' as [|[|] m']; cbn [bt_mem existsb] in H; try discriminate.
      * apply IH in H. destruct H as [[-> ->]|H]; [left; auto | discriminate].
      * apply IH in H. destruct H as [[-> ->]|H]; [left; auto | discriminate].
    + destruct b; destruct m' as [|[|] m']; cbn [bt_mem] in *; auto.
      * apply IH in H. destruct H as [[-> ->]|H]; [left; auto | right; exact H].
      * apply IH in H. destruct H as [[-> ->]|H]; [left; auto | right; exact H].
Qed.

Section Memo.
  Variable fin : option Z -> bool.
  Variable h : list call.

  (* a candidate: (picked call, remaining calls) and the mask of the remaining calls *)
  Definition cand : Type := ((call * list call) * list bool)%type.

  Definition cands (m : list bool) : list cand :=
    map (fun p => ((fst p, select h (snd p)), snd p)) (picks_m h m).

  Lemma cands_fst m : map fst (cands m) = picks (select h m).
  Proof. unfold cands. rewrite map_map. cbn [fst]. apply picks_m_spec. Qed.

  Lemma cands_snd m q : In q (cands m) -> snd (fst q) = select h (snd q).
  Proof.
    unfold cands. intros H. apply in_map_iff in H. destruct H as [p [<- _]]. reflexivity.
  Qed.

  Fixpoint mexists (F : cand -> btrie -> bool * btrie) (l : list cand) (t : btrie)
    : bool * btrie :=
    match l with
    | [] => (false, t)
    | q :: r => let (b, t1) := F q t in if b then (true, t1) else mexists F r t1
    end.

  Fixpoint msearch (fuel : nat) (s : option Z) (m : list bool) (t : btrie) : bool * btrie :=
    match select h m with
    | [] => (fin s, t)
    | _ :: _ =>
      match fuel with
      | O => (false, t)
      | S f =>
        if bt_mem t m s then (false, t) else
        let ps := cands m in
        let (b, t1) :=
          match find (fun q => greedy s (fst q)) ps with
          | Some q => msearch f s (snd q) t
          | None =>
            mexists (fun q t0 =>
                       if is_min (fst (fst q)) (snd (fst q)) then
                         match lstep s (op (fst (fst q))) with
                         | Some s1 => msearch f s1 (snd q) t0
                         | None => (false, t0)
                         end
                       else (false, t0)) ps t
          end in
        if b then (true, t1) else (false, bt_add t1 m s)
      end
    end.

  Hypothesis fin_up : forall a b, le a b -> fin a = true -> fin b = true.

  (* every entry of the table is a configuration on which [search] is false *)
  Definition cache_ok (t : btrie) : Prop :=
    forall m s, bt_mem t m s = true ->
                search fin (length (select h m)) s (select h m) = false.

  Lemma mexists_spec (F : cand -> btrie -> bool * btrie) (G : call * list call -> bool) l :
    (forall q t b t', In q l -> cache_ok t -> F q t = (b, t') -> b = G (fst q) /\ cache_ok t') ->
    forall t b t', cache_ok t -> mexists F l t = (b, t') ->
                   b = existsb G (map fst l) /\ cache_ok t'.
  Proof.
    induction l as [|q r IH]; intros HF t b t' Hok H; cbn [mexists map existsb] in *.
    - inversion H; subst. auto.
    - destruct (F q t) as [b1 t1] eqn:E.
      destruct (HF q t b1 t1 (or_introl eq_refl) Hok E) as [Hb1 Hok1].
      destruct b1.
      + inversion H; subst. rewrite <- Hb1. auto.
      + rewrite <- Hb1. cbn [orb]. eapply IH; eauto.
        intros q' t0 b0 t0' Hin. apply HF. right; exact Hin.
  Qed.

  Lemma find_map_fst (g : call * list call -> bool) (l : list cand) :
    find g (map fst l) = option_map fst (find (fun q => g (fst q)) l).
  Proof.
    induction l as [|q r IH]; cbn [map find option_map]; [reflexivity|].
    destruct (g (fst q)); [reflexivity | exact IH].
  Qed.

  Lemma msearch_spec fuel : forall s m t b t',
    cache_ok t -> (length (select h m) <= fuel)%nat ->
    msearch fuel s m t = (b, t') ->
    b = search fin fuel s (select h m) /\ cache_ok t'.
  Proof.
    induction fuel as [|fuel IH]; intros s m t b t' Hok Hlen H.
    - cbn [msearch] in H. destruct (select h m) as [|c0 r0] eqn:Es.
      + inversion H; subst. auto.
      + cbn in Hlen; lia.
    - cbn [msearch] in H. destruct (select h m) as [|c0 r0] eqn:Es.
      { inversion H; subst. auto. }
      rewrite <- Es in *. assert (Hne : select h m <> []) by (rewrite Es; discriminate).
      clear Es c0 r0.
      destruct (bt_mem t m s) eqn:Ehit.
      { inversion H; subst. split; [|exact Hok].
        symmetry. rewrite <- (Hok _ _ Ehit). apply search_fuel; auto. }
      rewrite search_unfold by exact Hne.
      rewrite <- cands_fst. rewrite find_map_fst.
      match type of H with (let (_, _) := ?X in _) = _ => destruct X as [b1 t1] eqn:E end.
      (* the same for the intermediate result, before the table is extended *)
      match goal with |- _ = ?r /\ _ => assert (HI : b1 = r /\ cache_ok t1) end.
      { assert (Hrec : forall q s1 t0 b0 t0', In q (cands m) -> cache_ok t0 ->
                  msearch fuel s1 (snd q) t0 = (b0, t0') ->
                  b0 = search fin fuel s1 (snd (fst q)) /\ cache_ok t0').
        { intros q s1 t0 b0 t0' Hin Hok0 HF. rewrite (cands_snd _ _ Hin). eapply IH; eauto.
          rewrite <- (cands_snd _ _ Hin).
          assert (Hp : In (fst q) (picks (select h m))).
          { rewrite <- cands_fst. apply in_map; exact Hin. }
          destruct (fst q) as [c rest]. apply picks_length in Hp. cbn [snd]. lia. }
        destruct (find (fun q => greedy s (fst q)) (cands m)) as [q|] eqn:Ef; cbn [option_map].
        - apply find_some in Ef. destruct Ef as [Hin _]. eapply Hrec; eauto.
        - eapply mexists_spec; [|exact Hok|exact E].
          intros q t0 b0 t0' Hin Hok0 HF. cbn beta in HF.
          destruct (is_min (fst (fst q)) (snd (fst q))); cbn [andb].
          + destruct (lstep s (op (fst (fst q)))) as [s1|]; [eapply Hrec; eauto|].
            inversion HF; subst; auto.
          + inversion HF; subst; auto. }
      destruct HI as [Hb1 Hok1]. rewrite <- Hb1.
      destruct b1; inversion H; subst; split; auto.
      intros m' s' Hm. apply bt_mem_add in Hm. destruct Hm as [[-> ->]|Hm]; [|auto].
      rewrite (search_fuel fin fin_up _ (S fuel)) by lia.
      rewrite search_unfold by exact Hne.
      rewrite <- cands_fst. rewrite find_map_fst. symmetry; exact Hb1.
  Qed.
End Memo.

Definition le_b (a b : option Z) : bool :=
  match a with None => true | Some _ => oz_eqb a b end.

Lemma le_b_spec a b : le_b a b = true <-> le a b.
Proof.
  unfold le_b, le. destruct a as [x|].
  - rewrite oz_eqb_spec. split; [auto | intros [H|H]; [exact H | discriminate]].
  - split; auto.
Qed.

Lemma le_b_up t a b : le a b -> le_b t a = true -> le_b t b = true.
Proof. rewrite !le_b_spec. intros H1 H2. eapply le_trans; eauto. Qed.

(* top-level call of the memoised search: all calls remaining, empty table *)
Definition search_top (fin : option Z -> bool) (init : option Z) (h : list call) : bool :=
  fst (msearch fin h (length h) init (repeat true (length h)) BLeaf).

Lemma search_top_spec fin :
  (forall a b, le a b -> fin a = true -> fin b = true) ->
  forall init h, search_top fin init h = search fin (length h) init h.
Proof.
  intros Hup init h. unfold search_top.
  destruct (msearch fin h (length h) init (repeat true (length h)) BLeaf) as [b t] eqn:E.
  apply msearch_spec in E; auto.
  - cbn [fst]. rewrite select_all in E. apply E.
  - intros m s Hm. discriminate.
  - rewrite select_all. apply Nat.le_refl.
Qed.

Definition lin_check (init : option Z) (h : list call) : bool :=
  search_top (fun _ => true) init h.

Definition lin_check_to (init : option Z) (h : list call) (t : option Z) : bool :=
  search_top (le_b t) init h.

Lemma dlin_lin_to init h t : dlin (le_b t) init h <-> linearizable_to init h t.
Proof.
  split.
  - intros [l [f [HP [HR [HD HF]]]]]. exists l. repeat split; auto.
    apply lrun_drun. exists f. split; [exact HD | apply le_b_spec; exact HF].
  - intros [l [HP [HR HL]]]. apply lrun_drun in HL. destruct HL as [f [HD Hle]].
    exists l, f. repeat split; auto. apply le_b_spec; exact Hle.
Qed.

Theorem lin_check_to_correct init h t :
  lin_check_to init h t = true <-> linearizable_to init h t.
Proof.
  rewrite <- dlin_lin_to. unfold lin_check_to.
  rewrite search_top_spec by apply le_b_up. split.
  - apply search_sound.
  - apply search_complete; [apply le_b_up | apply Nat.le_refl].
Qed.

Theorem lin_check_correct init h :
  lin_check init h = true <-> linearizable init h.
Proof.
  unfold lin_check. rewrite search_top_spec by auto. split.
  - intros H. apply search_sound in H. destruct H as [l [f [HP [HR [HD _]]]]].
    exists f, l. repeat split; auto. apply lrun_drun. exists f; split; auto.
  - intros [t [l [HP [HR HL]]]]. apply lrun_drun in HL. destruct HL as [f [HD _]].
    apply search_complete; [auto | apply Nat.le_refl |].
    exists l, f. repeat split; auto.
Qed.

Lemma linearizable_to_mono a b h t : le a b -> linearizable_to a h t -> linearizable_to b h t.
Proof.
  intros Hle [l [HP [HR HL]]]. exists l. repeat split; auto. eapply lrun_weaken_start; eauto.
Qed.

Lemma linearizable_mono a b h : le a b -> linearizable a h -> linearizable b h.
Proof. intros Hle [t H]. exists t. eapply linearizable_to_mono; eauto. Qed.

Lemma linearizable_to_perm init h h' t :
  Permutation h h' -> linearizable_to init h t -> linearizable_to init h' t.
Proof.
  intros HP [l [HP' H]]. exists l. split; [eapply perm_trans; eauto | exact H].
Qed.

Lemma linearizable_perm init h h' : Permutation h h' -> linearizable init h -> linearizable init h'.
Proof. intros HP [t H]. exists t. eapply linearizable_to_perm; eauto. Qed.

Lemma linearizable_to_nil init t : linearizable_to init [] t <-> le t init.
Proof.
  split.
  - intros [l [HP [_ HL]]]. apply Permutation_sym, Permutation_nil in HP. subst l.
    inversion HL; assumption.
  - intros H. exists []. repeat split; auto; constructor. exact H.
Qed.

Lemma lrun_origin s l t v :
  lrun s l t -> t = Some v -> s = Some v \/ exists c, In c l /\ op c = KSet v false.
Proof.
  intros H. induction H as [s t Hle | s s0 s1 c r t Hle Hst Hr IH]; intros Ht.
  - destruct Hle as [Hle|Hle]; [left; congruence | congruence].
  - destruct (IH Ht) as [H1|[c' [Hin Hop]]].
    + subst s1.
      assert (Hs0 : s0 = Some v \/ op c = KSet v false).
      { inversion Hst; subst; try discriminate; auto;
          try (right; congruence); try (left; congruence). }
      destruct Hs0 as [Hs0|Hs0].
      * left. destruct Hle as [Hle|Hle]; congruence.
      * right. exists c. split; [left; reflexivity | exact Hs0].
    + right. exists c'. split; [right; exact Hin | exact Hop].
Qed.

Lemma lrun_read_origin s A g R t v :
  lrun s (A ++ g :: R) t -> op g = KGet (Some v) ->
  s = Some v \/ exists c, In c A /\ op c = KSet v false.
Proof.
  intros HL Hop. apply lrun_app_inv in HL. destruct HL as [m [HA HR]].
  inversion HR as [|? s0 s1 ? ? ? Hle Hst Hr]; subst.
  rewrite Hop in Hst. inversion Hst; subst.
  destruct Hle as [Hle|Hle]; [|discriminate]. subst m.
  exact (lrun_origin _ _ _ _ HA eq_refl).
Qed.

(* generic barrier argument: after a call b whose outcome cannot leave v in the register,
   and with no write of v linearized after b, a call invoked after b returned cannot read v *)
Lemma after_barrier A b R init t g v :
  rt_ok (A ++ b :: R) -> lrun init (A ++ b :: R) t ->
  In g (A ++ b :: R) -> ret b < inv g ->
  (forall s0 s1, reg_step s0 (op b) s1 -> s1 <> Some v) ->
  (forall c, In c R -> op c <> KSet v false) ->
  op g <> KGet (Some v).
Proof.
  intros HR HL Hg Hbg Hb Hw.
  destruct (rt_ok_mid _ _ _ HR) as [HmR HmA].
  apply in_app_or in Hg. destruct Hg as [Hg|[Hg|Hg]].
  - exfalso. exact (HmA g Hg Hbg).
  - subst g. intros E. apply (Hb (Some v) (Some v)); [|reflexivity]. rewrite E. constructor.
  - (* g is placed after b: the content after b is not v, and nothing later writes v *)
    intros Hop. apply lrun_app_inv in HL. destruct HL as [m [_ HL]].
    inversion HL as [|? s0 s1 ? ? ? Hle Hst Hr]; subst.
    apply in_split in Hg. destruct Hg as [R1 [R2 ->]].
    destruct (lrun_read_origin _ _ _ _ _ _ Hr Hop) as [H1|[c [Hin Hc]]]; [exact (Hb _ _ Hst H1)|].
    apply (Hw c); [apply in_or_app; left; exact Hin | exact Hc].
Qed.

Definition only_writer (h : list call) (v : Z) (w : call) : Prop :=
  forall c, In c h -> op c = KSet v false -> c = w.

(* the same for a history: b is a barrier for v if, in every linearization, the only writer
   of v is not placed after b *)
Lemma barrier_read init h b g w v :
  linearizable init h -> In b h -> In g h -> ret b < inv g ->
  (forall s0 s1, reg_step s0 (op b) s1 -> s1 <> Some v) ->
  only_writer h v w ->
  (forall A R t, Permutation (A ++ b :: R) h -> rt_ok (A ++ b :: R) ->
                 lrun init (A ++ b :: R) t -> ~ In w R) ->
  op g <> KGet (Some v).
Proof.
  intros [t [l [HP [HR HL]]]] Hb Hg Hbg Hbar Hu Hw.
  apply (Permutation_in _ (Permutation_sym HP)) in Hb, Hg. apply in_split in Hb as [A [R ->]].
  eapply after_barrier; eauto.
  intros c Hc Hop. rewrite (Hu c) in Hc; [exact (Hw A R t HP HR HL Hc) | | exact Hop].
  apply (Permutation_in _ HP), in_or_app. right; right; exact Hc.
Qed.

(* no stale read: Set v1 returned before Set v2 was invoked, Set v2 returned before the
   Get was invoked: the Get does not return v1 *)
Theorem no_stale_read init h w1 w2 g v1 v2 :
  linearizable init h ->
  In w2 h -> In g h ->
  op w1 = KSet v1 false -> op w2 = KSet v2 false -> v1 <> v2 ->
  only_writer h v1 w1 ->
  ret w1 < inv w2 -> ret w2 < inv g ->
  op g <> KGet (Some v1).
Proof.
  intros HL Hw2 Hg Ho1 Ho2 Hne Huniq H12 H2g.
  apply (barrier_read init h w2 g w1 v1); auto.
  - intros s0 s1 Hst. rewrite Ho2 in Hst. inversion Hst; subst. congruence.
  - intros A R t _ HR _ Hc. exact (proj1 (rt_ok_mid _ _ _ HR) w1 Hc H12).
Qed.

(* a Get invoked after a Delete returned does not return a value whose Set returned
   before the Delete was invoked *)
Theorem no_read_after_delete init h w d g v ok :
  linearizable init h ->
  In d h -> In g h ->
  op w = KSet v false -> op d = KDelete ok ->
  only_writer h v w ->
  ret w < inv d -> ret d < inv g ->
  op g <> KGet (Some v).
Proof.
  intros HL Hd Hg How Hod Huniq Hwd Hdg.
  apply (barrier_read init h d g w v); auto.
  - intros s0 s1 Hst. rewrite Hod in Hst. inversion Hst; subst; discriminate.
  - intros A R t _ HR _ Hc. exact (proj1 (rt_ok_mid _ _ _ HR) w Hc Hwd).
Qed.

(* successive reads never go backwards *)
Theorem monotonic_reads init h w1 w2 g1 g2 v1 v2 :
  linearizable init h ->
  In g1 h -> In g2 h ->
  op w1 = KSet v1 false -> op w2 = KSet v2 false ->
  op g1 = KGet (Some v2) ->
  v1 <> v2 -> init <> Some v2 ->
  only_writer h v1 w1 -> only_writer h v2 w2 ->
  ret w1 < inv w2 -> ret g1 < inv g2 ->
  op g2 <> KGet (Some v1).
Proof.
  intros HL Hg1 Hg2 Ho1 Ho2 Hog1 Hne Hinit Hu1 Hu2 H12 Hgg.
  apply (barrier_read init h g1 g2 w1 v1); auto.
  - intros s0 s1 Hst. rewrite Hog1 in Hst. inversion Hst; subst. congruence.
  - (* the write of v2 is linearized before g1 *)
    intros A R t HP HR HL' Hc.
    destruct (lrun_read_origin _ _ _ _ _ _ HL' Hog1) as [H1|[c [Hin Hcop]]]; [contradiction|].
    rewrite (Hu2 c) in Hin; [| |exact Hcop].
    + apply in_split in Hin. destruct Hin as [A1 [A2 ->]].
      rewrite <- app_assoc in HR. cbn [app] in HR.
      apply (proj1 (rt_ok_mid _ _ _ HR) w1); [|exact H12]. apply in_or_app; right; right; exact Hc.
    + apply (Permutation_in _ HP), in_or_app. left; exact Hin.
Qed.

Definition wf (h : list call) : Prop := forall c, In c h -> inv c < ret c.

Lemma wf_app h1 h2 : wf (h1 ++ h2) -> wf h1 /\ wf h2.
Proof. intros H. split; intros c Hc; apply H, in_or_app; auto. Qed.

Definition before (h1 h2 : list call) : Prop :=
  forall a b, In a h1 -> In b h2 -> ret a < inv b.

Definition quiescent_at (T : Z) (h : list call) : Prop :=
  forall c, In c h -> ret c < T \/ T < inv c.

Lemma filter_partition_perm {A} (f : A -> bool) (l : list A) :
  Permutation (filter f l ++ filter (fun x => negb (f x)) l) l.
Proof.
  induction l as [|a l IH]; cbn [filter]; [constructor|].
  destruct (f a); cbn [negb app].
  - constructor; exact IH.
  - apply Permutation_sym, Permutation_cons_app, Permutation_sym, IH.
Qed.

Lemma quiescent_cut T h :
  quiescent_at T h ->
  Permutation (filter (fun c => ret c <? T) h ++ filter (fun c => negb (ret c <? T)) h) h /\
  before (filter (fun c => ret c <? T) h) (filter (fun c => negb (ret c <? T)) h).
Proof.
  intros HQ. split; [apply filter_partition_perm|].
  intros a b Ha Hb. apply filter_In in Ha. apply filter_In in Hb.
  destruct Ha as [_ Ha], Hb as [Hb Hb'].
  apply Z.ltb_lt in Ha. apply negb_true_iff in Hb'. apply Z.ltb_ge in Hb'.
  destruct (HQ b Hb); lia.
Qed.

Lemma rt_split l : forall h1 h2,
  Permutation l (h1 ++ h2) -> rt_ok l -> before h1 h2 ->
  exists l1 l2, l = l1 ++ l2 /\ Permutation l1 h1 /\ Permutation l2 h2.
Proof.
  induction l as [|c l IH]; intros h1 h2 HP HR HB.
  - apply Permutation_nil in HP. apply app_eq_nil in HP. destruct HP as [-> ->].
    exists [], []. repeat split; constructor.
  - destruct h1 as [|a h1'].
    { exists [], (c :: l). repeat split; [constructor | exact HP]. }
    inversion HR as [|? ? HF HR']; subst.
    assert (Hc : In c (a :: h1')).
    { assert (Ha : In a (c :: l)).
      { eapply Permutation_in; [apply Permutation_sym; exact HP | left; reflexivity]. }
      destruct Ha as [Ha|Ha]; [left; auto|].
      assert (Hc : In c ((a :: h1') ++ h2)) by (eapply Permutation_in; [exact HP | left; reflexivity]).
      apply in_app_or in Hc. destruct Hc as [Hc|Hc]; [exact Hc|].
      exfalso. rewrite Forall_forall in HF. apply (HF a Ha). apply HB; [left; reflexivity | exact Hc]. }
    apply in_split in Hc. destruct Hc as [p [q Epq]]. rewrite Epq in *.
    rewrite <- app_assoc in HP. cbn [app] in HP.
    apply Permutation_cons_app_inv in HP. rewrite app_assoc in HP.
    destruct (IH (p ++ q) h2 HP HR') as [l1 [l2 [-> [HP1 HP2]]]].
    { intros x y Hx Hy. apply HB; [|exact Hy].
      apply in_app_or in Hx. apply in_or_app. destruct Hx as [Hx|Hx]; [left; exact Hx | right; right; exact Hx]. }
    exists (c :: l1), l2. repeat split; [|exact HP2].
    apply Permutation_cons_app. exact HP1.
Qed.

Lemma rt_ok_app l1 l2 :
  rt_ok l1 -> rt_ok l2 -> (forall a b, In a l1 -> In b l2 -> ~ ret b < inv a) -> rt_ok (l1 ++ l2).
Proof.
  intros H1 H2 H. induction H1 as [|c r HF HR IH]; cbn [app]; [exact H2|].
  constructor.
  - apply Forall_app. split; [exact HF|]. rewrite Forall_forall. intros d Hd.
    apply (H c d); [left; reflexivity | exact Hd].
  - apply IH. intros a b Ha Hb. apply H; [right; exact Ha | exact Hb].
Qed.

Theorem lin_cut init h1 h2 t :
  before h1 h2 -> linearizable_to init (h1 ++ h2) t ->
  exists m, linearizable_to init h1 m /\ linearizable_to m h2 t.
Proof.
  intros HB [l [HP [HR HL]]].
  destruct (rt_split l h1 h2 HP HR HB) as [l1 [l2 [-> [HP1 HP2]]]].
  apply lrun_app_inv in HL. destruct HL as [m [HL1 HL2]].
  apply rt_ok_app_inv in HR. destruct HR as [HR1 HR2].
  exists m. split; [exists l1 | exists l2]; auto.
Qed.

Theorem lin_glue init h1 h2 m t :
  wf h1 -> wf h2 -> before h1 h2 ->
  linearizable_to init h1 m -> linearizable_to m h2 t ->
  linearizable_to init (h1 ++ h2) t.
Proof.
  intros W1 W2 HB [l1 [HP1 [HR1 HL1]]] [l2 [HP2 [HR2 HL2]]].
  exists (l1 ++ l2). repeat split.
  - apply Permutation_app; assumption.
  - apply rt_ok_app; auto. intros a b Ha Hb.
    assert (Ha' : In a h1) by (eapply Permutation_in; eauto).
    assert (Hb' : In b h2) by (eapply Permutation_in; eauto).
    pose proof (HB a b Ha' Hb'). pose proof (W1 a Ha'). pose proof (W2 b Hb'). lia.
  - eapply lrun_app; eauto.
Qed.

Theorem lin_cut_iff init h1 h2 t :
  wf h1 -> wf h2 -> before h1 h2 ->
  (linearizable_to init (h1 ++ h2) t <->
   exists m, linearizable_to init h1 m /\ linearizable_to m h2 t).
Proof.
  intros W1 W2 HB. split.
  - apply lin_cut; exact HB.
  - intros [m [H1 H2]]. eapply lin_glue; eauto.
Qed.

Definition written (h : list call) : list (option Z) :=
  flat_map (fun c => match op c with KSet v false => [Some v] | _ => [] end) h.

Lemma written_app h1 h2 : written (h1 ++ h2) = written h1 ++ written h2.
Proof. unfold written. apply flat_map_app. Qed.

Lemma written_in h v : In (Some v) (written h) <-> exists c, In c h /\ op c = KSet v false.
Proof.
  unfold written. rewrite in_flat_map. split.
  - intros [c [Hc Hv]]. exists c. split; [exact Hc|].
    destruct (op c) as [v' [|]| | |]; cbn in Hv; try contradiction.
    destruct Hv as [Hv|[]]. congruence.
  - intros [c [Hc Hop]]. exists c. split; [exact Hc|]. rewrite Hop. left; reflexivity.
Qed.

Lemma linearizable_to_final init h m :
  linearizable_to init h m -> m = None \/ m = init \/ In m (written h).
Proof.
  intros [l [HP [_ HL]]]. destruct m as [v|]; [|auto].
  destruct (lrun_origin _ _ _ _ HL eq_refl) as [H|[c [Hc Hop]]]; auto.
  right; right. apply written_in. exists c. split; [eapply Permutation_in; eauto | exact Hop].
Qed.

(* no value out of thin air: what a Get of a linearizable history returns is the initial
   content or a written value *)
Lemma linearizable_read_origin init h g v :
  linearizable init h -> In g h -> op g = KGet (Some v) ->
  init = Some v \/ In (Some v) (written h).
Proof.
  intros [t [l [HP [_ HL]]]] Hg Hop.
  apply (Permutation_in _ (Permutation_sym HP)), in_split in Hg. destruct Hg as [A [R ->]].
  destruct (lrun_read_origin _ _ _ _ _ _ HL Hop) as [H|[c [Hc Hw]]]; [left; exact H | right].
  apply written_in. exists c. split; [|exact Hw].
  apply (Permutation_in _ HP), in_or_app. left; exact Hc.
Qed.

(* windows: consecutive pieces, each entirely before all later ones *)
Inductive windows_ok : list (list call) -> Prop :=
| wo_nil : windows_ok []
| wo_cons w ws : before w (concat ws) -> windows_ok ws -> windows_ok (w :: ws).

(* the harness check: every window from None or from an earlier-written value *)
Fixpoint lin_check_windows_from (earlier : list (option Z)) (ws : list (list call)) : bool :=
  match ws with
  | [] => true
  | w :: ws' =>
    existsb (fun s => lin_check s w) (None :: earlier)
    && lin_check_windows_from (earlier ++ written w) ws'
  end.

Definition lin_check_windows (init : option Z) (ws : list (list call)) : bool :=
  lin_check_windows_from [init] ws.

Lemma lin_check_windows_from_spec ws : forall earlier,
  lin_check_windows_from earlier ws = true <->
  (forall pre w post, ws = pre ++ w :: post ->
     exists s, In s (None :: earlier ++ written (concat pre)) /\ linearizable s w).
Proof.
  induction ws as [|w0 ws IH]; intros earlier; cbn [lin_check_windows_from].
  - split; [|reflexivity]. intros _ pre w post E. destruct pre; discriminate.
  - rewrite andb_true_iff, IH, existsb_exists. split.
    + intros [[s [Hs Hl]] Hrest] pre w post E.
      destruct pre as [|w1 pre]; cbn [app] in E; inversion E; subst.
      * exists s. cbn [concat written flat_map]. rewrite app_nil_r. split; [exact Hs|].
        apply lin_check_correct; exact Hl.
      * destruct (Hrest pre w post eq_refl) as [s' [Hs' Hl']]. exists s'. split; [|exact Hl'].
        cbn [concat]. rewrite written_app, app_assoc. exact Hs'.
    + intros H. split.
      * destruct (H [] w0 ws eq_refl) as [s [Hs Hl]]. exists s.
        cbn [concat written flat_map] in Hs. rewrite app_nil_r in Hs. split; [exact Hs|].
        apply lin_check_correct; exact Hl.
      * intros pre w post ->. destruct (H (w0 :: pre) w post eq_refl) as [s [Hs Hl]].
        exists s. split; [|exact Hl]. cbn [concat] in Hs. rewrite written_app, app_assoc in Hs.
        exact Hs.
Qed.

Theorem lin_check_windows_spec init ws :
  lin_check_windows init ws = true <->
  (forall pre w post, ws = pre ++ w :: post ->
     exists s, (s = None \/ s = init \/ In s (written (concat pre))) /\ linearizable s w).
Proof.
  unfold lin_check_windows. rewrite lin_check_windows_from_spec.
  split; intros H pre w post E; destruct (H pre w post E) as [s [Hs Hl]]; exists s; (split; [|exact Hl]).
  - destruct Hs as [Hs|[Hs|Hs]]; auto.
  - destruct Hs as [Hs|[Hs|Hs]]; [left; auto | right; left; auto | right; right; exact Hs].
Qed.

Lemma lin_check_windows_from_complete ws : forall earlier s,
  windows_ok ws -> In s (None :: earlier) -> linearizable s (concat ws) ->
  lin_check_windows_from earlier ws = true.
Proof.
  induction ws as [|w ws IH]; intros earlier s HW Hs HL; cbn [lin_check_windows_from]; [reflexivity|].
  inversion HW as [|? ? HB HW']; subst.
  destruct HL as [t HL]. cbn [concat] in HL.
  destruct (lin_cut _ _ _ _ HB HL) as [m [H1 H2]].
  apply andb_true_iff. split.
  - apply existsb_exists. exists s. split; [exact Hs|]. apply lin_check_correct. exists m; exact H1.
  - apply (IH _ m HW'); [|exists t; exact H2].
    destruct (linearizable_to_final _ _ _ H1) as [->|[->|Hm]].
    + left; reflexivity.
    + destruct Hs as [Hs|Hs]; [left; exact Hs | right; apply in_or_app; left; exact Hs].
    + right; apply in_or_app; right; exact Hm.
Qed.

Theorem lin_check_windows_complete init ws :
  windows_ok ws -> linearizable init (concat ws) -> lin_check_windows init ws = true.
Proof.
  intros HW HL. eapply lin_check_windows_from_complete; eauto. right; left; reflexivity.
Qed.

Theorem linearizable_windows init ws :
  windows_ok ws -> linearizable init (concat ws) ->
  forall pre w post, ws = pre ++ w :: post ->
    exists s, (s = None \/ s = init \/
               exists c v, In c (concat pre) /\ op c = KSet v false /\ s = Some v)
              /\ linearizable s w.
Proof.
  intros HW HL pre w post E.
  pose proof (lin_check_windows_complete _ _ HW HL) as H.
  destruct (proj1 (lin_check_windows_spec _ _) H pre w post E) as [s [Hs Hl]].
  exists s. split; [|exact Hl].
  destruct Hs as [Hs|[Hs|Hs]]; auto.
  destruct s as [v|].
  - apply written_in in Hs. destruct Hs as [c [Hc Hop]]. right; right. exists c, v. auto.
  - left; reflexivity.
Qed.

Theorem windows_from_none_sound ws : forall init,
  windows_ok ws -> wf (concat ws) ->
  (forall pre w post, ws = pre ++ w :: post ->
     linearizable (match pre with [] => init | _ => None end) w) ->
  linearizable init (concat ws).
Proof.
  induction ws as [|w ws IH]; intros init HW Hwf H.
  - exists init, []. repeat split; constructor. auto.
  - inversion HW as [|? ? HB HW']; subst. cbn [concat] in *.
    destruct (wf_app _ _ Hwf) as [W1 W2].
    destruct (H [] w ws eq_refl) as [t H1]. cbn in H1.
    assert (H1' : linearizable_to init w None).
    { destruct H1 as [l [HP [HR HL]]]. exists l. repeat split; auto.
      eapply lrun_weaken_end; [|exact HL]. auto. }
    destruct (IH None HW' W2) as [t2 H2].
    { intros pre w' post ->. specialize (H (w :: pre) w' post eq_refl). cbn in H.
      destruct pre; [exact H | exact H]. }
    exists t2. eapply lin_glue; eauto.
Qed.

(* the exact window check: chain the possible contents through the cuts *)

(* the contents possible after window w when it is started from one of [starts] *)
Definition window_finals (starts : list (option Z)) (w : list call) : list (option Z) :=
  filter (fun t => existsb (fun s => lin_check_to s w t) starts)
         (None :: starts ++ written w).

Fixpoint lin_check_chain (starts : list (option Z)) (ws : list (list call)) : bool :=
  match ws with
  | [] => match starts with [] => false | _ :: _ => true end
  | w :: ws' => lin_check_chain (window_finals starts w) ws'
  end.

Definition lin_check_windows_exact (init : option Z) (ws : list (list call)) : bool :=
  lin_check_chain [init] ws.

Lemma window_finals_spec starts w m :
  In m (window_finals starts w) <-> exists s, In s starts /\ linearizable_to s w m.
Proof.
  unfold window_finals. rewrite filter_In, existsb_exists. split.
  - intros [_ [s [Hs Hl]]]. exists s. split; [exact Hs | apply lin_check_to_correct; exact Hl].
  - intros [s [Hs Hl]]. split.
    + destruct (linearizable_to_final _ _ _ Hl) as [->|[->|Hm]].
      * left; reflexivity.
      * right; apply in_or_app; left; exact Hs.
      * right; apply in_or_app; right; exact Hm.
    + exists s. split; [exact Hs | apply lin_check_to_correct; exact Hl].
Qed.

Lemma lin_check_chain_spec ws : forall starts,
  windows_ok ws -> wf (concat ws) ->
  (lin_check_chain starts ws = true <-> exists s, In s starts /\ linearizable s (concat ws)).
Proof.
  induction ws as [|w ws IH]; intros starts HW Hwf; cbn [lin_check_chain concat].
  - split.
    + destruct starts as [|s r]; [discriminate|]. intros _. exists s. split; [left; reflexivity|].
      exists s. apply linearizable_to_nil. auto.
    + intros [s [Hs _]]. destruct starts; [destruct Hs | reflexivity].
  - inversion HW as [|? ? HB HW']; subst. cbn [concat] in Hwf.
    destruct (wf_app _ _ Hwf) as [W1 W2].
    rewrite (IH _ HW' W2). split.
    + intros [m [Hm [t Hl]]]. apply window_finals_spec in Hm. destruct Hm as [s [Hs Hsm]].
      exists s. split; [exact Hs|]. exists t. eapply lin_glue; eauto.
    + intros [s [Hs [t Hl]]]. destruct (lin_cut _ _ _ _ HB Hl) as [m [H1 H2]].
      exists m. split; [|exists t; exact H2]. apply window_finals_spec. exists s; auto.
Qed.

Theorem lin_check_windows_exact_correct init ws :
  windows_ok ws -> wf (concat ws) ->
  (lin_check_windows_exact init ws = true <-> linearizable init (concat ws)).
Proof.
  intros HW Hwf. unfold lin_check_windows_exact. rewrite lin_check_chain_spec by assumption.
  split.
  - intros [s [[<-|[]] H]]. exact H.
  - intros H. exists init. split; [left; reflexivity | exact H].
Qed.

(* the exact check is at least as strict as the harness check *)
Theorem lin_check_windows_exact_weaker init ws :
  windows_ok ws -> wf (concat ws) ->
  lin_check_windows_exact init ws = true -> lin_check_windows init ws = true.
Proof.
  intros HW Hwf H. apply lin_check_windows_complete; [exact HW|].
  apply lin_check_windows_exact_correct; assumption.
Qed.

(* op line: [init_present; init_val; n; then n calls as (inv, ret, kind, a, b)]
   kind 1 Set (a = value, b = err), 2 Get (a = found, b = value), 3 Delete (a = ok),
   4 Exists (a = ok).  Output [1] if linearizable, [0] if not, [2] if the line is malformed. *)

Definition dec_op (k a b : Z) : option kop :=
  if k =? 1 then Some (KSet a (z2b b))
  else if k =? 2 then Some (KGet (if z2b a then Some b else None))
  else if k =? 3 then Some (KDelete (z2b a))
  else if k =? 4 then Some (KExists (z2b a))
  else None.

Fixpoint dec_calls (n : nat) (l : list Z) : option (list call) :=
  match n with
  | O => match l with [] => Some [] | _ :: _ => None end
  | S n' =>
    match l with
    | i :: r :: k :: a :: b :: rest =>
      match dec_op k a b, dec_calls n' rest with
      | Some o, Some cs => Some (mkCall i r o :: cs)
      | _, _ => None
      end
    | _ => None
    end
  end.

Definition dec_window (l : list Z) : option (option Z * list call) :=
  match l with
  | p :: v :: n :: rest =>
    match dec_calls (Z.to_nat n) rest with
    | Some cs => Some (if z2b p then Some v else None, cs)
    | None => None
    end
  | _ => None
  end.

Definition lin_step (_ : unit) (l : list Z) : unit * list Z :=
  match dec_window l with
  | Some (init, h) => (tt, [b2z (lin_check init h)])
  | None => (tt, [2])
  end.

(* the encoding the harness is expected to produce *)
Definition enc_op (o : kop) : list Z :=
  match o with
  | KSet v err => [1; v; b2z err]
  | KGet (Some v) => [2; 1; v]
  | KGet None => [2; 0; 0]
  | KDelete ok => [3; b2z ok; 0]
  | KExists ok => [4; b2z ok; 0]
  end.

Definition enc_call (c : call) : list Z := inv c :: ret c :: enc_op (op c).

Definition enc_window (init : option Z) (h : list call) : list Z :=
  match init with Some v => [1; v] | None => [0; 0] end
  ++ Z.of_nat (length h) :: flat_map enc_call h.

Lemma z2b_b2z b : z2b (b2z b) = b.
Proof. destruct b; reflexivity. Qed.

Lemma dec_enc_calls h : dec_calls (length h) (flat_map enc_call h) = Some h.
Proof.
  induction h as [|[i r o] h IH]; [reflexivity|].
  cbn [length flat_map enc_call inv ret op].
  assert (E : forall rest, dec_calls (S (length h)) (i :: r :: enc_op o ++ rest) =
                           match dec_calls (length h) rest with
                           | Some cs => Some (mkCall i r o :: cs) | None => None end).
  { intros rest. destruct o as [v e|[v|]|ok|ok]; cbn [enc_op app dec_calls].
    - unfold dec_op. cbn [Z.eqb Pos.eqb]. rewrite z2b_b2z. reflexivity.
    - reflexivity.
    - reflexivity.
    - unfold dec_op. cbn [Z.eqb Pos.eqb]. rewrite z2b_b2z. reflexivity.
    - unfold dec_op. cbn [Z.eqb Pos.eqb]. rewrite z2b_b2z. reflexivity. }
  change (enc_call (mkCall i r o)) with (i :: r :: enc_op o).
  cbn [app]. rewrite E, IH. reflexivity.
Qed.

Lemma dec_enc_window init h : dec_window (enc_window init h) = Some (init, h).
Proof.
  unfold enc_window, dec_window. destruct init as [v|]; cbn [app];
    rewrite Nat2Z.id, dec_enc_calls; reflexivity.
Qed.

Theorem lin_step_spec init h :
  lin_step tt (enc_window init h) = (tt, [b2z (lin_check init h)]).
Proof. unfold lin_step. rewrite dec_enc_window. reflexivity. Qed.

Theorem lin_step_accepts init h :
  lin_step tt (enc_window init h) = (tt, [1]) <-> linearizable init h.
Proof.
  rewrite lin_step_spec, <- lin_check_correct.
  destruct (lin_check init h); cbn; split; congruence.
Qed.

Theorem lin_step_rejects init h :
  lin_step tt (enc_window init h) = (tt, [0]) <-> ~ linearizable init h.
Proof.
  rewrite lin_step_spec, <- lin_check_correct.
  destruct (lin_check init h); cbn; split; congruence.
Qed.

(* A stateful variant for the exact window check: the state is the list of contents possible
   at the last cut (start it at [init]); each op line encodes the next window (its two init
   fields are ignored).  Output [1] while the history so far is linearizable, [0] afterwards. *)
Definition lin_chain_step (starts : list (option Z)) (l : list Z) : list (option Z) * list Z :=
  match dec_window l with
  | Some (_, w) =>
    let f := window_finals starts w in
    (f, [match f with [] => 0 | _ :: _ => 1 end])
  | None => (starts, [2])
  end.

Lemma run_out_cons {S I O} (step : S -> I -> S * O) s i r :
  run_out step s (i :: r) = snd (step s i) :: run_out step (fst (step s i)) r.
Proof.
  unfold run_out. cbn [run]. destruct (step s i) as [s1 o]. cbn [fst snd].
  destruct (run step s1 r). reflexivity.
Qed.

Lemma window_finals_nil w : window_finals [] w = [].
Proof.
  unfold window_finals. cbn [existsb].
  induction (None :: [] ++ written w) as [|a l IH]; [reflexivity | exact IH].
Qed.

Lemma lin_check_chain_nil ws : lin_check_chain [] ws = false.
Proof.
  induction ws as [|w ws IH]; cbn [lin_check_chain]; [reflexivity|].
  rewrite window_finals_nil. exact IH.
Qed.

Lemma lin_chain_run x ws : forall starts,
  starts <> [] ->
  ((forall o, In o (run_out lin_chain_step starts (map (enc_window x) ws)) -> o = [1]) <->
   lin_check_chain starts ws = true).
Proof.
  induction ws as [|w ws IH]; intros starts Hne; cbn [map lin_check_chain].
  - destruct starts as [|s0 r0]; [congruence|]. split; [reflexivity | intros _ o []].
  - assert (E1 : lin_chain_step starts (enc_window x w) =
                 (window_finals starts w,
                  [match window_finals starts w with [] => 0 | _ :: _ => 1 end])).
    { unfold lin_chain_step. rewrite dec_enc_window. reflexivity. }
    rewrite run_out_cons, E1. cbn [fst snd].
    destruct (window_finals starts w) as [|m f] eqn:E.
    + rewrite lin_check_chain_nil. split; [|discriminate].
      intros H. specialize (H [0] (or_introl eq_refl)). discriminate.
    + rewrite <- IH by discriminate. split.
      * intros H o Ho. apply H. right; exact Ho.
      * intros H o [<-|Ho]; [reflexivity | apply H; exact Ho].
Qed.

Theorem lin_chain_stream_correct init x ws :
  windows_ok ws -> wf (concat ws) ->
  ((forall o, In o (run_out lin_chain_step [init] (map (enc_window x) ws)) -> o = [1]) <->
   linearizable init (concat ws)).
Proof.
  intros HW Hwf. rewrite lin_chain_run by discriminate.
  apply lin_check_windows_exact_correct; assumption.
Qed.

Local Notation C := mkCall.

Example ex_accept_overlap :
  lin_check None
    [ C 1 10 (KSet 100 false); C 2 6 (KGet None); C 5 12 (KGet (Some 100));
      C 8 15 (KDelete true); C 11 20 (KGet None); C 13 18 (KSet 200 false);
      C 19 25 (KGet (Some 200)); C 21 23 (KExists true); C 3 24 (KSet 300 true) ] = true.
Proof. vm_compute. reflexivity. Qed.

(* accepted: a value may be lost at any time (admission policy / eviction) *)
Example ex_accept_loss :
  lin_check None [ C 1 2 (KSet 1 false); C 3 4 (KGet None); C 5 6 (KDelete false) ] = true.
Proof. vm_compute. reflexivity. Qed.

Example ex_accept_concurrent_sets :
  lin_check None
    [ C 1 10 (KSet 1 false); C 2 9 (KSet 2 false); C 11 12 (KGet (Some 1)) ] = true
  /\ lin_check None
    [ C 1 10 (KSet 1 false); C 2 9 (KSet 2 false); C 11 12 (KGet (Some 2)) ] = true.
Proof. vm_compute. split; reflexivity. Qed.

Example ex_reject_stale :
  lin_check None [ C 1 2 (KSet 1 false); C 3 4 (KSet 2 false); C 5 6 (KGet (Some 1)) ] = false.
Proof. vm_compute. reflexivity. Qed.

Example ex_reject_after_delete :
  lin_check None [ C 1 2 (KSet 1 false); C 3 4 (KDelete true); C 5 6 (KGet (Some 1)) ] = false
  /\ lin_check None [ C 1 2 (KSet 1 false); C 3 4 (KDelete false); C 5 6 (KGet (Some 1)) ] = false.
Proof. vm_compute. split; reflexivity. Qed.

Example ex_reject_backwards :
  lin_check None
    [ C 1 2 (KSet 1 false); C 3 10 (KSet 2 false);
      C 4 5 (KGet (Some 2)); C 6 7 (KGet (Some 1)) ] = false.
Proof. vm_compute. reflexivity. Qed.

Example ex_accept_forwards :
  lin_check None
    [ C 1 2 (KSet 1 false); C 3 10 (KSet 2 false);
      C 4 5 (KGet (Some 1)); C 6 7 (KGet (Some 2)) ] = true.
Proof. vm_compute. reflexivity. Qed.

Example ex_reject_flicker :
  lin_check None
    [ C 1 2 (KSet 1 false); C 3 4 (KGet (Some 1)); C 5 6 (KGet None); C 7 8 (KGet (Some 1)) ]
  = false
  /\ lin_check (Some 1)
    [ C 3 4 (KExists true); C 5 6 (KExists false); C 7 8 (KExists true) ] = false
  /\ lin_check (Some 1)
    [ C 3 4 (KGet (Some 1)); C 5 6 (KDelete false); C 7 8 (KGet (Some 1)) ] = false.
Proof. vm_compute. repeat split; reflexivity. Qed.

Example ex_reject_out_of_thin_air :
  lin_check None [ C 1 2 (KSet 1 false); C 3 4 (KGet (Some 7)) ] = false
  /\ lin_check None [ C 1 2 (KDelete true) ] = false
  /\ lin_check None [ C 1 2 (KSet 1 true); C 3 4 (KExists true) ] = false.
Proof. vm_compute. repeat split; reflexivity. Qed.

(* windows: the harness check accepts a stale read ACROSS a cut (it forgets which earlier value
   may survive); the exact chained check and the whole-history check reject it *)
Example ex_windows_weak_vs_exact :
  let w1 := [ C 1 2 (KSet 1 false); C 3 4 (KSet 2 false) ] in
  let w2 := [ C 5 6 (KGet (Some 1)) ] in
  lin_check_windows None [w1; w2] = true
  /\ lin_check_windows_exact None [w1; w2] = false
  /\ lin_check None (w1 ++ w2) = false
  /\ lin_check_windows_exact None [w1; [ C 5 6 (KGet (Some 2)) ]] = true.
Proof. vm_compute. repeat split; reflexivity. Qed.

Example ex_stream :
  lin_step tt [0; 0; 3;  1; 2; 1; 1; 0;  3; 4; 1; 2; 0;  5; 6; 2; 1; 1] = (tt, [0])
  /\ lin_step tt [0; 0; 3;  1; 2; 1; 1; 0;  3; 4; 1; 2; 0;  5; 6; 2; 1; 2] = (tt, [1])
  /\ lin_step tt [1; 9; 2;  1; 2; 2; 1; 9;  3; 4; 3; 1; 0] = (tt, [1])
  /\ lin_step tt [0; 0; 2;  1; 2; 2; 1; 9] = (tt, [2]).
Proof. vm_compute. repeat split; reflexivity. Qed.

(* fourteen pairwise overlapping calls, not linearizable: the last Get reads an unwritten value.
   The checker's answer is derived from its correctness and [linearizable_read_origin], not by
   running it (evaluated, [lin_check] decides this input in a second or two, while the search
   without the table of failed configurations does not finish in minutes: the input is there
   for that comparison). *)
Example ex_reject_14_overlapping :
  lin_check None
    (map (fun i => C i (100 + i) (KSet i false)) [1; 2; 3; 4; 5; 6; 7]
     ++ map (fun i => C i (100 + i) (KDelete true)) [8; 9; 10; 11; 12; 13]
     ++ [ C 14 114 (KGet (Some 99)) ]) = false.
Proof.
  apply not_true_is_false. intros H. apply lin_check_correct in H.
  destruct (linearizable_read_origin _ _ (C 14 114 (KGet (Some 99))) 99 H) as [E|E];
    [apply in_or_app; right; apply in_or_app; right; left | | discriminate E |]; try reflexivity.
  cbv in E. intuition discriminate.
Qed.
