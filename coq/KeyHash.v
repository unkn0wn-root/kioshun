(* KeyHash.v — internal/keyhash/hasher.go: the reflect.Kind switch of keyhash.New as the
   GENERATED table Gen/KindTable.v (re-read from the source on every run), checked against
   the Go language's widths of the integer kinds; the integer hasher as a function of the
   key's integer value; and a sequential model of the named-cache registry used as the
   specification side of the "reg" correspondence stream (C17). *)
Require Import KV.Base KV.Gen.KindTable KV.EstimatorModel.
From Coq Require Import String.
Open Scope Z_scope.

(* Go spec: width in bits and signedness of every integer kind on a 64-bit target *)
Definition int_kind_spec : list (string * Z * Z) :=
  [("Int", 64, 1); ("Int8", 8, 1); ("Int16", 16, 1); ("Int32", 32, 1); ("Int64", 64, 1);
   ("Uint", 64, 0); ("Uint8", 8, 0); ("Uint16", 16, 0); ("Uint32", 32, 0); ("Uint64", 64, 0);
   ("Uintptr", 64, 0)]%string.

Definition row_ok (r : string * Z * string * Z * Z) : bool :=
  let '(kind, hasher, _, w, sg) := r in
  if String.eqb kind "String" then hasher =? 1
  else match find (fun s => String.eqb (fst (fst s)) kind) int_kind_spec with
       | Some (_, w', sg') => (hasher =? 2) && (w =? w') && (sg =? sg')
       | None => false     (* a kind routed to a fast path that is neither string nor integer *)
       end.

Definition all_int_kinds_present : bool :=
  forallb (fun s => existsb (fun r => String.eqb (fst (fst (fst (fst r)))) (fst (fst s))) kind_table) int_kind_spec.

(* hashIntKey returns Avalanche(uint64(t)) where t is the key read, through unsafe.Pointer, as an integer
   type T of its own width w and signedness sg.  `extend w sg v` is the conversion uint64(T(v)): v is
   truncated to w bits, sign-extended when T is signed and the top bit is set, and taken modulo 2^64 *)
Definition extend (w sg v : Z) : Z :=
  let m := v mod 2 ^ w in
  if (sg =? 1) && (2 ^ (w - 1) <=? m) then (m - 2 ^ w) mod 2 ^ 64 else m.
Definition hash_int (w sg v : Z) : Z := Z.of_N (avalanche (Z.to_N (extend w sg v))).

Lemma kind_table_ok : forallb row_ok kind_table = true /\ all_int_kinds_present = true /\ kind_default = 3.
Proof. vm_compute. repeat split; reflexivity. Qed.

(* every row of the generated table routes its kind to a hasher whose width and signedness are those the Go
   language gives that kind (int_kind_spec); that the unsafe read then covers exactly the key's bytes is the
   consequence on the Go side, not something stated here *)
Lemma kind_rows_ok : forall r, In r kind_table -> row_ok r = true.
Proof. apply forallb_forall. exact (proj1 kind_table_ok). Qed.

(* equal integer keys (same kind, same value) hash equally: hash_int is a function; distinct
   widths never share a cache (K is one type per cache) *)
Lemma hash_int_function : forall w sg v1 v2, v1 = v2 -> hash_int w sg v1 = hash_int w sg v2.
Proof. intros; subst; reflexivity. Qed.

(* zero extension (sg = 0) is injective on the kind's value range, so distinct unsigned keys keep distinct
   pre-images; the signed kinds are not covered *)
Lemma extend_injective : forall w v1 v2, 1 <= w <= 64 ->
  0 <= v1 < 2 ^ w -> 0 <= v2 < 2 ^ w -> extend w 0 v1 = extend w 0 v2 -> v1 = v2.
Proof.
  intros w v1 v2 Hw H1 H2. unfold extend. cbn [Z.eqb andb].
  rewrite !Z.mod_small by lia. auto.
Qed.

(* sequential registry: the spec side of stream "reg" (C17) *)
Record reg_state := {
  rregs : list (Z * Z);            (* name -> registered type (0 = untyped) *)
  rinsts : list (Z * (Z * Z));     (* name -> (type, instance id) live instances *)
  rnext : Z                        (* next instance id *)
}.
Fixpoint zassoc {A} (l : list (Z * A)) (k : Z) : option A :=
  match l with [] => None | (k', v) :: r => if k' =? k then Some v else zassoc r k end.
Definition zdel {A} (l : list (Z * A)) (k : Z) : list (Z * A) := filter (fun kv => negb (fst kv =? k)) l.

(* error codes: 0 ok, 1 ErrCacheExists, 2 ErrCacheNotRegistered, 3 ErrTypeMismatch, 4 invalid config *)
Definition reg_step (s : reg_state) (op : list Z) : reg_state * list Z :=
  match op with
  | [1; name; ty; valid] =>          (* Register (ty = 0) / RegisterCache[ty] *)
    if valid =? 0 then (s, [4; 0])
    else match zassoc (rregs s) name with
         | Some _ => (s, [1; 0])
         | None => ({| rregs := (name, ty) :: rregs s; rinsts := rinsts s; rnext := rnext s |}, [0; 0])
         end
  | [2; name; ty] =>                 (* GetCache[ty] *)
    match zassoc (rinsts s) name with
    | Some (t, id) => if t =? ty then (s, [0; id]) else (s, [3; 0])
    | None =>
      match zassoc (rregs s) name with
      | None => (s, [2; 0])
      | Some rt => if negb (rt =? 0) && negb (rt =? ty) then (s, [3; 0])
                   else ({| rregs := rregs s; rinsts := (name, (ty, rnext s)) :: rinsts s; rnext := rnext s + 1 |}, [0; rnext s])
      end
    end
  | [3; name; ty; valid] =>          (* GetCacheWithConfig[ty] *)
    match zassoc (rinsts s) name with
    | Some (t, id) => if t =? ty then (s, [0; id]) else (s, [3; 0])
    | None =>
      match zassoc (rregs s) name with
      | Some rt => if negb (rt =? 0) && negb (rt =? ty) then (s, [3; 0])
                   else if valid =? 0 then (s, [4; 0])
                   else ({| rregs := rregs s; rinsts := (name, (ty, rnext s)) :: rinsts s; rnext := rnext s + 1 |}, [0; rnext s])
      | None => if valid =? 0 then (s, [4; 0])
                else ({| rregs := rregs s; rinsts := (name, (ty, rnext s)) :: rinsts s; rnext := rnext s + 1 |}, [0; rnext s])
      end
    end
  | [4; name] =>                     (* Remove *)
    ({| rregs := zdel (rregs s) name; rinsts := zdel (rinsts s) name; rnext := rnext s |}, [0; 0])
  | [5] =>                           (* CloseAll *)
    ({| rregs := rregs s; rinsts := []; rnext := rnext s |}, [0; 0])
  | _ => (s, [-1])
  end.
Definition reg_init : reg_state := {| rregs := []; rinsts := []; rnext := 1 |}.
