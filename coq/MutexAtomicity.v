(* Critical sections under one lock compose sequentially.  One generic transition system:
   shared state [S], result type [R], any number of threads (a list of scripts).  The INNER
   lock is a sync.RWMutex (write flag [wlk] + reader count [rdc]); the OUTER lock is a plain
   sync.Mutex token [olk] (the cache's drainMu).  A write call is Lock/TryLock ; micro-steps
   (one per scheduler step) ; Unlock, a read call is RLock ; observations (one per scheduler
   step) ; RUnlock.  [OOuter try b] is outer.Lock/TryLock ; inner-level ops b ; outer.Unlock,
   so the acquisition order outer-then-inner (or inner alone, or TryLock on either) is the
   syntax of scripts; the one-lock system is the fragment whose scripts contain no [OOuter],
   and every theorem here holds for it.  Ghost fields record the acquisition order, the returned results and
   what readers saw. *)
From KV Require Import Base.
Close Scope Z_scope.
Open Scope nat_scope.

Set Implicit Arguments.

Section ListHelpers.
  Variable A : Type.

  Fixpoint upd (l : list A) (i : nat) (x : A) : list A :=
    match l, i with
    | [], _ => []
    | _ :: r, O => x :: r
    | a :: r, Datatypes.S j => a :: upd r j x
    end.

  Definition b2n (b : bool) : nat := if b then 1 else 0.

  Lemma b2n_le1 b : b2n b <= 1.
  Proof. destruct b; cbn; lia. Qed.

  Lemma b2n_pos b : 1 <= b2n b <-> b = true.
  Proof. destruct b; cbn; split; auto; [lia | discriminate]. Qed.

  Fixpoint count (p : A -> bool) (l : list A) : nat :=
    match l with [] => 0 | a :: r => b2n (p a) + count p r end.

  Lemma nth_upd_eq l i x a : nth_error l i = Some a -> nth_error (upd l i x) i = Some x.
  Proof.
    revert i; induction l as [|b l IH]; intros [|i] H; cbn in *; try discriminate; auto.
  Qed.

  Lemma nth_upd_ne l i j x : i <> j -> nth_error (upd l i x) j = nth_error l j.
  Proof.
    revert i j; induction l as [|b l IH]; intros [|i] [|j] H; cbn; auto; try congruence.
  Qed.

  Lemma count_upd p l i x a : nth_error l i = Some a ->
    count p (upd l i x) + b2n (p a) = count p l + b2n (p x).
  Proof.
    revert i; induction l as [|b l IH]; intros [|i] H; cbn in *; try discriminate.
    - inversion H; subst. lia.
    - specialize (IH _ H). lia.
  Qed.

  Lemma count_nth_le p l i a : nth_error l i = Some a -> b2n (p a) <= count p l.
  Proof.
    revert i; induction l as [|b l IH]; intros [|i] H; cbn in *; try discriminate.
    - inversion H; subst. lia.
    - specialize (IH _ H). lia.
  Qed.

  Lemma count_ge1 p l i a : nth_error l i = Some a -> p a = true -> 1 <= count p l.
  Proof. intros H Hp. pose proof (count_nth_le p _ _ H) as Hc. rewrite Hp in Hc. exact Hc. Qed.

  Lemma count_pos_ex p l : 1 <= count p l -> exists i a, nth_error l i = Some a /\ p a = true.
  Proof.
    induction l as [|b l IH]; cbn; intros H; [lia|].
    destruct (p b) eqn:E.
    - exists 0, b; auto.
    - cbn in H. destruct (IH H) as (i & a & Hi & Ha). exists (Datatypes.S i), a; auto.
  Qed.

  Lemma count_pos_iff p l :
    1 <= count p l <-> exists i a, nth_error l i = Some a /\ p a = true.
  Proof. split; [apply count_pos_ex | intros (i & a & H & Hp); exact (count_ge1 p l i H Hp)]. Qed.

  Lemma count_le1_unique p l : forall i j a b,
    count p l <= 1 -> nth_error l i = Some a -> nth_error l j = Some b ->
    p a = true -> p b = true -> i = j.
  Proof.
    induction l as [|c l IH]; intros [|i] [|j] a b Hc Hi Hj Ha Hb; cbn in *;
      try discriminate; auto.
    - injection Hi as ->. rewrite Ha in Hc. pose proof (count_ge1 p l j Hj Hb). cbn in Hc. lia.
    - injection Hj as ->. rewrite Hb in Hc. pose proof (count_ge1 p l i Hi Ha). cbn in Hc. lia.
    - f_equal. apply (IH i j a b); auto. lia.
  Qed.
  Lemma nth_upd_inv (l : list A) : forall t x t' y,
    nth_error (upd l t x) t' = Some y ->
    (t' = t /\ y = x) \/ (t' <> t /\ nth_error l t' = Some y).
  Proof.
    induction l as [|b l IH]; intros [|t] x [|t'] y H; cbn in H; try discriminate; auto.
    - injection H as <-. auto.
    - destruct (IH _ _ _ _ H) as [[-> ->]|[Hne Hn]]; auto.
  Qed.

  Lemma count_zero_all (p : A -> bool) l :
    count p l = 0 -> forall i a, nth_error l i = Some a -> p a = false.
  Proof.
    intros H i a Hn. destruct (p a) eqn:E; auto.
    pose proof (count_ge1 p _ _ Hn E). lia.
  Qed.
End ListHelpers.

Section Model.
  Variables S R : Type.

  (* a micro-step of a write critical section: shared state + the call's private accumulator *)
  Definition mstep := S -> R -> S * R.

  Record call := { c_init : R; c_steps : list mstep }.

  Fixpoint run_steps (ms : list mstep) (sr : S * R) : S * R :=
    match ms with [] => sr | m :: r => run_steps r (m (fst sr) (snd sr)) end.

  (* the whole critical section as ONE atomic function  body : S -> S * R *)
  Definition body (c : call) (s : S) : S * R := run_steps (c_steps c) (s, c_init c).

  (* any function S -> S * R is the body of a (one micro-step) call *)
  Definition call_of (r0 : R) (f : S -> S * R) : call :=
    {| c_init := r0; c_steps := [fun s _ => f s] |}.
  Lemma body_call_of r0 f s : body (call_of r0 f) s = f s.
  Proof. reflexivity. Qed.

  Inductive iop :=
  | ILocal                                   (* thread-local step *)
  | IWrite (try : bool) (c : call)           (* Lock / TryLock ; body ; Unlock *)
  | IRead (obs : list (S -> R)).             (* RLock ; observations ; RUnlock *)

  Inductive op :=
  | OIn (i : iop)
  | OOuter (try : bool) (b : list iop).      (* outer.Lock / TryLock ; b ; outer.Unlock *)

  Inductive istatus :=
  | Idle
  | InW (c : call) (rem : list mstep) (r : R)   (* holds the write lock *)
  | InR (rem : list (S -> R)).                  (* holds a read lock *)

  Record thread := { t_prog : list op; t_outer : option (list iop); t_in : istatus }.

  Record state := {
    sh : S;
    wlk : bool;                   (* inner lock write-held *)
    rdc : nat;                    (* inner lock reader count *)
    olk : bool;                   (* outer token held *)
    thr : list thread;
    g_acq : list (nat * call);    (* ghost: write acquisitions, in order *)
    g_ret : list (nat * R);       (* ghost: results returned, in Unlock order *)
    g_obs : list (nat * S * R)    (* ghost: reader observations (thread, state seen, value) *)
  }.

  Definition set_thr (st : state) (t : nat) (th : thread) : state :=
    {| sh := sh st; wlk := wlk st; rdc := rdc st; olk := olk st;
       thr := upd (thr st) t th;
       g_acq := g_acq st; g_ret := g_ret st; g_obs := g_obs st |}.

  (* execute inner-level op [i] for thread [t]; [th'] is the thread with [i] already consumed.
     RLock succeeds whenever no writer HOLDS the lock; Go's sync.RWMutex also turns new readers
     away once a writer waits.  The model therefore has more enabled steps than Go: the safety
     theorems carry over, the progress theorems ([lock_order_no_cycle], [deadlock_free]) are
     about this more permissive lock. *)
  Definition do_iop (st : state) (t : nat) (th' : thread) (i : iop) : option state :=
    match i with
    | ILocal => Some (set_thr st t th')
    | IWrite try c =>
        if wlk st || (0 <? rdc st) then
          (if try then Some (set_thr st t th') else None)
        else Some {| sh := sh st; wlk := true; rdc := rdc st; olk := olk st;
                     thr := upd (thr st) t
                              {| t_prog := t_prog th'; t_outer := t_outer th';
                                 t_in := InW c (c_steps c) (c_init c) |};
                     g_acq := g_acq st ++ [(t, c)]; g_ret := g_ret st; g_obs := g_obs st |}
    | IRead obs =>
        if wlk st then None
        else Some {| sh := sh st; wlk := wlk st; rdc := Datatypes.S (rdc st); olk := olk st;
                     thr := upd (thr st) t
                              {| t_prog := t_prog th'; t_outer := t_outer th'; t_in := InR obs |};
                     g_acq := g_acq st; g_ret := g_ret st; g_obs := g_obs st |}
    end.

  (* one scheduler step of thread [t]; None = finished, blocked, or no such thread *)
  Definition step (st : state) (t : nat) : option state :=
    match nth_error (thr st) t with
    | None => None
    | Some th =>
      match t_in th with
      | InW c (m :: rem) r =>
          let sr := m (sh st) r in
          Some {| sh := fst sr; wlk := wlk st; rdc := rdc st; olk := olk st;
                  thr := upd (thr st) t
                           {| t_prog := t_prog th; t_outer := t_outer th;
                              t_in := InW c rem (snd sr) |};
                  g_acq := g_acq st; g_ret := g_ret st; g_obs := g_obs st |}
      | InW c [] r =>
          Some {| sh := sh st; wlk := false; rdc := rdc st; olk := olk st;
                  thr := upd (thr st) t
                           {| t_prog := t_prog th; t_outer := t_outer th; t_in := Idle |};
                  g_acq := g_acq st; g_ret := g_ret st ++ [(t, r)]; g_obs := g_obs st |}
      | InR (f :: rem) =>
          Some {| sh := sh st; wlk := wlk st; rdc := rdc st; olk := olk st;
                  thr := upd (thr st) t
                           {| t_prog := t_prog th; t_outer := t_outer th; t_in := InR rem |};
                  g_acq := g_acq st; g_ret := g_ret st;
                  g_obs := g_obs st ++ [(t, sh st, f (sh st))] |}
      | InR [] =>
          Some {| sh := sh st; wlk := wlk st; rdc := pred (rdc st); olk := olk st;
                  thr := upd (thr st) t
                           {| t_prog := t_prog th; t_outer := t_outer th; t_in := Idle |};
                  g_acq := g_acq st; g_ret := g_ret st; g_obs := g_obs st |}
      | Idle =>
        match t_outer th with
        | Some [] =>
            Some {| sh := sh st; wlk := wlk st; rdc := rdc st; olk := false;
                    thr := upd (thr st) t
                             {| t_prog := t_prog th; t_outer := None; t_in := Idle |};
                    g_acq := g_acq st; g_ret := g_ret st; g_obs := g_obs st |}
        | Some (i :: rest) =>
            do_iop st t {| t_prog := t_prog th; t_outer := Some rest; t_in := Idle |} i
        | None =>
          match t_prog th with
          | [] => None
          | OIn i :: p =>
              do_iop st t {| t_prog := p; t_outer := None; t_in := Idle |} i
          | OOuter try b :: p =>
              if olk st then
                (if try then Some (set_thr st t {| t_prog := p; t_outer := None; t_in := Idle |})
                 else None)
              else Some {| sh := sh st; wlk := wlk st; rdc := rdc st; olk := true;
                           thr := upd (thr st) t
                                    {| t_prog := p; t_outer := Some b; t_in := Idle |};
                           g_acq := g_acq st; g_ret := g_ret st; g_obs := g_obs st |}
          end
        end
      end
    end.

  Definition init (s0 : S) (scripts : list (list op)) : state :=
    {| sh := s0; wlk := false; rdc := 0; olk := false;
       thr := map (fun p => {| t_prog := p; t_outer := None; t_in := Idle |}) scripts;
       g_acq := []; g_ret := []; g_obs := [] |}.

  Variable s0 : S.
  Variable scripts : list (list op).

  Inductive reachable : state -> Prop :=
  | R_init : reachable (init s0 scripts)
  | R_step st t st' : reachable st -> step st t = Some st' -> reachable st'.

  (* executable scheduler: a schedule is a list of thread ids; blocked picks are no-ops *)
  Fixpoint exec (sched : list nat) (st : state) : state :=
    match sched with
    | [] => st
    | t :: r => exec r (match step st t with Some st' => st' | None => st end)
    end.

  Lemma exec_reachable sched st : reachable st -> reachable (exec sched st).
  Proof.
    revert st; induction sched as [|t r IH]; intros st H; cbn; auto.
    apply IH. destruct (step st t) eqn:E; auto. eapply R_step; eauto.
  Qed.

  Definition isW (th : thread) : bool := match t_in th with InW _ _ _ => true | _ => false end.
  Definition isR (th : thread) : bool := match t_in th with InR _ => true | _ => false end.
  Definition isO (th : thread) : bool := match t_outer th with Some _ => true | None => false end.

  Definition in_write (st : state) (t : nat) : Prop :=
    exists th, nth_error (thr st) t = Some th /\ isW th = true.
  Definition in_read (st : state) (t : nat) : Prop :=
    exists th, nth_error (thr st) t = Some th /\ isR th = true.
  Definition holds_outer (st : state) (t : nat) : Prop :=
    exists th, nth_error (thr st) t = Some th /\ isO th = true.
  Definition in_w (st : state) (t : nat) (c : call) (rem : list mstep) (r : R) : Prop :=
    exists th, nth_error (thr st) t = Some th /\ t_in th = InW c rem r.

  Definition lock_inv (st : state) : Prop :=
    count isW (thr st) = b2n (wlk st) /\
    count isR (thr st) = rdc st /\
    (wlk st = true -> rdc st = 0) /\
    count isO (thr st) = b2n (olk st).

  Lemma count_init (p : thread -> bool) (l : list (list op)) :
    (forall q, p {| t_prog := q; t_outer := None; t_in := Idle |} = false) ->
    count p (map (fun q => {| t_prog := q; t_outer := None; t_in := Idle |}) l) = 0.
  Proof. intros H; induction l; cbn; auto. rewrite H, IHl. reflexivity. Qed.

  Lemma lock_inv_init : lock_inv (init s0 scripts).
  Proof.
    unfold lock_inv, init; cbn. repeat split; try (apply count_init; reflexivity); auto.
  Qed.

  (* [th0] is [th] with its next inner-level operation [i] consumed *)
  Variant consumes (th : thread) (i : iop) : thread -> Prop :=
  | cons_outer rest : t_outer th = Some (i :: rest) ->
      consumes th i {| t_prog := t_prog th; t_outer := Some rest; t_in := Idle |}
  | cons_prog p : t_outer th = None -> t_prog th = OIn i :: p ->
      consumes th i {| t_prog := p; t_outer := None; t_in := Idle |}.

  (* [step_kind] below is the inversion view of [step]: one constructor per branch of [step]
     and [do_iop], with the conditions under which the branch is taken and the successor it
     returns, so that proofs about a step are a [destruct] on [step_inv] instead of an
     unfolding of [step].  [set_locks] abbreviates the successor of the four branches that
     change only the lock words and the stepping thread (it unfolds to the record [step]
     writes there). *)
  Definition set_locks (st : state) (w : bool) (r : nat) (o : bool) (t : nat) (th' : thread) :=
    {| sh := sh st; wlk := w; rdc := r; olk := o; thr := upd (thr st) t th';
       g_acq := g_acq st; g_ret := g_ret st; g_obs := g_obs st |}.

  Variant step_kind (st : state) (t : nat) (th : thread) : state -> Prop :=
  | sk_micro c m rem r : t_in th = InW c (m :: rem) r ->
      step_kind st t th
        {| sh := fst (m (sh st) r); wlk := wlk st; rdc := rdc st; olk := olk st;
           thr := upd (thr st) t {| t_prog := t_prog th; t_outer := t_outer th;
                                    t_in := InW c rem (snd (m (sh st) r)) |};
           g_acq := g_acq st; g_ret := g_ret st; g_obs := g_obs st |}
  | sk_unlock c r : t_in th = InW c [] r ->
      step_kind st t th
        {| sh := sh st; wlk := false; rdc := rdc st; olk := olk st;
           thr := upd (thr st) t {| t_prog := t_prog th; t_outer := t_outer th; t_in := Idle |};
           g_acq := g_acq st; g_ret := g_ret st ++ [(t, r)]; g_obs := g_obs st |}
  | sk_obs f rem : t_in th = InR (f :: rem) ->
      step_kind st t th
        {| sh := sh st; wlk := wlk st; rdc := rdc st; olk := olk st;
           thr := upd (thr st) t {| t_prog := t_prog th; t_outer := t_outer th; t_in := InR rem |};
           g_acq := g_acq st; g_ret := g_ret st; g_obs := g_obs st ++ [(t, sh st, f (sh st))] |}
  | sk_runlock : t_in th = InR [] ->
      step_kind st t th
        (set_locks st (wlk st) (pred (rdc st)) (olk st) t
                   {| t_prog := t_prog th; t_outer := t_outer th; t_in := Idle |})
  | sk_outer_unlock : t_in th = Idle -> t_outer th = Some [] ->
      step_kind st t th
        (set_locks st (wlk st) (rdc st) false t
                   {| t_prog := t_prog th; t_outer := None; t_in := Idle |})
  | sk_outer_lock try b p :
      t_in th = Idle -> t_outer th = None -> t_prog th = OOuter try b :: p -> olk st = false ->
      step_kind st t th
        (set_locks st (wlk st) (rdc st) true t {| t_prog := p; t_outer := Some b; t_in := Idle |})
  | sk_outer_busy b p :
      t_in th = Idle -> t_outer th = None -> t_prog th = OOuter true b :: p -> olk st = true ->
      step_kind st t th (set_thr st t {| t_prog := p; t_outer := None; t_in := Idle |})
  | sk_skip i th0 :               (* a local step, or a TryLock that finds the lock taken *)
      t_in th = Idle -> consumes th i th0 ->
      i = ILocal \/ (exists c, i = IWrite true c /\ wlk st || (0 <? rdc st) = true) ->
      step_kind st t th (set_thr st t th0)
  | sk_lock try c th0 :
      t_in th = Idle -> consumes th (IWrite try c) th0 -> wlk st = false -> rdc st = 0 ->
      step_kind st t th
        {| sh := sh st; wlk := true; rdc := rdc st; olk := olk st;
           thr := upd (thr st) t {| t_prog := t_prog th0; t_outer := t_outer th0;
                                    t_in := InW c (c_steps c) (c_init c) |};
           g_acq := g_acq st ++ [(t, c)]; g_ret := g_ret st; g_obs := g_obs st |}
  | sk_rlock obs th0 :
      t_in th = Idle -> consumes th (IRead obs) th0 -> wlk st = false ->
      step_kind st t th
        (set_locks st (wlk st) (Datatypes.S (rdc st)) (olk st) t
                   {| t_prog := t_prog th0; t_outer := t_outer th0; t_in := InR obs |}).

  Lemma do_iop_inv st t th th0 i st' :
    t_in th = Idle -> consumes th i th0 -> do_iop st t th0 i = Some st' -> step_kind st t th st'.
  Proof.
    intros Hin Hc. unfold do_iop. destruct i as [|try c|obs].
    - intros [= <-]. apply (sk_skip _ _ Hin Hc). left; reflexivity.
    - destruct (wlk st || (0 <? rdc st)) eqn:E.
      + destruct try; intros [= <-]. apply (sk_skip _ _ Hin Hc). right; eauto.
      + intros [= <-]. apply Bool.orb_false_iff in E as [E1 E2]. apply Nat.ltb_ge in E2.
        apply (sk_lock _ _ Hin Hc E1). lia.
    - intros H. assert (E : wlk st = false) by (destruct (wlk st); [discriminate H | reflexivity]).
      revert H. rewrite E at 1. intros [= <-]. apply (sk_rlock _ _ Hin Hc E).
  Qed.

  Lemma step_inv st t st' : step st t = Some st' ->
    exists th, nth_error (thr st) t = Some th /\ step_kind st t th st'.
  Proof.
    unfold step. destruct (nth_error (thr st) t) as [th|]; [|discriminate].
    intros H. exists th. split; [reflexivity|].
    destruct (t_in th) as [|c [|m rem] r|[|f rem]] eqn:Hin.
    - destruct (t_outer th) as [[|i rest]|] eqn:Ho.
      + injection H as <-. apply sk_outer_unlock; assumption.
      + exact (do_iop_inv _ _ Hin (cons_outer _ Ho) H).
      + destruct (t_prog th) as [|[i|try b] p] eqn:Hp; [discriminate| |].
        * exact (do_iop_inv _ _ Hin (cons_prog _ Ho Hp) H).
        * destruct (olk st) eqn:E; [destruct try; [|discriminate]|]; injection H as <-.
          -- eapply sk_outer_busy; eassumption.
          -- eapply sk_outer_lock; eassumption.
    - injection H as <-. eapply sk_unlock; eassumption.
    - injection H as <-. eapply sk_micro; eassumption.
    - injection H as <-. eapply sk_runlock; eassumption.
    - injection H as <-. eapply sk_obs; eassumption.
  Qed.

  (* the lock words follow the flags of the stepping thread *)
  Lemma lock_inv_upd st t th th' s w r o a b c :
    lock_inv st -> nth_error (thr st) t = Some th ->
    b2n w + b2n (isW th) = b2n (wlk st) + b2n (isW th') ->
    r + b2n (isR th) = rdc st + b2n (isR th') ->
    (w = true -> r = 0) ->
    b2n o + b2n (isO th) = b2n (olk st) + b2n (isO th') ->
    lock_inv {| sh := s; wlk := w; rdc := r; olk := o; thr := upd (thr st) t th';
                g_acq := a; g_ret := b; g_obs := c |}.
  Proof.
    intros (HW & HR & _ & HO) Hth EW ER HX EO. unfold lock_inv; cbn [wlk rdc olk thr].
    pose proof (count_upd isW _ _ th' Hth). pose proof (count_upd isR _ _ th' Hth).
    pose proof (count_upd isO _ _ th' Hth). repeat split; [lia | lia | exact HX | lia].
  Qed.

  Lemma lock_inv_step st t st' : lock_inv st -> step st t = Some st' -> lock_inv st'.
  Proof.
    intros LI H. destruct (step_inv _ _ H) as (th & Hth & K).
    pose proof LI as (HW & HR & HX & HO).
    (* the stepping thread's flags are bounded by the lock words *)
    pose proof (count_nth_le isW _ _ Hth) as LW. rewrite HW in LW.
    pose proof (count_nth_le isR _ _ Hth) as LR. rewrite HR in LR.
    pose proof (count_nth_le isO _ _ Hth) as LO. rewrite HO in LO.
    pose proof (b2n_le1 (wlk st)) as BW. pose proof (b2n_le1 (olk st)) as BO.
    clear H HW HR HO.
    (* Every case is arithmetic on the flags of th and th' and on the lock words:
         sk_micro W->W, sk_obs R->R, sk_outer_busy and sk_skip: nothing changes;
         sk_unlock W->idle with wlk := false;    sk_runlock R->idle with rdc - 1;
         sk_outer_unlock O->none with olk := false;
         sk_outer_lock none->O with olk := true, the token being free (E);
         sk_lock idle->W with wlk := true, the lock being free (E, E2);
         sk_rlock idle->R with rdc + 1, no writer inside (E).
       [consumes] (sk_skip, sk_lock, sk_rlock) leaves the O flag as it is. *)
    destruct K as [c m rem r Hin|c r Hin|f rem Hin|Hin|Hin Ho|try b p Hin Ho Hp E|b p Hin Ho Hp E
                  |i th0 Hin Hc _|try c th0 Hin Hc E E2|obs th0 Hin Hc E];
      try destruct Hc as [rest Ho|p Ho Hp]; try pose proof (f_equal b2n E) as Eb; unfold set_thr;
      (eapply lock_inv_upd; [exact LI | exact Hth | ..]); unfold isW, isR, isO in *;
      cbn [t_in t_outer] in *; rewrite ?Hin, ?Ho in *; cbn [b2n] in *; lia.
  Qed.

  Lemma lock_inv_reachable st : reachable st -> lock_inv st.
  Proof. induction 1; [apply lock_inv_init | eapply lock_inv_step; eauto]. Qed.

  Lemma lock_inv_words st : lock_inv st ->
    (wlk st = true <-> exists t, in_write st t) /\
    (1 <= rdc st <-> exists t, in_read st t) /\
    (olk st = true <-> exists t, holds_outer st t).
  Proof.
    intros (HW & HR & _ & HO).
    rewrite <- (b2n_pos (wlk st)), <- (b2n_pos (olk st)), <- HW, <- HR, <- HO.
    repeat split; apply count_pos_iff.
  Qed.

  Lemma in_write_wlk st t : lock_inv st -> in_write st t -> wlk st = true.
  Proof. intros LI H. apply (lock_inv_words LI). eauto. Qed.

  Lemma wlk_in_write st : lock_inv st -> wlk st = true -> exists t, in_write st t.
  Proof. intros LI. apply (lock_inv_words LI). Qed.

  Lemma in_read_rdc st t : lock_inv st -> in_read st t -> wlk st = false /\ 1 <= rdc st.
  Proof.
    intros LI H. assert (1 <= rdc st) by (apply (lock_inv_words LI); eauto). split; auto.
    destruct LI as (_ & _ & HX & _). destruct (wlk st); auto. specialize (HX eq_refl). lia.
  Qed.

  Lemma write_unique st t1 t2 : lock_inv st -> in_write st t1 -> in_write st t2 -> t1 = t2.
  Proof.
    intros (HW & _) (a & Ha & Pa) (b & Hb & Pb). eapply count_le1_unique; eauto.
    rewrite HW. apply b2n_le1.
  Qed.

  Theorem mutual_exclusion st : reachable st ->
    (forall t1 t2, in_write st t1 -> in_write st t2 -> t1 = t2) /\
    (forall t1 t2, in_write st t1 -> ~ in_read st t2) /\
    (forall t1 t2, holds_outer st t1 -> holds_outer st t2 -> t1 = t2).
  Proof.
    intros Hr. pose proof (lock_inv_reachable Hr) as LI. repeat split.
    - intros; eapply write_unique; eauto.
    - intros t1 t2 Hw Hrd. apply in_write_wlk in Hw; auto.
      apply in_read_rdc in Hrd; auto. destruct Hrd; congruence.
    - intros t1 t2 (a & Ha & Pa) (b & Hb & Pb). destruct LI as (_ & _ & _ & HO).
      eapply count_le1_unique; eauto. rewrite HO. apply b2n_le1.
  Qed.

  Theorem lock_words st : reachable st ->
    (wlk st = true <-> exists t, in_write st t) /\
    (1 <= rdc st <-> exists t, in_read st t) /\
    (olk st = true <-> exists t, holds_outer st t).
  Proof. intros Hr. apply lock_inv_words, lock_inv_reachable, Hr. Qed.

  Definition seq_state (s : S) (cs : list call) : S :=
    fold_left (fun s c => fst (body c s)) cs s.

  Fixpoint seq_rets (s : S) (acq : list (nat * call)) : list (nat * R) :=
    match acq with
    | [] => []
    | (t, c) :: r => (t, snd (body c s)) :: seq_rets (fst (body c s)) r
    end.

  Lemma seq_state_snoc s cs c : seq_state s (cs ++ [c]) = fst (body c (seq_state s cs)).
  Proof. unfold seq_state. rewrite fold_left_app. reflexivity. Qed.

  Lemma seq_rets_snoc s acq t c :
    seq_rets s (acq ++ [(t, c)]) =
    seq_rets s acq ++ [(t, snd (body c (seq_state s (map snd acq))))].
  Proof.
    revert s; induction acq as [|[t' c'] acq IH]; intros s; cbn; auto.
    rewrite IH. reflexivity.
  Qed.

  Lemma run_steps_app a b sr : run_steps (a ++ b) sr = run_steps b (run_steps a sr).
  Proof. revert sr; induction a; intros; cbn; auto. Qed.

  Definition atom_inv (st : state) : Prop :=
    (wlk st = false ->
       sh st = seq_state s0 (map snd (g_acq st)) /\ g_ret st = seq_rets s0 (g_acq st)) /\
    (forall t c rem r, in_w st t c rem r ->
       exists acq' done,
         g_acq st = acq' ++ [(t, c)] /\ c_steps c = done ++ rem /\
         run_steps done (seq_state s0 (map snd acq'), c_init c) = (sh st, r) /\
         g_ret st = seq_rets s0 acq').

  (* a step that leaves the shared state, the write lock and the write ghosts alone, and whose
     thread is outside any write section afterwards *)
  Lemma atom_inv_frame st t th' r o c :
    atom_inv st -> isW th' = false ->
    atom_inv {| sh := sh st; wlk := wlk st; rdc := r; olk := o; thr := upd (thr st) t th';
                g_acq := g_acq st; g_ret := g_ret st; g_obs := c |}.
  Proof.
    intros (A1 & A2) Hw. split; [exact A1|].
    intros t' c' rem' r' (th'' & Hn & Hi). cbn [thr] in Hn.
    apply nth_upd_inv in Hn as [[-> ->]|[Hne Hn]].
    - unfold isW in Hw. rewrite Hi in Hw. discriminate.
    - apply A2. exists th''; auto.
  Qed.

  Lemma atom_inv_step st t st' :
    lock_inv st -> atom_inv st -> step st t = Some st' -> atom_inv st'.
  Proof.
    intros LI AI H. destruct (step_inv _ _ H) as (th & Hth & K). clear H.
    (* sk_obs, sk_runlock, the three outer kinds, sk_skip and sk_rlock leave sh, wlk, g_acq and
       g_ret alone and end outside a write section: [atom_inv_frame].  Three kinds remain. *)
    destruct K as [c m rem r Hin|c r Hin|f rem Hin|Hin|Hin Ho|try b p Hin Ho Hp E|b p Hin Ho Hp E
                  |i th0 Hin Hc Hi|try c th0 Hin _ E E2|obs th0 Hin _ E];
      try destruct Hc; try (apply atom_inv_frame; [exact AI | reflexivity]);
      destruct AI as (A1 & A2); unfold atom_inv, in_w; cbn [sh wlk thr g_acq g_ret].
    - (* sk_micro: the in-progress prefix grows by one *)
      assert (Hw : in_write st t) by (exists th; unfold isW; rewrite Hin; auto).
      split; [intros E; rewrite (in_write_wlk LI Hw) in E; discriminate|].
      intros t' c' rem' r' (th' & Hn & Hi).
      apply nth_upd_inv in Hn as [[-> ->]|[Hne Hn]].
      + injection Hi as <- <- <-.
        destruct (A2 t c (m :: rem) r) as (acq' & done & Ha & Hc & Hrun & Hret);
          [exists th; auto|].
        exists acq', (done ++ [m]). repeat split; auto.
        * rewrite Hc, <- app_assoc. reflexivity.
        * rewrite run_steps_app, Hrun. cbn. destruct (m (sh st) r); reflexivity.
      + destruct Hne. apply (write_unique LI); [exists th'; unfold isW; rewrite Hi; auto | exact Hw].
    - (* sk_unlock: the finished section is appended to the sequential run *)
      assert (Hw : in_write st t) by (exists th; unfold isW; rewrite Hin; auto).
      split.
      + intros _. destruct (A2 t c [] r) as (acq' & done & Ha & Hc & Hrun & Hret); [exists th; auto|].
        rewrite app_nil_r in Hc.
        rewrite Ha, map_app. cbn [map snd]. rewrite seq_state_snoc, seq_rets_snoc. unfold body.
        rewrite Hc, Hrun, Hret. cbn. auto.
      + intros t' c' rem' r' (th' & Hn & Hi).
        apply nth_upd_inv in Hn as [[-> ->]|[Hne Hn]]; [discriminate|].
        destruct Hne. apply (write_unique LI); [exists th'; unfold isW; rewrite Hi; auto | exact Hw].
    - (* sk_lock: the acquiring thread starts a fresh section; nobody else is inside *)
      split; [discriminate|]. destruct (A1 E) as [Hs Hr].
      intros t' c' rem' r' (th' & Hn & Hi).
      apply nth_upd_inv in Hn as [[-> ->]|[Hne Hn]].
      + injection Hi as <- <- <-. exists (g_acq st), []. cbn. rewrite <- Hs. auto.
      + assert (Hw : in_write st t') by (exists th'; unfold isW; rewrite Hi; auto).
        rewrite (in_write_wlk LI Hw) in E. discriminate.
  Qed.

  Lemma atom_inv_reachable st : reachable st -> atom_inv st.
  Proof.
    induction 1.
    - split; cbn; auto. intros t c rem r (th & Hn & Hi). exfalso.
      unfold init in Hn; cbn in Hn. apply nth_error_In in Hn. apply in_map_iff in Hn.
      destruct Hn as (q & <- & _). discriminate.
    - eapply atom_inv_step; eauto. apply lock_inv_reachable; auto.
  Qed.

  (* atomicity.  [g_acq st] is the list of write-lock acquisitions in order.
        - no section in progress: the shared state is the SEQUENTIAL run of the acquired
          bodies, each applied atomically, and the returned results are the sequential ones;
        - thread t in progress on call c with [rem] micro-steps left: c is the LAST
          acquisition, the shared state is the sequential run of all earlier ones followed
          by the executed prefix [done] of c, and all earlier results are the sequential ones. *)
  Theorem atomicity st : reachable st ->
    ((forall t, ~ in_write st t) ->
       sh st = seq_state s0 (map snd (g_acq st)) /\ g_ret st = seq_rets s0 (g_acq st)) /\
    (forall t c rem r, in_w st t c rem r ->
       exists acq' done,
         g_acq st = acq' ++ [(t, c)] /\ c_steps c = done ++ rem /\
         (sh st, r) = run_steps done (seq_state s0 (map snd acq'), c_init c) /\
         g_ret st = seq_rets s0 acq').
  Proof.
    intros Hr. destruct (atom_inv_reachable Hr) as [A1 A2]. split.
    - intros Hn. apply A1. destruct (wlk st) eqn:E; auto.
      destruct (wlk_in_write (lock_inv_reachable Hr) E) as (t & Ht). destruct (Hn t Ht).
    - intros t c rem r Hw. destruct (A2 t c rem r Hw) as (a & d & H1 & H2 & H3 & H4).
      exists a, d; auto.
  Qed.

  Definition preserves (Inv : S -> Prop) (c : call) : Prop :=
    forall s, Inv s -> Inv (fst (body c s)).

  Lemma seq_state_inv (Inv : S -> Prop) cs : forall s,
    Inv s -> Forall (preserves Inv) cs -> Inv (seq_state s cs).
  Proof.
    induction cs as [|c cs IH]; intros s Hs Hf; cbn; auto.
    inversion Hf; subst. apply IH; auto.
  Qed.

  (* strongest form: only the bodies that were actually acquired need to preserve Inv *)
  Theorem invariant_transfer_acq (Inv : S -> Prop) st : reachable st ->
    Inv s0 -> Forall (preserves Inv) (map snd (g_acq st)) ->
    wlk st = false -> Inv (sh st).
  Proof.
    intros Hr H0 Hf E. destruct (atom_inv_reachable Hr) as [A1 _].
    destruct (A1 E) as [-> _]. apply seq_state_inv; auto.
  Qed.

  (* every inner-level operation still to be run satisfies Q, and every write section
     acquired so far came from such an operation *)
  Section Pending.
    Variable Q : iop -> Prop.
    Definition op_sat (o : op) : Prop :=
      match o with OIn i => Q i | OOuter _ b => Forall Q b end.
    Definition thread_sat (th : thread) : Prop :=
      Forall op_sat (t_prog th) /\
      match t_outer th with Some b => Forall Q b | None => True end.
    Definition state_sat (st : state) : Prop :=
      (forall t th, nth_error (thr st) t = Some th -> thread_sat th) /\
      Forall (fun tc => exists try, Q (IWrite try (snd tc))) (g_acq st).

    Lemma consumes_sat th i th0 : thread_sat th -> consumes th i th0 -> Q i /\ thread_sat th0.
    Proof.
      intros [Hp Ho] [rest E|p E Ep]; unfold thread_sat; cbn [t_prog t_outer].
      - rewrite E in Ho. inversion Ho; auto.
      - rewrite Ep in Hp. inversion Hp; auto.
    Qed.

    Lemma state_sat_step st t st' : state_sat st -> step st t = Some st' -> state_sat st'.
    Proof.
      intros (HT & HA) H. destruct (step_inv _ _ H) as (th & Hth & K). clear H.
      pose proof (HT _ _ Hth) as Hs. pose proof Hs as [Hp Ho].
      assert (U : forall th', thread_sat th' -> forall t' th'',
                    nth_error (upd (thr st) t th') t' = Some th'' -> thread_sat th'').
      { intros th' H' t' th'' Hn. apply nth_upd_inv in Hn as [[_ ->]|[_ Hn]]; eauto. }
      (* in each case: the new entry of t satisfies [thread_sat]; g_acq grows only in sk_lock *)
      destruct K as [c m rem r Hin|c r Hin|f rem Hin|Hin|Hin E|try b p Hin E Ep _|b p Hin E Ep _
                    |i th0 Hin Hc _|try c th0 Hin Hc _ _|obs th0 Hin Hc _];
        try destruct (consumes_sat Hs Hc) as [Hi Hs0];
        (split; [apply U; unfold thread_sat; cbn [t_prog t_outer] | try exact HA]).
      - exact Hs.
      - exact Hs.
      - exact Hs.
      - exact Hs.
      - (* sk_outer_unlock: the outer block is finished *) exact (conj Hp I).
      - (* sk_outer_lock: the block b becomes the pending outer operations *)
        rewrite Ep in Hp. inversion Hp; auto.
      - (* sk_outer_busy: the block is skipped *) rewrite Ep in Hp. inversion Hp; auto.
      - exact Hs0.
      - (* sk_lock: the thread ... *) exact Hs0.
      - (* sk_lock: ... and the acquired call comes from the consumed operation *)
        apply Forall_app. split; [exact HA|]. constructor; eauto.
      - exact Hs0.
    Qed.

    Lemma state_sat_reachable st :
      Forall (Forall op_sat) scripts -> reachable st -> state_sat st.
    Proof.
      intros Hs. induction 1; [|eapply state_sat_step; eauto].
      split; [|constructor]. intros t th Hn.
      apply nth_error_In, in_map_iff in Hn. destruct Hn as (q & <- & Hq).
      rewrite Forall_forall in Hs. split; cbn; auto.
    Qed.
  End Pending.

  Section ScriptCalls.
    Variable P : call -> Prop.
    Definition iop_ok (i : iop) : Prop := match i with IWrite _ c => P c | _ => True end.
    Definition op_ok (o : op) : Prop :=
      match o with OIn i => iop_ok i | OOuter _ b => Forall iop_ok b end.
    Definition scripts_ok : Prop := Forall (Forall op_ok) scripts.

    Lemma acq_ok st : scripts_ok -> reachable st -> Forall P (map snd (g_acq st)).
    Proof.
      intros Hs Hr. destruct (state_sat_reachable (Q:=iop_ok) Hs Hr) as [_ HA].
      rewrite Forall_map. eapply Forall_impl; [|exact HA]. intros tc [try H]; exact H.
    Qed.
  End ScriptCalls.

  (* invariant transfer: Inv holds initially, every WHOLE body in the scripts preserves
        it => Inv holds in every reachable state with no write section in progress
        (lock free or read-held), although it may be broken between micro-steps. *)
  Theorem invariant_transfer (Inv : S -> Prop) st :
    Inv s0 -> scripts_ok (preserves Inv) -> reachable st ->
    (forall t, ~ in_write st t) -> Inv (sh st).
  Proof.
    intros H0 Hs Hr Hn. apply invariant_transfer_acq; auto.
    - apply acq_ok; auto.
    - destruct (wlk st) eqn:E; auto.
      destruct (wlk_in_write (lock_inv_reachable Hr) E) as (t & Ht). destruct (Hn t Ht).
  Qed.

  Corollary invariant_transfer_lockword (Inv : S -> Prop) st :
    Inv s0 -> scripts_ok (preserves Inv) -> reachable st -> wlk st = false -> Inv (sh st).
  Proof. intros. apply invariant_transfer_acq; auto. apply acq_ok; auto. Qed.

  Theorem reader_sees_quiescent_state (Inv : S -> Prop) st t :
    Inv s0 -> scripts_ok (preserves Inv) -> reachable st ->
    in_read st t -> Inv (sh st).
  Proof.
    intros H0 Hs Hr Hrd. apply invariant_transfer_lockword; auto.
    apply (in_read_rdc (lock_inv_reachable Hr) Hrd).
  Qed.

  (* the log of what readers actually observed: each observed state is the sequential
     run of a PREFIX of the acquisition order (readers are linearised between writers) *)
  Definition obs_ok (acq : list (nat * call)) (x : nat * S * R) : Prop :=
    exists k, k <= length acq /\ snd (fst x) = seq_state s0 (map snd (firstn k acq)).

  Lemma obs_ok_snoc acq y x : obs_ok acq x -> obs_ok (acq ++ [y]) x.
  Proof.
    intros (k & Hk & E). exists k. split; [rewrite app_length; lia|].
    rewrite firstn_app. replace (k - length acq) with 0 by lia. cbn. rewrite app_nil_r. auto.
  Qed.

  Lemma obs_inv_step st t st' : lock_inv st -> atom_inv st ->
    Forall (obs_ok (g_acq st)) (g_obs st) -> step st t = Some st' ->
    Forall (obs_ok (g_acq st')) (g_obs st').
  Proof.
    intros LI (A1 & _) HO H. destruct (step_inv _ _ H) as (th & Hth & K). clear H.
    (* only sk_obs extends g_obs and only sk_lock extends g_acq *)
    destruct K as [c m rem r Hin|c r Hin|f rem Hin|Hin|Hin Ho|try b p Hin Ho Hp E|b p Hin Ho Hp E
                  |i th0 Hin Hc Hi|try c th0 Hin Hc E E2|obs th0 Hin Hc E];
      cbn [g_acq g_obs]; try exact HO.
    - (* sk_obs: the reader sees the sequential run of all acquisitions so far *)
      apply Forall_app; split; auto. constructor; auto.
      assert (Hrd : in_read st t) by (exists th; split; auto; unfold isR; rewrite Hin; auto).
      destruct (in_read_rdc LI Hrd) as [E _]. destruct (A1 E) as [Hs _].
      exists (length (g_acq st)). split; auto. rewrite firstn_all. exact Hs.
    - (* sk_lock: earlier observations stay prefixes of the longer order *)
      eapply Forall_impl; [|exact HO]; intros; apply obs_ok_snoc; auto.
  Qed.

  Lemma obs_inv_reachable st : reachable st -> Forall (obs_ok (g_acq st)) (g_obs st).
  Proof.
    induction 1; [constructor|].
    eapply obs_inv_step; eauto using lock_inv_reachable, atom_inv_reachable.
  Qed.

  Theorem reader_observations (Inv : S -> Prop) st :
    Inv s0 -> scripts_ok (preserves Inv) -> reachable st ->
    Forall (fun x => Inv (snd (fst x)) /\
                     exists k, k <= length (g_acq st) /\
                       snd (fst x) = seq_state s0 (map snd (firstn k (g_acq st))))
           (g_obs st).
  Proof.
    intros H0 Hs Hr. eapply Forall_impl; [|apply obs_inv_reachable; auto].
    intros x (k & Hk & E). split; [|exists k; auto]. rewrite E.
    apply seq_state_inv; auto.
    pose proof (acq_ok Hs Hr) as HF. rewrite Forall_forall in *.
    intros c Hc. apply HF. rewrite in_map_iff in *. destruct Hc as (tc & <- & Hin).
    exists tc; split; auto. rewrite <- (firstn_skipn k). apply in_or_app; auto.
  Qed.

  Definition holds_lock (st : state) (t : nat) : Prop :=
    in_write st t \/ in_read st t \/ holds_outer st t.

  Lemma section_steps st t th :
    nth_error (thr st) t = Some th -> t_in th <> Idle -> step st t <> None.
  Proof.
    intros Hn Hi. unfold step. rewrite Hn.
    destruct (t_in th) as [|c [|m rem] r|[|f rem]]; [congruence|discriminate..].
  Qed.

  (* No wait-for cycle between the two locks: whenever some lock is held, a thread holding
     one can take a step (scripts take the outer token before the inner lock, so the holder
     of the inner lock never waits for the outer one, and the holder of the outer token
     waits only while somebody is inside the inner lock). *)
  Theorem lock_order_no_cycle st : reachable st ->
    (wlk st = false /\ rdc st = 0 /\ olk st = false) \/
    (exists t, holds_lock st t /\ step st t <> None).
  Proof.
    intros Hr. pose proof (lock_inv_reachable Hr) as LI.
    destruct (lock_inv_words LI) as (WW & WR & WO).
    destruct (wlk st) eqn:EW.
    { right. destruct (proj1 WW eq_refl) as (t & th & Hn & Hw). exists t.
      split; [left; exists th; auto|]. apply (section_steps _ _ Hn).
      unfold isW in Hw. intros E; rewrite E in Hw; discriminate. }
    destruct (rdc st) as [|k] eqn:ER.
    2:{ right. destruct (proj1 WR ltac:(lia)) as (t & th & Hn & Hrd). exists t.
        split; [right; left; exists th; auto|]. apply (section_steps _ _ Hn).
        unfold isR in Hrd. intros E; rewrite E in Hrd; discriminate. }
    destruct (olk st) eqn:EO; [|left; auto].
    (* nobody is inside a section: the holder of the outer token runs its next inner operation *)
    right. destruct (proj1 WO eq_refl) as (t & th & Hn & Ho). exists t.
    split; [right; right; exists th; auto|].
    assert (Hin : t_in th = Idle).
    { destruct (t_in th) eqn:Hin; auto.
      - assert (Hw : in_write st t) by (exists th; unfold isW; rewrite Hin; auto).
        apply (in_write_wlk LI) in Hw. congruence.
      - assert (Hrd : in_read st t) by (exists th; unfold isR; rewrite Hin; auto).
        apply (in_read_rdc LI) in Hrd. lia. }
    unfold step. rewrite Hn, Hin. unfold isO in Ho.
    destruct (t_outer th) as [[|i rest]|]; try discriminate.
    destruct i as [|try c|obs]; unfold do_iop; rewrite ?EW, ?ER; cbn; discriminate.
  Qed.

  Definition finished (th : thread) : Prop :=
    t_prog th = [] /\ t_outer th = None /\ t_in th = Idle.

  Definition unfin (th : thread) : bool :=
    match t_prog th, t_outer th, t_in th with
    | [], None, Idle => false
    | _, _, _ => true
    end.

  Theorem deadlock_free st : reachable st ->
    (forall t th, nth_error (thr st) t = Some th -> finished th) \/
    (exists t, step st t <> None).
  Proof.
    intros Hr. destruct (lock_order_no_cycle Hr) as [(EW & ER & EO)|(t & _ & Ht)];
      [|right; eauto].
    pose proof (lock_inv_reachable Hr) as (HW & HR & _ & HO).
    rewrite EW in HW; rewrite EO in HO; rewrite ER in HR; cbn in HW, HO.
    destruct (count unfin (thr st)) as [|k] eqn:EC.
    - left. intros t th Hn. pose proof (count_zero_all _ _ EC _ Hn) as Hu.
      unfold unfin in Hu. unfold finished.
      destruct (t_prog th); [|discriminate]. destruct (t_outer th); [discriminate|].
      destruct (t_in th); try discriminate. auto.
    - right. destruct (@count_pos_ex _ unfin (thr st)) as (t & th & Hn & Hu); [lia|].
      exists t.
      pose proof (count_zero_all _ _ HW _ Hn) as H1.
      pose proof (count_zero_all _ _ HR _ Hn) as H2.
      pose proof (count_zero_all _ _ HO _ Hn) as H3.
      unfold isW, isR, isO, unfin in *. unfold step. rewrite Hn.
      destruct (t_in th); try discriminate.
      destruct (t_outer th); try discriminate.
      destruct (t_prog th) as [|[i|try b] p]; try discriminate.
      + destruct i as [|try c|obs]; unfold do_iop; rewrite ?EW, ?ER; cbn; discriminate.
      + rewrite EO. discriminate.
  Qed.
End Model.

(* a concrete run: 3 threads, interleaved micro-steps *)
Module Example3.
  Definition St := (nat * nat)%type.       (* two counters; invariant: they are equal *)
  (* add k to both counters in TWO micro-steps (invariant broken in between); return new value *)
  Definition inc (k : nat) : call St nat :=
    {| c_init := 0;
       c_steps := [ (fun s r => ((fst s + k, snd s), r));
                    (fun s r => ((fst s, snd s + k), fst s)) ] |}.
  Definition diff : St -> nat := fun s => fst s - snd s + (snd s - fst s).

  Definition scripts : list (list (op St nat)) :=
    [ (* T0 *) [ OIn (ILocal _ _); OIn (IWrite false (inc 1)); OIn (IRead [diff]) ];
      (* T1 *) [ OOuter false [IWrite false (inc 10); ILocal _ _]; OOuter true [ILocal _ _] ];
      (* T2 *) [ OIn (IRead [fst; diff]); OIn (IWrite true (inc 100));
                 OOuter true [IWrite true (inc 1000)] ] ].

  Definition sched : list nat :=
    [ 0;          (* T0 local *)
      2;          (* T2 RLock *)
      0;          (* T0 Lock: blocked by the reader *)
      1;          (* T1 takes the outer token *)
      2; 1;       (* T2 observes fst; T1 Lock: blocked by the reader *)
      2; 2;       (* T2 observes diff; RUnlock *)
      0;          (* T0 Lock *)
      0;          (* T0 micro-step 1: invariant broken *)
      1; 2;       (* T1 Lock blocked; T2 TryLock fails -> skips inc 100 *)
      2;          (* T2 outer TryLock fails (T1 holds it) -> skips *)
      0; 1; 0;    (* T0 micro-step 2; T1 still blocked; T0 Unlock *)
      0; 1;       (* T0 RLock; T1 Lock blocked by reader *)
      0; 0;       (* T0 observes diff; RUnlock *)
      1; 1; 1; 1; (* T1 Lock; two micro-steps; Unlock *)
      1; 1;       (* T1 local under outer; outer Unlock *)
      1; 1; 1 ].  (* T1 outer TryLock ok; local; outer Unlock *)

  Definition final := exec sched (init (0, 0) scripts).
  Definition view (st : state St nat) :=
    (sh st, (wlk st, rdc st, olk st), map fst (g_acq st), g_ret st, g_obs st,
     map (fun th => (length (t_prog th))) (thr st)).

  Example run_final :
    view final =
    ((11, 11), (false, 0, false), [0; 1], [(0, 1); (1, 11)],
     [(2, (0, 0), 0); (2, (0, 0), 0); (0, (1, 1), 0)], [0; 0; 0]).
  Proof. vm_compute. reflexivity. Qed.

  (* after the first 10 scheduler steps T0 is in the middle of its section: the
     invariant fst = snd is broken, the write lock is held, T1 holds the outer token *)
  Example run_mid :
    let st := exec (firstn 10 sched) (init (0, 0) scripts) in
    (sh st, (wlk st, rdc st, olk st), map fst (g_acq st), g_ret st) =
    ((1, 0), (true, 0, true), [0], []).
  Proof. vm_compute. reflexivity. Qed.

  Example run_sequential :
    sh final = seq_state (0, 0) [inc 1; inc 10] /\
    g_ret final = seq_rets (0, 0) [(0, inc 1); (1, inc 10)].
  Proof. vm_compute. split; reflexivity. Qed.

  Example run_reachable : reachable (0, 0) scripts final.
  Proof. apply exec_reachable. constructor. Qed.

  Definition Inv (s : St) : Prop := fst s = snd s.
  Lemma inc_preserves k : preserves Inv (inc k).
  Proof. intros [a b] H. unfold Inv in *. cbn in *. lia. Qed.
  Lemma scripts_preserve : scripts_ok scripts (preserves Inv).
  Proof.
    unfold scripts_ok, scripts.
    repeat (constructor; cbn; auto using inc_preserves).
  Qed.
  Example every_quiescent_state_balanced st :
    reachable (0, 0) scripts st -> wlk st = false -> fst (sh st) = snd (sh st).
  Proof.
    intros Hr E.
    assert (H0 : Inv (0, 0)) by reflexivity.
    exact (invariant_transfer_lockword H0 scripts_preserve Hr E).
  Qed.
End Example3.
