(* NotifierProofs.v — theorems about the removal-notification LTS of NotifierLts.v.
   Every theorem is about `reachable re n scripts s`: every interleaving of any number of mutators,
   the notifier (with every resolution of its two-way select: the choice bit is in the label) and the
   closer, for every re-entrant listener behaviour `re`, any number of shards.
   `step` is first turned into a relation `Step` whose constructors are the atomic actions with their
   post-states written out; eight invariants are each preserved by case analysis on `Step` and established
   together by one induction (`invariants`); the theorems follow from them. *)
Require Import KV.Base KV.NotifierLts.
Local Open Scope nat_scope.

Lemma fupd_eq {A} (f : nat -> A) i x : fupd f i x i = x.
Proof. unfold fupd. now rewrite Nat.eqb_refl. Qed.

Lemma fupd_neq {A} (f : nat -> A) i x k : k <> i -> fupd f i x k = f k.
Proof. unfold fupd. intros H. destruct (Nat.eqb_spec k i); [contradiction|reflexivity]. Qed.

Lemma proj_app sh a b : proj sh (a ++ b) = proj sh a ++ proj sh b.
Proof. unfold proj. now rewrite filter_app, map_app. Qed.

Lemma proj_snoc sh l j x :
  proj sh (l ++ [(j, x)]) = if j =? sh then proj sh l ++ [x] else proj sh l.
Proof.
  rewrite proj_app. unfold proj at 2. cbn [filter fst].
  destruct (j =? sh); cbn [map snd]; [reflexivity|apply app_nil_r].
Qed.

Lemma fupd_field {A B} (g : A -> B) f i x k : g x = g (f i) -> g (fupd f i x k) = g (f k).
Proof. unfold fupd. destruct (Nat.eqb_spec k i) as [->|]; auto. Qed.

Ltac eqb_simp :=
  repeat match goal with
  | |- context [?a =? ?a] => rewrite (Nat.eqb_refl a)
  | H : ?a <> ?b |- context [?a =? ?b] => rewrite (proj2 (Nat.eqb_neq a b) H)
  | H : ?b <> ?a |- context [?a =? ?b] => rewrite (proj2 (Nat.eqb_neq a b) (not_eq_sym H))
  end.

Ltac fsplit :=
  repeat match goal with
  | |- context [fupd _ ?i _ ?k] =>
      destruct (Nat.eq_dec k i); [subst k; rewrite !fupd_eq | rewrite !(fupd_neq _ i _ k) by assumption]
  end.

(* the lists name every field and setter of `state` and `shard`: a new field has to be added here *)
Ltac sset :=
  cbn [set_shard set_shards set_wakeTok set_closeCh set_muts set_npos set_hand set_final
       set_cpos set_staged set_delivered set_late
       nsh shards wakeTok closeCh muts npos hand final cpos staged delivered late
       buf pending mu script mpos].

(* one action of stageRemoval(sh, id) run by `who`: position before, state and position after *)
Inductive stage (who : owner) (sh : nat) (id : Z) (s : state) : mpc -> state -> mpc -> Prop :=
| stage_lock (Hfree : mu (shards s sh) = None) :
    stage who sh id s MIdle
      (set_shard s sh (mkShard (buf (shards s sh)) (pending (shards s sh)) (Some who))) MLocked
| stage_append :
    stage who sh id s MLocked
      (set_staged (set_shard s sh (mkShard (buf (shards s sh) ++ [id]) (pending (shards s sh)) (mu (shards s sh))))
                  (staged s ++ [(sh, id)])) MAppended
(* stage_step writes `if passed s sh then set_late s1 … else s1`; here the test sits inside set_late, so that
   every field of the result computes without a case split (stage_step_stage pays for it once, by eta) *)
| stage_flag :
    stage who sh id s MAppended
      (set_late (set_shard s sh (mkShard (buf (shards s sh)) true (mu (shards s sh))))
                (if passed s sh then late s ++ [(sh, id)] else late s)) MFlagged
| stage_signal : stage who sh id s MFlagged (set_wakeTok s true) MSignalled
| stage_unlock :
    stage who sh id s MSignalled
      (set_shard s sh (mkShard (buf (shards s sh)) (pending (shards s sh)) None)) MIdle.

Lemma stage_step_stage s who p sh id s1 p' :
  stage_step s who p sh id = Some (s1, p') -> stage who sh id s p s1 p'.
Proof.
  destruct p; cbn [stage_step]; cbv zeta; try (intros [= <- <-]; constructor).
  - destruct (mu (shards s sh)) eqn:E; [discriminate|]. intros [= <- <-]. now constructor.
  - intros [= <- <-]. pose proof (stage_flag who sh id s) as H. now destruct (passed s sh), s.
Qed.

(* every step is one of these actions, post-state written out (step_Step).  The converse is not claimed and not
   needed: Step_deliver stands for a listener call that starts no nested stage (none asked for, or its shard is
   out of range), but that guard is not recorded, so it also applies where `step` takes Step_deliver_re *)
Inductive Step (re : Z -> option (nat * Z)) (s : state) : label -> state -> Prop :=
| Step_mut t sh id r p s1 p'
    (Es : script (muts s t) = (sh, id) :: r) (Ep : mpos (muts s t) = p) (Hsh : sh < nsh s)
    (Hst : stage (OwMut t) sh id s p s1 p') :
    Step re s (LMut t)
      (set_muts s1 (fupd (muts s1) t (mkMut (match p' with MIdle => r | _ => (sh, id) :: r end) p')))
| Step_wake c (En : npos s = NSelect) (Hw : wakeTok s = true) (Hsel : c && closeCh s = false) :
    Step re s (LNot c) (set_npos (set_wakeTok s false) (NCheck 0))
| Step_final c (En : npos s = NSelect) (Hcl : closeCh s = true) :
    Step re s (LNot c) (set_final (set_npos s (NCheck 0)) true)
| Step_check_set c i (En : npos s = NCheck i) (Hi : i < nsh s) (Hp : pending (shards s i) = true) :
    Step re s (LNot c) (set_npos s (NLock i))
| Step_check_clear c i (En : npos s = NCheck i) (Hi : i < nsh s) (Hp : pending (shards s i) = false) :
    Step re s (LNot c) (set_npos s (NCheck (S i)))
| Step_pass_exit c i (En : npos s = NCheck i) (Hi : nsh s <= i) (Hf : final s = true) :
    Step re s (LNot c) (set_npos s NExited)
| Step_pass_park c i (En : npos s = NCheck i) (Hi : nsh s <= i) (Hf : final s = false) :
    Step re s (LNot c) (set_npos s NSelect)
| Step_lock c i (En : npos s = NLock i) (Hfree : mu (shards s i) = None) :
    Step re s (LNot c)
      (set_npos (set_shard s i (mkShard (buf (shards s i)) (pending (shards s i)) (Some OwNot))) (NSwap i))
| Step_swap c i (En : npos s = NSwap i) :
    Step re s (LNot c)
      (set_npos (set_hand (set_shard s i (mkShard [] (pending (shards s i)) (mu (shards s i))))
                          (buf (shards s i))) (NClear i))
| Step_clear c i (En : npos s = NClear i) :
    Step re s (LNot c)
      (set_npos (set_shard s i (mkShard (buf (shards s i)) false (mu (shards s i)))) (NUnlock i))
| Step_unlock c i (En : npos s = NUnlock i) :
    Step re s (LNot c)
      (set_npos (set_shard s i (mkShard (buf (shards s i)) (pending (shards s i)) None)) (NDeliver i))
| Step_delivered c i (En : npos s = NDeliver i) (Eh : hand s = []) :
    Step re s (LNot c) (set_npos s (NCheck (S i)))
| Step_deliver c i x r (En : npos s = NDeliver i) (Eh : hand s = x :: r) :
    Step re s (LNot c) (set_delivered (set_hand s r) (delivered s ++ [(i, x)]))
| Step_deliver_re c i x r j y (En : npos s = NDeliver i) (Eh : hand s = x :: r)
    (Ere : re x = Some (j, y)) (Hj : j < nsh s) :
    Step re s (LNot c)
      (set_npos (set_delivered (set_hand s r) (delivered s ++ [(i, x)])) (NReent i MIdle j y))
| Step_reent c i p j y s1 p' (En : npos s = NReent i p j y) (Hst : stage OwNot j y s p s1 p') :
    Step re s (LNot c) (set_npos s1 (match p' with MIdle => NDeliver i | _ => NReent i p' j y end))
| Step_close (Ec : cpos s = CStart) : Step re s LClose (set_cpos (set_closeCh s true) CWait)
| Step_closed (Ec : cpos s = CWait) (En : npos s = NExited) : Step re s LClose (set_cpos s CDone).

(* local to step_Step: a branch of `step` that yields a state is one constructor, its guards are the tests
   passed on the way *)
Ltac by_constructor := try discriminate; intros [= <-]; econstructor; solve [eauto using stage_step_stage].

Lemma step_Step re s l s' : step re s l = Some s' -> Step re s l s'.
Proof.
  destruct l as [t|c|]; cbn [step].
  - unfold mut_step. destruct (script (muts s t)) as [|[sh id] r] eqn:Es; [discriminate|].
    destruct (Nat.ltb_spec sh (nsh s)); [|discriminate].
    destruct (stage_step s (OwMut t) (mpos (muts s t)) sh id) as [[s1 p']|] eqn:E; by_constructor.
  - unfold not_step. destruct (npos s) eqn:En; cbv zeta; try by_constructor.
    + destruct (wakeTok s) eqn:Hw, (c && closeCh s) eqn:Hsel; cbn [andb negb]; try by_constructor;
        destruct (closeCh s) eqn:Hcl; by_constructor.
    + destruct (Nat.ltb_spec i (nsh s)); [destruct (pending (shards s i)) eqn:Hp|destruct (final s) eqn:Hf]; by_constructor.
    + destruct (mu (shards s i)) eqn:Hfree; by_constructor.
    + destruct (hand s) as [|x r] eqn:Eh; [|destruct (re x) as [[j y]|] eqn:Ere; [destruct (Nat.ltb_spec j (nsh s))|]];
        by_constructor.
    + destruct (stage_step s OwNot p j y) as [[s1 p']|] eqn:E; by_constructor.
  - unfold close_step. destruct (cpos s) eqn:Ec; [|destruct (npos s) eqn:En|]; by_constructor.
Qed.

(* the shard whose swapped-out buffer the notifier is holding in `hand`, if any *)
Definition hshard (p : npc) : option nat :=
  match p with
  | NClear i | NUnlock i | NDeliver i | NReent i _ _ _ => Some i
  | _ => None
  end.

Definition inhand (s : state) (sh : nat) : list Z :=
  match hshard (npos s) with
  | Some i => if i =? sh then hand s else []
  | None => []
  end.

(* first clause: outside the listener loop the hand is empty, which is why the swap may overwrite it *)
Definition conserv (s : state) : Prop :=
  (hshard (npos s) = None -> hand s = []) /\
  forall sh, proj sh (staged s) = proj sh (delivered s) ++ inhand s sh ++ buf (shards s sh).

Lemma conserv_step re s l s' : conserv s -> step re s l = Some s' -> conserv s'.
Proof.
  unfold conserv, inhand. intros [Hh Hc] H. apply step_Step in H.
  destruct H;
    try destruct Hst; sset; try (rewrite En in * ); try rewrite Eh in *; cbn [hshard] in *.
  all: split; [first [exact Hh | discriminate | reflexivity | idtac]|intros k; generalize (Hc k)].
  (* only an append, the swap and a listener call move anything between the four lists *)
  all: fsplit; cbn [buf]; rewrite ?proj_snoc; eqb_simp; try (destruct (i =? k)); auto.
  (* left, at the shard concerned: an append (by a mutator or a nested stage) extends `staged` and the buffer
     by the same id; the swap moves the buffer into the empty hand; a listener call moves the head of the
     hand to the end of `delivered` *)
  all: intros ->; cbn [app]; rewrite ?app_nil_r, <- ?app_assoc; reflexivity.
Qed.

Definition mholds (m : mutator) (sh : nat) : bool :=
  match mpos m, script m with
  | MIdle, _ => false
  | _, (sh', _) :: _ => sh' =? sh
  | _, [] => false
  end.

Definition nholds (p : npc) (sh : nat) : bool :=
  match p with
  | NSwap i | NClear i | NUnlock i => i =? sh
  | NReent _ MIdle _ _ => false
  | NReent _ _ j _ => j =? sh
  | _ => false
  end.

Definition nbound (p : npc) (n : nat) : Prop :=
  match p with
  | NCheck i => i <= n
  | NLock i | NSwap i | NClear i | NUnlock i | NDeliver i => i < n
  | NReent i _ j _ => i < n /\ j < n
  | _ => True
  end.

(* clause 1: shards beyond nsh are never touched (used where a pass ends: nothing is staged out there);
   2: a mutator mid-operation has that operation at the head of its script, on a shard in range;
   3, 4: the owner recorded in `mu` is the thread whose position says it holds the lock; 5: nbound *)
Definition lockinv (s : state) : Prop :=
  (forall sh, nsh s <= sh -> shards s sh = mkShard [] false None) /\
  (forall t, mpos (muts s t) <> MIdle ->
             exists sh id r, script (muts s t) = (sh, id) :: r /\ sh < nsh s) /\
  (forall sh t, mu (shards s sh) = Some (OwMut t) <-> mholds (muts s t) sh = true) /\
  (forall sh, mu (shards s sh) = Some OwNot <-> nholds (npos s) sh = true) /\
  nbound (npos s) (nsh s).

Lemma lockinv_step re s l s' : lockinv s -> step re s l = Some s' -> lockinv s'.
Proof.
  unfold lockinv. intros (Hout & Ha & Hb & Hc & Hd) H. apply step_Step in H.
  destruct H.
  1: assert (Hm : forall k, mholds (muts s t) k = match p with MIdle => false | _ => sh =? k end)
       by (intros k; unfold mholds; rewrite Es, Ep; now destruct p).
  all: try destruct Hst; sset; try (rewrite En in Hc, Hd; cbn [nbound nholds] in Hc, Hd); try rewrite En.
  (* the lock given back by this step was held by the thread that steps *)
  all: try pose proof (proj2 (Hb sh t) (eq_trans (Hm sh) (Nat.eqb_refl sh))) as Hmu.
  all: try pose proof (proj2 (Hc i) (Nat.eqb_refl i)) as Hmu.
  all: try pose proof (proj2 (Hc j) (Nat.eqb_refl j)) as Hmu.
  (* shards out of range are not touched; a mutator mid-operation keeps its script head *)
  all: (split; [intros k Hk; rewrite ?fupd_neq by lia; now apply Hout|]).
  all: (split; [first [exact Ha | intros t0; destruct (Nat.eq_dec t0 t) as [->|Ht];
                  [rewrite fupd_eq; cbn [mpos script]; intros E; first [now elim E | now exists sh, id, r]
                  |rewrite fupd_neq by assumption; apply Ha]]|]).
  all: split; [intros k t0|split; [intros k|first [exact Hd | exact I | cbn [nbound]; lia]]];
       rewrite ?(fupd_field mu) by reflexivity.
  (* owner of a lock <-> position of a thread, per shard k and thread.  The branches of `first`, in order:
     neither side moved (apply Hb / apply Hc); k is the shard this step locks or unlocks: both sides become true (Lock) or false (Unlock) for the
     stepping thread, and are false for another one by the old entry of k (None before a Lock, the
     stepping thread before an Unlock: Hmu); k is another shard and the thread is the stepping one, which holds no
     lock but that of its own shard (Hm for a mutator, Hc for the notifier) *)
  all: fsplit; cbn [mu mholds nholds script mpos]; eqb_simp;
       first [ apply Hb | apply Hc | rewrite <- ?Hb, <- ?Hc; split; congruence
             | rewrite ?Hb, ?Hm, ?Hc; eqb_simp; reflexivity | rewrite ?Hc; eqb_simp; reflexivity ].
Qed.

Definition closeinv (s : state) : Prop :=
  (final s = true -> closeCh s = true) /\
  (npos s = NExited -> final s = true) /\
  (npos s = NSelect -> final s = false) /\
  (closeCh s = true <-> cpos s <> CStart) /\
  (cpos s = CDone -> npos s = NExited).

Lemma closeinv_step re s l s' : closeinv s -> step re s l = Some s' -> closeinv s'.
Proof.
  unfold closeinv. intros HI H. apply step_Step in H.
  destruct H;
    try destruct Hst; sset; try exact HI; destruct HI as (H1 & H2 & H3 & H4 & H5).
  (* the closer's two steps, the only ones with a fact Ec about cpos *)
  all: try (rewrite Ec in H4; repeat split; auto; discriminate).
  all: rewrite En in H5.
  all: refine (conj _ (conj _ (conj _ (conj H4 _)))); auto; intros E;
       first [discriminate E | apply H5 in E; discriminate E].
Qed.

(* a mutator has stored removePending(sh) = true and has not yet sent its signal *)
Definition msig (s : state) (sh : nat) : Prop :=
  exists t id r, script (muts s t) = (sh, id) :: r /\ mpos (muts s t) = MFlagged.

(* same for a re-entrant stage on the notifier thread *)
Definition nsig (p : npc) (sh : nat) : Prop :=
  match p with NReent _ MFlagged j _ => j = sh | _ => False end.

(* the drain pass in progress will still load (or is about to clear) the flag of shard sh.  `passed` of
   NotifierLts.v is the other side of the same position, for the final pass: the visit of sh is over.  At
   NClear i both hold of i: the buffer is swapped out (visited) and the flag still to be cleared *)
Definition covers (p : npc) (sh : nat) : Prop :=
  match p with
  | NCheck i | NLock i | NSwap i | NClear i => i <= sh
  | NUnlock i | NDeliver i | NReent i _ _ _ => i < sh
  | _ => False
  end.

Definition wakeinv (s : state) : Prop :=
  closeCh s = false ->
  forall sh, pending (shards s sh) = true ->
             wakeTok s = true \/ msig s sh \/ nsig (npos s) sh \/ covers (npos s) sh.

Lemma wakeinv_step re s l s' : lockinv s -> wakeinv s -> step re s l = Some s' -> wakeinv s'.
Proof.
  unfold wakeinv. intros (Hout & _ & _ & _ & Hd) W H. apply step_Step in H.
  destruct H; try destruct Hst; sset; intros Hop k; rewrite ?(fupd_field pending) by reflexivity.
  all: try (rewrite En in W, Hd; cbn [nsig covers nbound] in W, Hd); try rewrite En.
  all: try (fsplit; cbn [pending]); intros Hpk; try congruence.
  (* a signal puts the token; a flag store makes its thread the one that will signal;
     the select that takes the token starts a pass that covers every shard *)
  all: try (left; reflexivity); try (right; right; left; reflexivity).
  all: try (right; left; exists t, id, r; sset; rewrite fupd_eq; split; reflexivity).
  all: try (right; right; right; exact (Nat.le_0_l k)).
  all: try assert (k <> i) by (intros ->; congruence).
  (* otherwise the reason a set flag had before still holds; a flag loaded as false, or cleared, is not k's *)
  all: destruct (W Hop k Hpk) as [W1|[W2|[W3|W4]]];
       [left; exact W1
       |right; left; first [exact W2 | destruct W2 as (t0 & id0 & r0 & Hs & Hm); exists t0, id0, r0; sset;
                                           rewrite fupd_neq; [auto | intros ->; congruence]]
       |first [contradiction | right; right; left; exact W3] | ].
  all: try (right; right; right; cbn [covers]; first [exact W4 | lia]).
  (* the pass ends: the shards it would still have covered do not exist *)
  all: exfalso; rewrite Hout in Hpk by lia; discriminate.
Qed.

(* what the notifier's position says of the shard it works on: the flag it loaded as true is still set
   (NLock, NSwap); once swapped the buffer stays empty while the lock is held (NClear, NUnlock), and the
   flag is false after the clear; a nested stage past its flag store sees the flag set.  Second clause: so
   does a mutator past its flag store *)
Definition flaginv (s : state) : Prop :=
  match npos s with
  | NLock i | NSwap i => pending (shards s i) = true
  | NClear i => buf (shards s i) = []
  | NUnlock i => buf (shards s i) = [] /\ pending (shards s i) = false
  | NReent _ MFlagged j _ | NReent _ MSignalled j _ => pending (shards s j) = true
  | _ => True
  end /\
  (forall t sh id r, script (muts s t) = (sh, id) :: r ->
                     mpos (muts s t) = MFlagged \/ mpos (muts s t) = MSignalled ->
                     pending (shards s sh) = true).

Lemma mut_excl s t sh id r :
  lockinv s -> script (muts s t) = (sh, id) :: r -> mpos (muts s t) <> MIdle -> nholds (npos s) sh = false.
Proof.
  intros (_ & _ & Hb & Hc & _) Es Hp. destruct (nholds (npos s) sh) eqn:E; [|reflexivity].
  apply Hc in E. rewrite (proj2 (Hb sh t)) in E; [discriminate|].
  unfold mholds. rewrite Es. destruct (mpos (muts s t)); [now elim Hp|apply Nat.eqb_refl..].
Qed.

Lemma flaginv_step re s l s' : lockinv s -> flaginv s -> step re s l = Some s' -> flaginv s'.
Proof.
  unfold flaginv. intros LI (F1 & F2) H. apply step_Step in H. destruct H.
  1: pose proof (mut_excl s t sh id r LI Es) as Hx; rewrite Ep in Hx.
  all: try destruct Hst; sset; try rewrite En in F1; try rewrite En; split.
  (* second clause.  The branches of `first`, in order: the flag of k did not move, or another mutator is
     meant (exact F); this step stores the flag (reflexivity); the stepping mutator is not past its flag
     store after this step (discriminate); it is at its signal, past its flag store before (F2 at Es, Ep);
     left over (idtac): the notifier's clear of shard i, closed at the end by mut_excl: no mutator is
     mid-operation on a shard the notifier has locked *)
  all: try (intros t0 k id0 r0; rewrite ?(fupd_field pending) by reflexivity; fsplit; cbn [script mpos pending];
            intros Hs Hm; try pose proof (F2 _ _ _ _ Hs Hm) as F;
            first [exact F | reflexivity | destruct Hm as [Hm|Hm]; discriminate Hm
                  | injection Hs as <- <- <-; first [exact (F2 _ _ _ _ Es (or_introl Ep)) | congruence] | idtac]).
  (* first clause under the five actions of Step_mut: what it says of shard i is not touched, since by
     mut_excl (Hx) the mutator is not on the shard the notifier has locked *)
  1-5: destruct (npos s) as [ | |i|i|i|i| |? q j ?| ] eqn:En; try exact I; try (destruct q; try exact I);
       rewrite ?(fupd_field pending), ?(fupd_field buf) by reflexivity; try exact F1;
       fsplit; cbn [buf pending]; try exact F1; try reflexivity;
       exfalso; specialize (Hx ltac:(discriminate)); cbn [nholds] in Hx; rewrite Nat.eqb_refl in Hx; discriminate.
  all: rewrite ?(fupd_field pending) by reflexivity; rewrite ?fupd_eq; cbn [buf pending];
       first [exact I | exact F1 | assumption | reflexivity | split; [exact F1|reflexivity] | exfalso].
  pose proof (mut_excl s t0 i id0 r0 LI Hs) as X. rewrite En in X. cbn [nholds] in X. rewrite Nat.eqb_refl in X.
  destruct Hm as [Hm|Hm]; rewrite Hm in X; now specialize (X ltac:(discriminate)).
Qed.

(* ids appended to the buffer of shard sh whose removePending store has not happened yet
   (at most one: the lock holder's) *)
Definition unfl (s : state) (sh : nat) : list Z :=
  match mu (shards s sh) with
  | Some (OwMut t) =>
      match mpos (muts s t), script (muts s t) with
      | MAppended, (_, id) :: _ => [id]
      | _, _ => []
      end
  | Some OwNot => match npos s with NReent _ MAppended _ y => [y] | _ => [] end
  | None => []
  end.

(* a stage action at position p on (sh, id) moves `unfl` only at sh: the id appears there with the append
   and goes with the flag store *)
Definition unfl_moves (s s' : state) (p : mpc) (sh : nat) (id : Z) : Prop :=
  unfl s sh = match p with MAppended => [id] | _ => [] end /\
  unfl s' sh = match p with MLocked => [id] | _ => [] end /\
  forall k, k <> sh -> unfl s' k = unfl s k.

Lemma unfl_step re s l s' :
  lockinv s -> step re s l = Some s' ->
  match l with
  | LMut t => match script (muts s t) with
              | (n, z) :: _ => unfl_moves s s' (mpos (muts s t)) n z
              | [] => True
              end
  | LNot _ => match npos s with
              | NReent _ p j y => unfl_moves s s' p j y
              | _ => forall k, unfl s' k = unfl s k
              end
  | LClose => forall k, unfl s' k = unfl s k
  end.
Proof.
  intros (_ & _ & Hb & Hc & _) H. apply step_Step in H. destruct H.
  1: assert (Hm : forall k, mu (shards s k) = Some (OwMut t) <-> match p with MIdle => false | _ => sh =? k end = true)
       by (intros k; rewrite Hb; unfold mholds; rewrite Es, Ep; now destruct p).
  1: rewrite Es, Ep.
  all: try (rewrite En in *; cbn [nholds] in Hc); unfold unfl_moves, unfl; try destruct Hst; sset; try rewrite En.
  (* the lock this step gives back was held by the thread that steps *)
  all: try pose proof (proj2 (Hm sh) (Nat.eqb_refl sh)) as Hmu.
  all: try pose proof (proj2 (Hc i) (Nat.eqb_refl i)) as Hmu.
  all: try pose proof (proj2 (Hc j) (Nat.eqb_refl j)) as Hmu.
  (* a notifier step outside a nested stage: no position at MAppended before or after, so unfl is [] wherever
     the notifier owns the lock, and the other owners did not move *)
  all: try (intros k; rewrite ?(fupd_field mu) by reflexivity; fsplit; cbn [mu]; rewrite ?Hmu, ?Hfree;
            try (destruct (mu (shards s k)) as [[t0|]|]); reflexivity).
  (* a stage action, at its own shard: the stepping thread owns the lock unless it is about to take it
     (Hfree) and has just given it back; unfl is then read off its position before and after *)
  all: rewrite ?fupd_eq; cbn [mu]; rewrite ?Hmu, ?Hfree, ?fupd_eq; cbn [mpos script];
       try rewrite Ep; try rewrite Es; (split; [reflexivity|split; [reflexivity|]]).
  (* another shard has another owner, whose position did not change *)
  all: intros k Hk; rewrite ?fupd_neq by assumption;
       destruct (mu (shards s k)) as [[t0|]|] eqn:Em; try reflexivity;
       first [rewrite fupd_neq; [reflexivity|intros ->; apply Hm in Em] | apply Hc in Em];
       first [discriminate Em | apply Nat.eqb_eq in Em; congruence].
Qed.

Definition bufinv (s : state) : Prop :=
  forall sh, pending (shards s sh) = false -> buf (shards s sh) = unfl s sh.

Definition lateinv (s : state) : Prop :=
  forall sh, if passed s sh then buf (shards s sh) = proj sh (late s) ++ unfl s sh
             else proj sh (late s) = [].

(* s' stands for s1 with the stager's position advanced *)
Lemma buflate_stage who sh id s p s1 p' s' :
  stage who sh id s p s1 p' -> shards s' = shards s1 -> late s' = late s1 ->
  (forall k, passed s' k = passed s k) -> unfl_moves s s' p sh id ->
  bufinv s -> lateinv s -> bufinv s' /\ lateinv s'.
Proof.
  intros Hst Esh Ela Epa (U1 & U2 & U3) B L.
  split; intros k; [|specialize (L k); rewrite Epa, Ela]; rewrite Esh;
    (destruct (Nat.eq_dec k sh) as [->|Hk]; [rewrite U2 | rewrite (U3 k Hk)]);
    destruct Hst; sset; rewrite ?fupd_eq, ?fupd_neq by assumption; cbn [buf pending];
    try exact (B k); try exact L.
  (* bufinv at sh, one goal for each of the five actions *)
  1-5: intros Hp; try discriminate Hp; rewrite (B _ Hp), U1; reflexivity.
  (* lateinv: the append adds the id to buffer and unfl alike; the flag store takes it out of unfl and,
     on a visited shard, into `late` *)
  all: try rewrite U1 in L; try exact L;
    destruct (passed s sh); rewrite ?proj_snoc, ?Nat.eqb_refl; eqb_simp; rewrite ?app_nil_r;
    first [exact L | rewrite L, app_nil_r; reflexivity].
Qed.

Lemma buflate_step re s l s' :
  lockinv s -> closeinv s -> flaginv s -> bufinv s -> lateinv s -> step re s l = Some s' ->
  bufinv s' /\ lateinv s'.
Proof.
  intros LI CI (F1 & _) B L H. pose proof (unfl_step _ _ _ _ LI H) as U. apply step_Step in H.
  destruct LI as (Hout & _ & _ & Hc & _), H.
  (* the closer's steps touch nothing the two invariants read *)
  all: try exact (conj B L).
  1: { apply (buflate_stage _ _ _ _ _ _ _ _ Hst); auto; [|rewrite Es, Ep in U; exact U].
       intros k. destruct Hst; reflexivity. }
  all: rewrite En in U, F1.
  (* Step_reent, the only notifier step with a stage action Hst *)
  all: try (apply (buflate_stage _ _ _ _ _ _ _ _ Hst); auto; intros k; unfold passed; rewrite En;
            destruct Hst; reflexivity).
  all: split; intros k; rewrite (U k); [|specialize (L k); unfold passed in L |- *]; sset; try rewrite En in L;
       rewrite ?(fupd_field pending), ?(fupd_field buf) by reflexivity; try exact (B k); try exact L.
  all: try rewrite En; try exact L.
  (* left: lateinv at Step_final, Step_check_clear, Step_pass_exit / _park, Step_swap; bufinv at Step_swap and
     Step_clear.  Outside the final drain nothing is visited and nothing is late *)
  all: try match type of L with context [final ?x] =>
         destruct (final x); try exact L; try congruence; cbn [andb] in L |- * end.
  - (* flag of shard i loaded as false: i becomes visited, with nothing late and its buffer = unfl *)
    destruct (Nat.ltb_spec k i), (Nat.ltb_spec k (S i)); try lia; try exact L.
    assert (k = i) as -> by lia. rewrite L. now apply B.
  - (* the final pass ends: the shards beyond it do not exist *)
    destruct (Nat.ltb_spec k i); [exact L|]. rewrite L.
    unfold unfl. now rewrite Hout by lia.
  - (* bufinv at the swap: the flag of shard i was loaded as true *)
    fsplit; [intros Hp; congruence | exact (B k)].
  - (* the swap empties shard i and makes it visited *)
    fsplit; cbn [buf].
    + rewrite Nat.leb_refl. rewrite Nat.ltb_irrefl in L. rewrite L.
      unfold unfl. rewrite (proj2 (Hc i)), En; [reflexivity | rewrite En; apply Nat.eqb_refl].
    + destruct (Nat.ltb_spec k i), (Nat.leb_spec k i); try lia; exact L.
  - (* bufinv at the clear: shard i is empty since the swap *)
    fsplit; [intros _; rewrite F1 | exact (B k)].
    unfold unfl. rewrite (proj2 (Hc i)), En; [reflexivity | rewrite En; apply Nat.eqb_refl].
Qed.

Definition reentinv (s : state) : Prop :=
  match npos s with
  | NReent _ MAppended j y | NReent _ MFlagged j y => exists pre, buf (shards s j) = pre ++ [y]
  | NReent _ MSignalled j y => (exists pre, buf (shards s j) = pre ++ [y]) /\ wakeTok s = true
  | _ => True
  end.

Lemma reentinv_step re s l s' : lockinv s -> reentinv s -> step re s l = Some s' -> reentinv s'.
Proof.
  unfold reentinv. intros LI RI H. apply step_Step in H.
  destruct H.
  (* Step_mut: by mut_excl it is not on the shard of the nested stage *)
  1: { pose proof (mut_excl s t sh id r LI Es) as Hx. rewrite Ep in Hx.
       destruct Hst; sset; destruct (npos s) as [ | | | | | | |? q j y| ] eqn:En; try exact RI;
         destruct q; try exact RI; rewrite ?(fupd_field buf) by reflexivity; try exact RI.
       (* a mutator's signal keeps the token there; its append is on another shard *)
       all: first [split; [apply RI | reflexivity]
                  |rewrite fupd_neq; [exact RI|]; intros ->; specialize (Hx ltac:(discriminate));
                   cbn [nholds] in Hx; rewrite Nat.eqb_refl in Hx; discriminate]. }
  all: try destruct Hst; sset; try rewrite En in RI; try rewrite En; try exact RI; try exact I.
  all: rewrite ?fupd_eq; cbn [buf]; first [exact RI | now eexists | now split].
Qed.

Theorem invariants re n scripts s : reachable re n scripts s ->
  conserv s /\ lockinv s /\ closeinv s /\ wakeinv s /\ flaginv s /\ bufinv s /\ lateinv s /\ reentinv s.
Proof.
  induction 1 as [|s l s' _ (C & LI & CI & W & F & B & L & RI) H].
  - unfold conserv, lockinv, closeinv, wakeinv, flaginv, bufinv, lateinv, reentinv, mholds. cbn.
    repeat split; intros; try discriminate; try contradiction; auto; try congruence.
    (* left: no mutator is past its flag store *)
    match goal with Hm : _ = MFlagged \/ _ |- _ => now destruct Hm end.
  - destruct (buflate_step _ _ _ _ LI CI F B L H).
    repeat match goal with |- _ /\ _ => split end;
      eauto using conserv_step, lockinv_step, closeinv_step, wakeinv_step, flaginv_step, reentinv_step.
Qed.

Lemma conserv_reachable re n scripts s : reachable re n scripts s -> conserv s.
Proof. intros R. apply (invariants _ _ _ _ R). Qed.

Lemma lockinv_reachable re n scripts s : reachable re n scripts s -> lockinv s.
Proof. intros R. apply (invariants _ _ _ _ R). Qed.

Lemma closeinv_reachable re n scripts s : reachable re n scripts s -> closeinv s.
Proof. intros R. apply (invariants _ _ _ _ R). Qed.

Lemma wakeinv_reachable re n scripts s : reachable re n scripts s -> wakeinv s.
Proof. intros R. apply (invariants _ _ _ _ R). Qed.

Lemma flaginv_reachable re n scripts s : reachable re n scripts s -> flaginv s.
Proof. intros R. apply (invariants _ _ _ _ R). Qed.

Lemma bufinv_reachable re n scripts s : reachable re n scripts s -> bufinv s.
Proof. intros R. apply (invariants _ _ _ _ R). Qed.

Lemma lateinv_reachable re n scripts s : reachable re n scripts s -> lateinv s.
Proof. intros R. apply (invariants _ _ _ _ R). Qed.

Lemma reentinv_reachable re n scripts s : reachable re n scripts s -> reentinv s.
Proof. intros R. apply (invariants _ _ _ _ R). Qed.

Theorem conservation re n scripts s sh :
  reachable re n scripts s ->
  proj sh (staged s) = proj sh (delivered s) ++ inhand s sh ++ buf (shards s sh).
Proof. intros R. apply (conserv_reachable _ _ _ _ R). Qed.

Theorem hand_empty re n scripts s :
  reachable re n scripts s -> hshard (npos s) = None -> hand s = [].
Proof. intros R. apply (conserv_reachable _ _ _ _ R). Qed.

Definition pair_dec (p q : nat * Z) : {p = q} + {p <> q}.
Proof. decide equality; [apply Z.eq_dec | apply Nat.eq_dec]. Defined.

Lemma count_proj l sh x : count_occ pair_dec l (sh, x) = count_occ Z.eq_dec (proj sh l) x.
Proof.
  induction l as [|[j y] l IH]; [reflexivity|].
  unfold proj in *. cbn [filter fst]. destruct (Nat.eqb_spec j sh) as [->|Hne].
  - cbn [map snd]. destruct (Z.eq_dec y x) as [->|Hy].
    + rewrite !count_occ_cons_eq by reflexivity. now rewrite IH.
    + rewrite !count_occ_cons_neq by congruence. exact IH.
  - rewrite count_occ_cons_neq by congruence. exact IH.
Qed.

Lemma submultiset_nodup_map {A B} (dec : forall a b : A, {a = b} + {a <> b}) (f : A -> B) l1 :
  forall l2, (forall a, count_occ dec l1 a <= count_occ dec l2 a) ->
  NoDup (map f l2) -> NoDup (map f l1).
Proof.
  induction l1 as [|a l1 IH]; intros l2 Hs Hn; [constructor|].
  destruct (in_split a l2) as (la & lb & ->).
  { apply (count_occ_In dec). specialize (Hs a). rewrite count_occ_cons_eq in Hs by reflexivity. lia. }
  assert (Hs' : forall b, count_occ dec l1 b <= count_occ dec (la ++ lb) b).
  { intros b. specialize (Hs b). rewrite count_occ_app in *. cbn [count_occ] in Hs. destruct (dec a b); lia. }
  rewrite map_app in Hn. apply NoDup_remove in Hn as [Hn Hni]. rewrite <- map_app in Hn, Hni.
  constructor; [|eapply IH; eauto].
  intros (b & Hfb & Hb)%in_map_iff. apply Hni. rewrite <- Hfb. apply in_map, (count_occ_In dec).
  specialize (Hs' b). apply (count_occ_In dec) in Hb. lia.
Qed.

Theorem no_fabrication re n scripts s p :
  reachable re n scripts s ->
  count_occ pair_dec (delivered s) p <= count_occ pair_dec (staged s) p.
Proof.
  intros R. destruct p as [sh x]. rewrite !count_proj, (conservation _ _ _ _ sh R), !count_occ_app. lia.
Qed.

Corollary delivered_was_staged re n scripts s p :
  reachable re n scripts s -> In p (delivered s) -> In p (staged s).
Proof.
  intros R Hin. apply (count_occ_In pair_dec). apply (count_occ_In pair_dec) in Hin.
  pose proof (no_fabrication _ _ _ _ p R). lia.
Qed.

Theorem at_most_once re n scripts s :
  reachable re n scripts s -> NoDup (map snd (staged s)) -> NoDup (map snd (delivered s)).
Proof.
  intros R. apply (submultiset_nodup_map pair_dec). intros a. eapply no_fabrication; eauto.
Qed.

Theorem at_most_once_pairs re n scripts s :
  reachable re n scripts s -> NoDup (staged s) -> NoDup (delivered s).
Proof.
  intros R Hn. rewrite <- (map_id (delivered s)). rewrite <- (map_id (staged s)) in Hn.
  revert Hn. apply (submultiset_nodup_map pair_dec). intros a. eapply no_fabrication; eauto.
Qed.

Theorem fifo_per_shard re n scripts s sh :
  reachable re n scripts s -> exists rest, proj sh (staged s) = proj sh (delivered s) ++ rest.
Proof. intros R. eexists. apply (conservation _ _ _ _ sh R). Qed.

(* mutual exclusion itself is built into the model (`mu` holds one owner); this says who the owner is *)
Theorem lock_owner_mutator re n scripts s sh t :
  reachable re n scripts s ->
  (mu (shards s sh) = Some (OwMut t) <-> mholds (muts s t) sh = true).
Proof. intros R. apply (lockinv_reachable _ _ _ _ R). Qed.

Theorem lock_owner_notifier re n scripts s sh :
  reachable re n scripts s ->
  (mu (shards s sh) = Some OwNot <-> nholds (npos s) sh = true).
Proof. intros R. apply (lockinv_reachable _ _ _ _ R). Qed.

(* between the invocation and the return of listener(e), including every point of a nested stageRemoval.
   The side condition `match npos s with NReent _ _ _ _ => False | _ => True end` of unfl_quiescent and
   quiescent_buf_pending is its negation. *)
Definition in_listener (p : npc) : Prop :=
  match p with NReent _ _ _ _ => True | _ => False end.

(* The listener is invoked with no shard lock held by the notifier: at NDeliver (about to call listener(e))
   and at NReent _ MIdle (a re-entrant stageRemoval about to mu.Lock) the notifier owns no shard lock, so the
   nested Lock cannot self-deadlock; inside the nested stage the only lock it owns is the one that stage took. *)
Theorem listener_without_lock re n scripts s :
  reachable re n scripts s ->
  match npos s with
  | NDeliver _ | NReent _ MIdle _ _ => forall sh, mu (shards s sh) <> Some OwNot
  | NReent _ _ j _ => forall sh, mu (shards s sh) = Some OwNot -> sh = j
  | _ => True
  end.
Proof.
  intros R. pose proof (lockinv_reachable _ _ _ _ R) as (_ & _ & _ & Hc & _).
  destruct (npos s) as [ | | | | | | |? p ? ?| ]; try exact I; try destruct p; intros sh Hm; apply Hc in Hm;
    first [discriminate Hm | now apply Nat.eqb_eq in Hm].
Qed.

Theorem open_not_exited re n scripts s :
  reachable re n scripts s -> closeCh s = false -> final s = false /\ npos s <> NExited.
Proof.
  intros R Hc. destruct (closeinv_reachable _ _ _ _ R) as (H1 & H2 & _).
  destruct (final s); [now rewrite H1 in Hc|]. split; [reflexivity|]. intros E. now apply H2 in E.
Qed.

(* in the msig case that mutator's very next step sends the token *)
Theorem no_lost_wake re n scripts s sh :
  reachable re n scripts s ->
  closeCh s = false -> pending (shards s sh) = true -> npos s = NSelect ->
  wakeTok s = true \/ msig s sh.
Proof.
  intros R Hc Hp Hn. destruct (wakeinv_reachable _ _ _ _ R Hc sh Hp) as [W|[W|[W|W]]]; auto.
  all: rewrite Hn in W; contradiction.
Qed.

Corollary no_lost_wake_quiescent re n scripts s sh :
  reachable re n scripts s ->
  closeCh s = false -> pending (shards s sh) = true -> npos s = NSelect ->
  (forall t, mpos (muts s t) <> MFlagged) ->
  wakeTok s = true.
Proof.
  intros R Hc Hp Hn Hq. destruct (no_lost_wake _ _ _ _ sh R Hc Hp Hn) as [W|(t & id & r & _ & Hm)]; auto.
  elim (Hq t Hm).
Qed.

Theorem pending_covered re n scripts s sh :
  reachable re n scripts s ->
  closeCh s = false -> pending (shards s sh) = true ->
  wakeTok s = true \/ msig s sh \/ nsig (npos s) sh \/ covers (npos s) sh.
Proof. intros R Hc Hp. exact (wakeinv_reachable _ _ _ _ R Hc sh Hp). Qed.

Lemma In_proj sh x l : In x (proj sh l) <-> In (sh, x) l.
Proof. now rewrite (count_occ_In Z.eq_dec), (count_occ_In pair_dec), count_proj. Qed.

Definition quiescent (s : state) : Prop := forall t, mpos (muts s t) = MIdle.

Lemma unfl_quiescent re n scripts s sh :
  reachable re n scripts s ->
  quiescent s ->
  (match npos s with NReent _ _ _ _ => False | _ => True end) ->
  unfl s sh = [].
Proof.
  intros R Hq Hn. unfold unfl.
  destruct (mu (shards s sh)) as [[t|]|] eqn:E; try reflexivity.
  - rewrite Hq. reflexivity.
  - destruct (npos s); try reflexivity. contradiction.
Qed.

Theorem final_drain_accounting re n scripts s sh :
  reachable re n scripts s -> passed s sh = true ->
  proj sh (staged s) =
  proj sh (delivered s) ++ inhand s sh ++ proj sh (late s) ++ unfl s sh.
Proof.
  intros R Hp. rewrite (conservation _ _ _ _ sh R).
  pose proof (lateinv_reachable _ _ _ _ R sh) as L. rewrite Hp in L. now rewrite L.
Qed.

(* The final drain.  Once the notifier has exited, what is staged and not delivered is late (flag store after
   the final drain's only visit of the shard) or unflagged (at most one id per shard): every id whose staging
   (append + flag) completed before the final visit of its shard has been delivered, in order. *)
Theorem close_final_drain re n scripts s sh :
  reachable re n scripts s -> npos s = NExited ->
  proj sh (staged s) = proj sh (delivered s) ++ proj sh (late s) ++ unfl s sh.
Proof.
  intros R He.
  destruct (closeinv_reachable _ _ _ _ R) as (_ & C2 & _).
  assert (Hp : passed s sh = true) by (unfold passed; rewrite He, (C2 He); reflexivity).
  rewrite (final_drain_accounting _ _ _ _ sh R Hp). unfold inhand. rewrite He. reflexivity.
Qed.

Corollary close_final_drain_quiescent re n scripts s sh :
  reachable re n scripts s -> npos s = NExited -> quiescent s ->
  proj sh (staged s) = proj sh (delivered s) ++ proj sh (late s).
Proof.
  intros R He Hq. rewrite (close_final_drain _ _ _ _ sh R He).
  rewrite (unfl_quiescent _ _ _ _ sh R Hq) by (rewrite He; exact I). now rewrite app_nil_r.
Qed.

Corollary staged_before_final_visit_delivered re n scripts s sh x :
  reachable re n scripts s -> npos s = NExited -> quiescent s ->
  In (sh, x) (staged s) -> ~ In (sh, x) (late s) -> In (sh, x) (delivered s).
Proof.
  intros R He Hq Hs Hl. apply In_proj in Hs. rewrite (close_final_drain_quiescent _ _ _ _ sh R He Hq) in Hs.
  apply in_app_or in Hs. destruct Hs as [Hs|Hs]; [now apply In_proj in Hs | apply In_proj in Hs; contradiction].
Qed.

Lemma NoDup_app_disjoint {A} (a b : list A) x : NoDup (a ++ b) -> In x a -> ~ In x b.
Proof. intros H. exact (proj2 (proj2 (proj1 (nodup_app_iff a b) H)) x). Qed.

Corollary late_not_delivered re n scripts s sh x :
  reachable re n scripts s -> npos s = NExited -> NoDup (proj sh (staged s)) ->
  In (sh, x) (late s) -> ~ In (sh, x) (delivered s).
Proof.
  intros R He Hn Hl Hd. apply In_proj in Hl. apply In_proj in Hd.
  rewrite (close_final_drain _ _ _ _ sh R He) in Hn.
  apply (NoDup_app_disjoint _ _ x Hn Hd). apply in_or_app. now left.
Qed.

Theorem exited_frozen re s l s' :
  npos s = NExited -> step re s l = Some s' -> npos s' = NExited /\ delivered s' = delivered s.
Proof.
  intros He H. apply step_Step in H.
  destruct H; try congruence; try destruct Hst; now split.
Qed.

Theorem token_only_consumed_by_select re s l s' :
  wakeTok s = true -> step re s l = Some s' ->
  wakeTok s' = true \/ (npos s = NSelect /\ npos s' = NCheck 0).
Proof.
  intros Hw H. apply step_Step in H.
  destruct H; try destruct Hst; sset; auto.
Qed.

Theorem staged_is_covered re n scripts s sh x :
  reachable re n scripts s -> closeCh s = false -> In x (buf (shards s sh)) ->
  In x (unfl s sh) \/ wakeTok s = true \/ msig s sh \/ nsig (npos s) sh \/ covers (npos s) sh.
Proof.
  intros R Hc Hin. destruct (pending (shards s sh)) eqn:Hp.
  - right. exact (pending_covered _ _ _ _ sh R Hc Hp).
  - left. rewrite <- (bufinv_reachable _ _ _ _ R sh Hp). exact Hin.
Qed.

(* When a listener's nested stageRemoval(j, y) returns (the notifier's step out of
   NReent i MSignalled j y), y is the last element of shard j's buffer, removePending(j) is set and the
   wake token is present: these are the first four conjuncts, and they are the content.  The last two only
   restate them (at NDeliver i, `covers _ j` is `i < j`; the disjunction's right side is conjunct four).
   That y is then delivered follows from them elsewhere: if i < j the pass in progress still visits j
   (pending_covered); otherwise the token can only be consumed by the notifier's own select
   (token_only_consumed_by_select), which, closeCh being open, takes the wake branch and starts a pass over
   all shards (select_with_token). *)
Theorem reentrant_stage_delivered re n scripts s c s' i j y :
  reachable re n scripts s -> npos s = NReent i MSignalled j y -> step re s (LNot c) = Some s' ->
  npos s' = NDeliver i /\
  (exists pre, buf (shards s' j) = pre ++ [y]) /\
  pending (shards s' j) = true /\
  wakeTok s' = true /\
  (i < j -> covers (npos s') j) /\
  (closeCh s' = false -> npos s' = NDeliver i /\ (i < j \/ wakeTok s' = true)).
Proof.
  intros R Hn H.
  pose proof (reentinv_reachable _ _ _ _ R) as RI. pose proof (flaginv_reachable _ _ _ _ R) as [F1 _].
  unfold reentinv in RI. rewrite Hn in RI, F1. destruct RI as [[pre Hpre] Hw].
  cbn [step] in H. unfold not_step in H. rewrite Hn in H. cbn [stage_step] in H.
  injection H as <-. sset. rewrite fupd_eq. cbn [buf pending covers].
  repeat split; eauto.
Qed.

Theorem select_with_token re s c :
  npos s = NSelect -> wakeTok s = true -> closeCh s = false ->
  exists s', step re s (LNot c) = Some s' /\ npos s' = NCheck 0 /\ final s' = final s.
Proof.
  intros Hn Hw Hc. cbn [step]. unfold not_step. rewrite Hn, Hw, Hc, andb_false_r. cbn.
  eexists; split; [reflexivity|]. split; reflexivity.
Qed.

Theorem mutator_mid_op_enabled re n scripts s t :
  reachable re n scripts s -> mpos (muts s t) <> MIdle -> exists s', step re s (LMut t) = Some s'.
Proof.
  intros R Hm. destruct (lockinv_reachable _ _ _ _ R) as (_ & Ha & _).
  destruct (Ha t Hm) as (sh & id & r & Hs & Hlt).
  cbn [step]. unfold mut_step. rewrite Hs. apply Nat.ltb_lt in Hlt. rewrite Hlt.
  unfold stage_step. destruct (mpos (muts s t)); try congruence; eexists; reflexivity.
Qed.

Lemma mholds_not_idle m sh : mholds m sh = true -> mpos m <> MIdle.
Proof. unfold mholds. destruct (mpos m); congruence. Qed.

Theorem notifier_blocked_only_by re n scripts s c :
  reachable re n scripts s -> closeCh s = false -> step re s (LNot c) = None ->
  (npos s = NSelect /\ wakeTok s = false) \/
  (exists sh t, mu (shards s sh) = Some (OwMut t) /\ mpos (muts s t) <> MIdle /\
                exists s', step re s (LMut t) = Some s').
Proof.
  intros R Hc H.
  match goal with |- _ \/ ?G =>
    assert (HL : forall sh, mu (shards s sh) <> None -> nholds (npos s) sh = false -> G) end.
  { intros sh Hne Hnh. destruct (mu (shards s sh)) as [[t|]|] eqn:E;
      [|apply (lock_owner_notifier _ _ _ _ sh R) in E|]; try congruence.
    pose proof (mholds_not_idle _ _ (proj1 (lock_owner_mutator _ _ _ _ sh t R) E)).
    eauto 6 using mutator_mid_op_enabled. }
  cbn [step] in H. unfold not_step in H.
  destruct (npos s) as [ |i|i|i|i|i|i|i p j y| ] eqn:En; try discriminate H.
  - rewrite Hc, andb_false_r in H. cbn in H. destruct (wakeTok s); [discriminate|]. left; auto.
  - destruct (i <? nsh s); [destruct (pending (shards s i))|]; discriminate.
  - right. apply (HL i); [|reflexivity]. destruct (mu (shards s i)); [congruence|discriminate].
  - destruct (hand s); [discriminate|]. destruct (re z) as [[j y]|]; [destruct (j <? nsh s)|]; discriminate.
  - destruct p; cbn in H; try discriminate.
    right. apply (HL j); [|reflexivity]. destruct (mu (shards s j)); [congruence|discriminate].
  - destruct (open_not_exited _ _ _ _ R Hc) as [_ Hx]. rewrite En in Hx. congruence.
Qed.

Corollary notifier_enabled_or_parked re n scripts s c :
  reachable re n scripts s -> closeCh s = false -> quiescent s ->
  (exists s', step re s (LNot c) = Some s') \/ (npos s = NSelect /\ wakeTok s = false).
Proof.
  intros R Hc Hq. destruct (step re s (LNot c)) eqn:E; [left; eauto|].
  destruct (notifier_blocked_only_by _ _ _ _ c R Hc E) as [H|(sh & t & _ & Hm & _)]; [right; exact H|].
  elim Hm. apply Hq.
Qed.

Lemma quiescent_buf_pending re n scripts s sh :
  reachable re n scripts s -> quiescent s ->
  (match npos s with NReent _ _ _ _ => False | _ => True end) ->
  buf (shards s sh) <> [] -> pending (shards s sh) = true.
Proof.
  intros R Hq Hn Hb. destruct (pending (shards s sh)) eqn:Hp; [reflexivity|].
  rewrite (bufinv_reachable _ _ _ _ R sh Hp), (unfl_quiescent _ _ _ _ sh R Hq Hn) in Hb. congruence.
Qed.

Theorem quiescent_all_delivered re n scripts s :
  reachable re n scripts s -> closeCh s = false -> quiescent s ->
  npos s = NSelect -> wakeTok s = false ->
  forall sh, buf (shards s sh) = [] /\ proj sh (staged s) = proj sh (delivered s).
Proof.
  intros R Hc Hq Hn Hw sh.
  assert (Hb : buf (shards s sh) = []).
  { destruct (pending (shards s sh)) eqn:Hp.
    - rewrite (no_lost_wake_quiescent _ _ _ _ sh R Hc Hp Hn) in Hw; [discriminate|]. intros t. now rewrite Hq.
    - rewrite (bufinv_reachable _ _ _ _ R sh Hp). apply (unfl_quiescent _ _ _ _ sh R Hq). now rewrite Hn. }
  split; [exact Hb|].
  rewrite (conservation _ _ _ _ sh R), Hb. unfold inhand. rewrite Hn. cbn. now rewrite app_nil_r.
Qed.

Theorem notifier_enabled re n scripts s c sh :
  reachable re n scripts s -> closeCh s = false -> quiescent s -> buf (shards s sh) <> [] ->
  exists s', step re s (LNot c) = Some s'.
Proof.
  intros R Hc Hq Hb.
  destruct (notifier_enabled_or_parked _ _ _ _ c R Hc Hq) as [H|[Hn Hw]]; [exact H|].
  now destruct (quiescent_all_delivered _ _ _ _ R Hc Hq Hn Hw sh).
Qed.

Corollary quiescent_delivered_multiset re n scripts s p :
  reachable re n scripts s -> closeCh s = false -> quiescent s ->
  npos s = NSelect -> wakeTok s = false ->
  count_occ pair_dec (delivered s) p = count_occ pair_dec (staged s) p.
Proof.
  intros R Hc Hq Hn Hw. destruct p as [sh x]. rewrite !count_proj.
  destruct (quiescent_all_delivered _ _ _ _ R Hc Hq Hn Hw sh) as [_ ->]. reflexivity.
Qed.

Lemma exec_preserves re (P : state -> Prop) :
  (forall s l s', P s -> step re s l = Some s' -> P s') ->
  forall ls s s', P s -> exec re s ls = Some s' -> P s'.
Proof.
  intros HP ls. induction ls as [|l ls IH]; intros s s' Hs H; cbn [exec] in H; [now injection H as <-|].
  destruct (step re s l) eqn:E; [eauto|discriminate].
Qed.

Lemma exec_reachable re n scripts s ls s' :
  reachable re n scripts s -> exec re s ls = Some s' -> reachable re n scripts s'.
Proof. apply exec_preserves. intros; econstructor; eauto. Qed.

Lemma exited_frozen_exec re s ls s' :
  npos s = NExited -> exec re s ls = Some s' -> npos s' = NExited /\ delivered s' = delivered s.
Proof.
  intros He. apply (exec_preserves re (fun s' => npos s' = NExited /\ delivered s' = delivered s)); [|auto].
  intros s1 l s2 [H1 H2] H. destruct (exited_frozen _ _ _ _ H1 H). split; congruence.
Qed.

Definition obs (o : option state) :=
  match o with
  | None => None
  | Some s => Some (bufs s, pendings s, wakeTok s, npos s, delivered s, staged s, late s)
  end.

Definition rep {A : Type} (k : nat) (x : A) : list A := repeat x k.

Definition re_none : Z -> option (nat * Z) := fun _ => None.
Definition re_cross : Z -> option (nat * Z) :=
  fun x => if (x =? 10)%Z then Some (1, 11%Z) else if (x =? 20)%Z then Some (0, 21%Z) else None.
Definition re_self : Z -> option (nat * Z) :=
  fun x => if (x =? 10)%Z then Some (0, 11%Z) else None.

(* 2 shards, 2 mutators: both stagings complete before the notifier runs: two signals, ONE token *)
Example ex_coalesced_tokens :
  obs (exec re_none (init 2 [[(0, 10%Z)]; [(1, 20%Z)]]) (rep 5 (LMut 0) ++ rep 5 (LMut 1)))
  = Some ([[10%Z]; [20%Z]], [true; true], true, NSelect, [], [(0, 10%Z); (1, 20%Z)], []).
Proof. vm_compute. reflexivity. Qed.

(* ... and the single token is enough: one pass delivers both and parks again without a token *)
Example ex_one_token_delivers_both :
  obs (exec re_none (init 2 [[(0, 10%Z)]; [(1, 20%Z)]])
            (rep 5 (LMut 0) ++ rep 5 (LMut 1) ++ rep 16 (LNot false)))
  = Some ([[]; []], [false; false], false, NSelect, [(0, 10%Z); (1, 20%Z)], [(0, 10%Z); (1, 20%Z)], []).
Proof. vm_compute. reflexivity. Qed.

(* interleaved mutators on one shard: the second blocks in mu.Lock while the first holds the lock *)
Example ex_lock_blocks :
  obs (exec re_none (init 1 [[(0, 10%Z)]; [(0, 20%Z)]]) [LMut 0; LMut 1]) = None.
Proof. vm_compute. reflexivity. Qed.

(* "a set flag while the notifier is parked means the token is present" is false as it stands:
   flag stored, signal not yet sent *)
Example no_lost_wake_refuted :
  exists s, reachable re_none 1 [[(0, 10%Z)]] s /\
            closeCh s = false /\ pending (shards s 0) = true /\ npos s = NSelect /\ wakeTok s = false.
Proof.
  eexists. split; [apply (exec_reachable _ _ _ _ (rep 3 (LMut 0)) _ (reach_init _ _ _)); vm_compute; reflexivity|].
  cbn. repeat split.
Qed.

(* re-entrant listener: 10's listener stages 11 on the LATER shard 1 (delivered in the same pass, after
   20); 20's listener stages 21 on the EARLIER shard 0: left in the buffer with flag and token set ... *)
Example ex_reentrant_same_pass :
  obs (exec re_cross (init 2 [[(0, 10%Z)]; [(1, 20%Z)]])
            (rep 5 (LMut 0) ++ rep 5 (LMut 1) ++ rep 26 (LNot false)))
  = Some ([[21%Z]; []], [true; false], true, NCheck 2,
          [(0, 10%Z); (1, 20%Z); (1, 11%Z)], [(0, 10%Z); (1, 20%Z); (1, 11%Z); (0, 21%Z)], []).
Proof. vm_compute. reflexivity. Qed.

(* ... and delivered by the next pass, which that token triggers *)
Example ex_reentrant_next_pass :
  obs (exec re_cross (init 2 [[(0, 10%Z)]; [(1, 20%Z)]])
            (rep 5 (LMut 0) ++ rep 5 (LMut 1) ++ rep 37 (LNot false)))
  = Some ([[]; []], [false; false], false, NSelect,
          [(0, 10%Z); (1, 20%Z); (1, 11%Z); (0, 21%Z)], [(0, 10%Z); (1, 20%Z); (1, 11%Z); (0, 21%Z)], []).
Proof. vm_compute. reflexivity. Qed.

(* a listener re-staging on its own shard does not deadlock and is served by the next pass *)
Example ex_reentrant_own_shard :
  obs (exec re_self (init 1 [[(0, 10%Z)]]) (rep 5 (LMut 0) ++ rep 23 (LNot true)))
  = Some ([[]], [false], false, NSelect, [(0, 10%Z); (0, 11%Z)], [(0, 10%Z); (0, 11%Z)], []).
Proof. vm_compute. reflexivity. Qed.

(* Close with a final drain: staged before close(closeCh), select prefers closeCh although the token is
   there: the final drain delivers it, the notifier exits, the closer's wait returns *)
Example ex_close_final_drain :
  match exec re_none (init 1 [[(0, 10%Z)]]) (rep 5 (LMut 0) ++ [LClose] ++ rep 9 (LNot true) ++ [LClose]) with
  | Some s => (delivered s, staged s, late s, npos s, cpos s)
  | None => ([], [], [], NSelect, CStart)
  end = ([(0, 10%Z)], [(0, 10%Z)], [], NExited, CDone).
Proof. vm_compute. reflexivity. Qed.

(* What the final drain misses.  A mutator (standing for a write worker's final drain that applies a write
   accepted during shutdown) stages on shard 0 after the notifier has exited: the id sits in the buffer
   with flag and token set and is never delivered, whatever happens afterwards. *)
Example staged_after_exit_lost :
  exists s, exec re_none (init 1 [[(0, 10%Z)]; [(0, 30%Z)]])
                 (rep 5 (LMut 0) ++ [LClose] ++ rep 9 (LNot true) ++ [LClose] ++ rep 5 (LMut 1)) = Some s /\
            npos s = NExited /\ cpos s = CDone /\
            In (0, 30%Z) (staged s) /\ late s = [(0, 30%Z)] /\ buf (shards s 0) = [30%Z] /\
            pending (shards s 0) = true /\ wakeTok s = true /\
            forall ls s', exec re_none s ls = Some s' -> delivered s' = [(0, 10%Z)].
Proof.
  eexists. split; [vm_compute; reflexivity|]. cbn. repeat split; [now right; left|].
  intros ls s' Hx. apply exited_frozen_exec in Hx; [now destruct Hx as [_ ->] | reflexivity].
Qed.

(* the same loss while the notifier is still running: its final drain has passed shard 0 (flag loaded as
   false) and is looking at shard 1 when the mutator stages on shard 0 *)
Example staged_after_final_visit_lost :
  obs (exec re_none (init 2 [[(0, 30%Z)]])
            ([LClose] ++ rep 2 (LNot true) ++ rep 5 (LMut 0) ++ rep 2 (LNot true) ++ [LClose]))
  = Some ([[30%Z]; []], [true; false], true, NExited, [], [(0, 30%Z)], [(0, 30%Z)]).
Proof. vm_compute. reflexivity. Qed.

(* ... and even an id APPENDED before the final visit is lost when its flag store comes after it: the
   final drain loads removePending = false between the mutator's append and its Store(true) *)
Example appended_before_final_visit_lost :
  obs (exec re_none (init 1 [[(0, 30%Z)]])
            (rep 2 (LMut 0) ++ [LClose] ++ rep 2 (LNot true) ++ rep 3 (LMut 0) ++ [LNot true; LClose]))
  = Some ([[30%Z]], [true], true, NExited, [], [(0, 30%Z)], [(0, 30%Z)]).
Proof. vm_compute. reflexivity. Qed.

(* a listener that stages during the FINAL drain on a shard already visited loses that notification *)
Example reentrant_in_final_drain_lost :
  obs (exec re_self (init 1 [[(0, 10%Z)]]) (rep 5 (LMut 0) ++ [LClose] ++ rep 14 (LNot true) ++ [LClose]))
  = Some ([[11%Z]], [true], true, NExited, [(0, 10%Z)], [(0, 10%Z); (0, 11%Z)], [(0, 11%Z)]).
Proof. vm_compute. reflexivity. Qed.

Fixpoint sumn (f : nat -> nat) (n : nat) : nat :=
  match n with O => 0 | S k => sumn f k + f k end.

Lemma sumn_ext f f' n : (forall k, k < n -> f k = f' k) -> sumn f n = sumn f' n.
Proof. induction n as [|n IH]; intros E; cbn [sumn]; [|rewrite IH, E]; auto. Qed.

Lemma sumn_fupd {A} (g : A -> nat) (F : nat -> A) i x n :
  i < n -> sumn (fun k => g (fupd F i x k)) n + g (F i) = sumn (fun k => g (F k)) n + g x.
Proof.
  induction n as [|n IH]; [lia|]. intros Hi. cbn [sumn]. destruct (Nat.eq_dec i n) as [->|Hne].
  - rewrite fupd_eq, (sumn_ext _ (fun k => g (F k))); [lia|]. intros k Hk. now rewrite fupd_neq by lia.
  - rewrite (fupd_neq F i x n) by lia. specialize (IH ltac:(lia)). lia.
Qed.

Section Measure.
  (* well-foundedness of re-entrant staging: the id a listener stages has a smaller rank *)
  Variable rank : Z -> nat.

  Fixpoint wl (l : list Z) : nat :=
    match l with [] => 0 | x :: r => S (rank x) + wl r end.

  Lemma wl_app a b : wl (a ++ b) = wl a + wl b.
  Proof. induction a as [|x a IH]; cbn [wl app]; lia. Qed.

  (* weight of a nested stage that has not appended yet *)
  Definition rpend (p : npc) : nat :=
    match p with
    | NReent _ MIdle _ y | NReent _ MLocked _ y => S (rank y)
    | _ => 0
    end.

  (* undelivered work: everything in the buffers, in the hand, or about to be appended by a listener *)
  Definition work (s : state) : nat :=
    sumn (fun k => wl (buf (shards s k))) (nsh s) + wl (hand s) + rpend (npos s).

  (* token present, or a nested stage that will still send it *)
  Definition tokpot (s : state) : nat :=
    if wakeTok s then 1 else
    match npos s with
    | NReent _ MIdle _ _ | NReent _ MLocked _ _ | NReent _ MAppended _ _ | NReent _ MFlagged _ _ => 1
    | _ => 0
    end.

  (* actions left in a nested stage *)
  Definition spos (p : mpc) : nat :=
    match p with MIdle => 5 | MLocked => 4 | MAppended => 3 | MFlagged => 2 | MSignalled => 1 end.

  (* position inside the pass.  NReent i p lies above NDeliver i, so entering a nested stage raises ppos:
     harmless, because that step delivers an element and `work` drops *)
  Definition ppos (n : nat) (p : npc) : nat :=
    match p with
    | NSelect | NExited => 0
    | NCheck i => (n - i) * 8 + 7
    | NLock i => (n - i) * 8 + 6
    | NSwap i => (n - i) * 8 + 5
    | NClear i => (n - i) * 8 + 4
    | NUnlock i => (n - i) * 8 + 3
    | NDeliver i => (n - i) * 8 + 2
    | NReent i p _ _ => (n - i) * 8 + 2 + spos p
    end.

  Lemma ppos_bound n p : ppos n p < 8 * n + 8.
  Proof. destruct p as [ | | | | | | |? p ? ?| ]; cbn [ppos]; try destruct p; cbn [spos]; lia. Qed.

  Definition lexlt (s' s : state) : Prop :=
    work s' < work s \/
    (work s' <= work s /\ tokpot s' < tokpot s) \/
    (work s' <= work s /\ tokpot s' <= tokpot s /\ ppos (nsh s') (npos s') < ppos (nsh s) (npos s)).

  Definition measure (s : state) : nat :=
    (work s * 2 + tokpot s) * (8 * nsh s + 8) + ppos (nsh s) (npos s).

  Lemma tokpot_le1 s : tokpot s <= 1.
  Proof. unfold tokpot. destruct (wakeTok s); [lia|]. destruct (npos s) as [ | | | | | | |? p ? ?| ]; try lia. destruct p; lia. Qed.

  Lemma lexlt_measure s' s : nsh s' = nsh s -> lexlt s' s -> measure s' < measure s.
  Proof.
    unfold lexlt, measure. intros En H. rewrite En in *.
    pose proof (ppos_bound (nsh s) (npos s')) as B1. pose proof (ppos_bound (nsh s) (npos s)) as B2.
    pose proof (tokpot_le1 s') as T1. pose proof (tokpot_le1 s) as T2.
    set (K := 8 * nsh s + 8) in *.
    destruct H as [H|[[G1 G2]|(G1 & G2 & G3)]]; nia.
  Qed.
End Measure.

Theorem notifier_step_decreases re rank n scripts s c s' :
  (forall x j y, re x = Some (j, y) -> rank y < rank x) ->
  reachable re n scripts s -> closeCh s = false -> step re s (LNot c) = Some s' ->
  lexlt rank s' s.
Proof.
  (* which component of (work, tokpot, ppos) drops, the ones before it staying equal:
       select taking the token ............................ tokpot 1 -> 0
       listener call without nested stage ................. work, by the delivered element
       listener call starting a nested stage .............. work, by rank y < rank x (ppos rises)
       nested lock, append, flag, signal, unlock .......... ppos, through spos; the append moves the
                                                            weight from rpend into the buffer, work equal
       flag loads, lock, swap, clear, unlock, end of loop . ppos; the swap moves the buffer into the hand
     (the select of the final drain needs closeCh closed) *)
  intros Hr R Hc H. destruct (lockinv_reachable _ _ _ _ R) as (_ & _ & _ & _ & Hd).
  apply step_Step in H. remember (LNot c) as l eqn:El.
  destruct H;
    try discriminate El; try congruence; try destruct Hst;
    rewrite En in Hd; cbn [nbound] in Hd; unfold lexlt, work, tokpot; sset; rewrite ?En, ?Eh.
  all: try match goal with
       | |- context [fupd (shards ?s0) ?i ?d] =>
           pose proof (sumn_fupd (fun d0 => wl rank (buf d0)) (shards s0) i d (nsh s0) ltac:(lia)) as HS;
           cbn beta in HS; cbn [buf] in HS
       end.
  all: try pose proof (Hr _ _ _ Ere).
  all: rewrite ?wl_app in *; cbn [wl rpend ppos spos] in *.
  all: clear R Hr Hc El. all: try lia. all: destruct (wakeTok s); lia.
Qed.

Corollary notifier_measure_decreases re rank n scripts s c s' :
  (forall x j y, re x = Some (j, y) -> rank y < rank x) ->
  reachable re n scripts s -> closeCh s = false -> step re s (LNot c) = Some s' ->
  measure rank s' < measure rank s.
Proof.
  intros Hr R Hc H. apply lexlt_measure; [|eapply notifier_step_decreases; eauto].
  apply step_Step in H.
  destruct H; try destruct Hst; reflexivity.
Qed.

(* without well-foundedness the notifier need not come to rest: every delivery stages a new id *)
Definition re_forever : Z -> option (nat * Z) := fun x => Some (0, (x + 1)%Z).

Example ex_unbounded_reentrance :
  obs (exec re_forever (init 1 [[(0, 10%Z)]]) (rep 5 (LMut 0) ++ rep 42 (LNot false)))
  = Some ([[13%Z]], [true], true, NSelect,
          [(0, 10%Z); (0, 11%Z); (0, 12%Z)], [(0, 10%Z); (0, 11%Z); (0, 12%Z); (0, 13%Z)], []).
Proof. vm_compute. reflexivity. Qed.

(* The order of flag store and signal matters.  With the signal sent first (mutant `step_sigfirst`) the
   wake-up is lost: the notifier consumes the token, loads removePending = false, parks again; then the flag
   is stored.  The id sits in the buffer, flag set, no token, no mutator mid-operation, notifier parked,
   closeCh open: nobody can move (the statement of no_lost_wake, and of quiescent_all_delivered, fail). *)
Example signal_before_flag_loses_wake :
  exists s, exec_sigfirst re_none (init 1 [[(0, 10%Z)]])
              (rep 3 (LMut 0) ++ rep 3 (LNot false) ++ rep 2 (LMut 0)) = Some s /\
            closeCh s = false /\ npos s = NSelect /\ wakeTok s = false /\
            pending (shards s 0) = true /\ buf (shards s 0) = [10%Z] /\ delivered s = [] /\
            mpos (muts s 0) = MIdle /\ script (muts s 0) = [] /\
            step_sigfirst re_none s (LNot false) = None /\ step_sigfirst re_none s (LNot true) = None /\
            step_sigfirst re_none s (LMut 0) = None.
Proof. eexists. split; [vm_compute; reflexivity|]. cbn. repeat split. Qed.

(* the same schedule on the real order: the mutator's third step is the flag store, so the notifier's
   Load sees it, blocks in mu.Lock until the mutator unlocks, then delivers *)
Example flag_before_signal_same_schedule :
  obs (exec re_none (init 1 [[(0, 10%Z)]]) (rep 4 (LMut 0) ++ rep 2 (LNot false) ++ [LMut 0] ++ rep 7 (LNot false)))
  = Some ([[]], [false], false, NSelect, [(0, 10%Z)], [(0, 10%Z)], []).
Proof. vm_compute. reflexivity. Qed.

(* Informal remark, not proved here (there is no mutant for it).  On the notifier side swap-then-clear versus
   clear-then-swap should make no difference: both happen under the shard
   lock, and every append/flag pair of a stager also happens under that lock (lock_owner_mutator,
   lock_owner_notifier), so no other thread observes the intermediate state.  What matters there is that
   the flag is cleared under the lock (flaginv: a stager past its flag store keeps the flag true until
   the notifier, holding the lock, clears it) and that the token is taken before the flags are loaded. *)

Theorem close_final_drain_exactly_once re n scripts s sh x :
  reachable re n scripts s -> npos s = NExited -> quiescent s ->
  NoDup (map snd (staged s)) ->
  In (sh, x) (staged s) -> ~ In (sh, x) (late s) ->
  count_occ pair_dec (delivered s) (sh, x) = 1.
Proof.
  intros R He Hq Hn Hs Hl.
  pose proof (staged_before_final_visit_delivered _ _ _ _ sh x R He Hq Hs Hl) as Hin.
  pose proof (at_most_once _ _ _ _ R Hn) as Hd. apply NoDup_map_inv in Hd.
  apply (count_occ_In pair_dec) in Hin.
  pose proof (proj1 (NoDup_count_occ pair_dec (delivered s)) Hd (sh, x)). lia.
Qed.

(* No trace or fairness is involved: these are the facts a liveness argument would start from (enabledness, a
   measure for the notifier's steps, the rest state), not eventual delivery itself.  The rank hypothesis serves
   the measure clause only. *)
Theorem eventual_delivery re rank n scripts s :
  (forall x j y, re x = Some (j, y) -> rank y < rank x) ->
  reachable re n scripts s -> closeCh s = false ->
  (forall t, mpos (muts s t) <> MIdle -> exists s', step re s (LMut t) = Some s') /\
  (forall c, step re s (LNot c) = None ->
     (npos s = NSelect /\ wakeTok s = false) \/
     (exists sh t, mu (shards s sh) = Some (OwMut t) /\ mpos (muts s t) <> MIdle /\
                   exists s', step re s (LMut t) = Some s')) /\
  (quiescent s -> forall sh, buf (shards s sh) <> [] -> forall c, exists s', step re s (LNot c) = Some s') /\
  (forall c s', step re s (LNot c) = Some s' -> measure rank s' < measure rank s) /\
  (quiescent s -> npos s = NSelect -> wakeTok s = false ->
   forall sh, buf (shards s sh) = [] /\ proj sh (staged s) = proj sh (delivered s)).
Proof.
  intros Hr R Hc. repeat split.
  - intros t Ht. eapply mutator_mid_op_enabled; eauto.
  - intros c Hn. eapply notifier_blocked_only_by; eauto.
  - intros Hq sh Hb c. eapply notifier_enabled; eauto.
  - intros c s' H. eapply notifier_measure_decreases; eauto.
  - eapply quiescent_all_delivered; eauto.
  - eapply quiescent_all_delivered; eauto.
Qed.

Theorem at_most_once_no_fabrication_fifo re n scripts s :
  reachable re n scripts s ->
  (NoDup (map snd (staged s)) -> NoDup (map snd (delivered s))) /\
  (forall p, count_occ pair_dec (delivered s) p <= count_occ pair_dec (staged s) p) /\
  (forall sh, exists rest, proj sh (staged s) = proj sh (delivered s) ++ rest).
Proof.
  intros R. split; [apply (at_most_once _ _ _ _ R)|]. split.
  - intros p. apply (no_fabrication _ _ _ _ p R).
  - intros sh. apply (fifo_per_shard _ _ _ _ sh R).
Qed.
