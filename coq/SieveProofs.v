(* The SieveTinyLFU write path of CacheModel.v, one shard. Every function of the path is shown to be a run of
   primitive steps (flag writes, hand moves, promotions, oracle pops, statistics, drops); what each step preserves,
   every run preserves. apply_sieve is then one write (an update, or the insert of an unpublished candidate), a run
   of enforce, and the publication of the candidate; the theorems about one write are read off its summary ASum. *)
Require Import KV.Base KV.Gen.Consts KV.ConfigModel KV.CacheModel KV.CacheLists.
From Coq Require Import Permutation.
Open Scope Z_scope.

Definition items (s : shard) : list item := prob s ++ main s.
Definition keys (l : list item) : list Z := map key l.

Lemma has_key_true l k : has_key l k = true <-> In k (keys l).
Proof. rewrite has_key_memz. apply memz_In. Qed.

Lemma has_key_false l k : has_key l k = false <-> ~ In k (keys l).
Proof. rewrite has_key_memz. apply memz_false. Qed.

Lemma in_split_key l it : In it l -> NoDup (keys l) ->
  exists l1 l2, l = l1 ++ it :: l2 /\ ~ In (key it) (keys l1) /\ ~ In (key it) (keys l2).
Proof.
  intros H ND. destruct (in_split _ _ H) as [l1 [l2 ->]]. exists l1, l2.
  split; [reflexivity|]. unfold keys in *. rewrite map_app in ND. cbn [map] in ND.
  pose proof (NoDup_remove_2 _ _ _ ND) as N. split; intros A; apply N; apply in_or_app; [left|right]; exact A.
Qed.

Lemma replace_item_app l1 it l2 n : ~ In (key it) (keys l1) -> key n = key it ->
  replace_item (l1 ++ it :: l2) n = l1 ++ n :: l2.
Proof.
  intros H K. induction l1 as [|x l1 IH]; cbn [app replace_item keys map In] in *.
  - rewrite K, Z.eqb_refl. reflexivity.
  - destruct (key x =? key n) eqn:E; [exfalso; apply H; left; lia|].
    f_equal. apply IH. intros A. apply H. right. exact A.
Qed.

Lemma remove_key_notin l k : ~ In k (keys l) -> remove_key l k = l.
Proof.
  induction l as [|x l IH]; cbn [remove_key keys map In]; intros H; [reflexivity|].
  destruct (key x =? k) eqn:E; [exfalso; apply H; left; lia|].
  f_equal. apply IH. intros A. apply H. right. exact A.
Qed.

Lemma replace_item_notin l n : ~ In (key n) (keys l) -> replace_item l n = l.
Proof.
  induction l as [|x l IH]; cbn [replace_item keys map In]; intros H; [reflexivity|].
  destruct (key x =? key n) eqn:E; [exfalso; apply H; left; lia|].
  f_equal. apply IH. intros A. apply H. right. exact A.
Qed.

Lemma index_of_some l k : forall i j, index_of l k i = Some j -> (i <= j)%nat /\ exists it, nth_error l (j - i) = Some it /\ key it = k.
Proof.
  induction l as [|x l IH]; cbn [index_of]; intros i j H; [discriminate|].
  destruct (key x =? k) eqn:E.
  - injection H as <-. split; [lia|]. exists x. rewrite Nat.sub_diag. split; [reflexivity|lia].
  - destruct (IH _ _ H) as [A [it [B C]]]. split; [lia|]. exists it. split; [|exact C].
    replace (j - i)%nat with (S (j - S i)) by lia. exact B.
Qed.

Lemma key_at_in l i k : key_at l i = Some k -> In k (keys l).
Proof.
  unfold key_at. destruct (nth_error l i) as [it|] eqn:E; [|discriminate].
  intros H. injection H as <-. unfold keys. apply in_map. exact (nth_error_In _ _ E).
Qed.

Lemma prev_main_some m k pk : prev_main m k = Some pk -> In pk (keys m) /\ pk <> k.
Proof.
  unfold prev_main. destruct (index_of m k 0) as [i|]; [|discriminate].
  (* the predecessor is read at the last index (wrap-around) or at i - 1; either way it is a key of m *)
  set (j := match i with O => Nat.pred (length m) | S j => j end).
  assert (E0 : match i with O => key_at m (Nat.pred (length m)) | S j => key_at m j end = key_at m j)
    by (destruct i; reflexivity).
  rewrite E0. destruct (key_at m j) as [p|] eqn:E; [|discriminate].
  destruct (p =? k) eqn:F; [discriminate|]. intros H. injection H as <-.
  split; [exact (key_at_in _ _ _ E)|lia].
Qed.

(* the part of an item that the policy never touches *)
Definition ess (it : item) : Z * Z * Z * Z * bool := (key it, val it, exp it, cost it, unpub it).
Definition ekey (t : Z * Z * Z * Z * bool) : Z := fst (fst (fst (fst t))).
Definition evalue (t : Z * Z * Z * Z * bool) : Z := snd (fst (fst (fst t))).
Definition ecost (t : Z * Z * Z * Z * bool) : Z := snd (fst t).
Definition eunpub (t : Z * Z * Z * Z * bool) : bool := snd t.

Lemma keys_ess l : keys l = map ekey (map ess l).
Proof. unfold keys. rewrite map_map. reflexivity. Qed.
Lemma costs_ess l : map cost l = map ecost (map ess l).
Proof. rewrite map_map. reflexivity. Qed.

(* reduces a field projection applied to one of CacheModel's shard updates (sh_set, sh_lists, ..., set_hand, bump) *)
Ltac fields :=
  cbn [cap costcap tabk lst lfu prob main hand pcap mcap pmin pmax size scost staged evs pend admits rejects
       ghosthits promos pevicts mevicts serr glog nlog sh_set sh_lists sh_caps sh_evs sh_stats sh_err sh_ghost
       set_hand bump].

(* Stated over the thirteen fields it reads, not over a shard, so that it can be proved of a literal field tuple
   (SInvF_empty: the cleared shard, the start state of the examples). iv_tab: the table holds exactly the published
   items; iv_hand: the SIEVE hand names a main item or nothing; iv_caps, iv_bounds: the probation / main split stays
   inside the adaptive range [pmin, pmax] that sieve_segs (ConfigModel) computes; iv_classic: the LRU / LFU / FIFO
   structures are unused; iv_cap: is_sieve asks for a positive entry capacity. *)
Record SInvF (cap_ pcap_ mcap_ pmin_ pmax_ : Z) (tabk_ : list Z) (lst_ : list item) (lfu_ : list (Z * list Z))
   (prob_ main_ : list item) (hand_ : option Z) (size_ scost_ : Z) : Prop := {
  iv_nodup : NoDup (map key (prob_ ++ main_));
  iv_tabnd : NoDup tabk_;
  iv_tab : forall k, In k tabk_ <-> exists it, In it (prob_ ++ main_) /\ key it = k /\ unpub it = false;
  iv_size : size_ = zlen prob_ + zlen main_;
  iv_cost : scost_ = sumZ (map cost (prob_ ++ main_));
  iv_costnn : forall it, In it (prob_ ++ main_) -> 0 <= cost it;
  iv_hand : forall h, hand_ = Some h -> In h (map key main_);
  iv_caps : pcap_ + mcap_ = cap_;
  iv_bounds : 1 <= pmin_ /\ pmin_ <= pcap_ /\ pcap_ <= pmax_ /\ pmax_ <= cap_;
  iv_classic : lst_ = [] /\ lfu_ = [];
  iv_cap : 1 <= cap_ }.

Definition SInv (s : shard) : Prop :=
  SInvF (cap s) (pcap s) (mcap s) (pmin s) (pmax s) (tabk s) (lst s) (lfu s) (prob s) (main s) (hand s) (size s) (scost s).

Lemma SInvF_empty c pc mc pmn pmx : pc + mc = c -> 1 <= pmn /\ pmn <= pc /\ pc <= pmx /\ pmx <= c -> 1 <= c ->
  SInvF c pc mc pmn pmx [] [] [] [] [] None 0 0.
Proof.
  intros A B C. constructor; cbn [app map]; try assumption.
  - constructor.
  - constructor.
  - intros k. split; [intros []|intros [it [[] _]]].
  - reflexivity.
  - reflexivity.
  - intros it [].
  - discriminate.
  - split; reflexivity.
Qed.

(* Quiet is the state between operations; PendLe s k and Pending s k hold inside apply_sieve, while the candidate k
   awaits admission. CostOK is what the forced loop needs in order to end within budget. *)
Definition Quiet (s : shard) : Prop := forall it, In it (items s) -> unpub it = false.
Definition PendLe (s : shard) (k : Z) : Prop := forall it, In it (items s) -> unpub it = true -> key it = k.
Definition Pending (s : shard) (k : Z) : Prop :=
  PendLe s k /\ exists it, In it (items s) /\ key it = k /\ unpub it = true.

Definition CostOK (s : shard) : Prop := 0 < costcap s -> forall it, In it (items s) -> cost it <= costcap s.

Lemma Quiet_PendLe s k : Quiet s -> PendLe s k.
Proof. intros Q it H U. rewrite (Q it H) in U. discriminate. Qed.

Definition Sub (s s' : shard) : Prop := forall y, In y (items s') -> exists x, ess x = ess y /\ In x (items s).

Lemma Sub_perm s s' A : Permutation (map ess (items s)) (A ++ map ess (items s')) -> Sub s s'.
Proof.
  intros P y H. apply in_map_iff, (Permutation_in _ (Permutation_sym P)), in_or_app. right. exact (in_map ess _ _ H).
Qed.

Lemma Sub_pres s s' : Sub s s' -> (Quiet s -> Quiet s') /\ (forall k, PendLe s k -> PendLe s' k).
Proof.
  intros S. split.
  - intros Q y H. destruct (S y H) as [x [E A]]. unfold ess in E. injection E as _ _ _ _ <-. exact (Q x A).
  - intros k P y H U. destruct (S y H) as [x [E A]]. unfold ess in E. injection E as <- _ _ _ E5. apply P; [exact A|congruence].
Qed.
Arguments Sub_pres {s s'}.

Lemma Sub_costok s s' : Sub s s' -> costcap s' = costcap s -> CostOK s -> CostOK s'.
Proof.
  intros S Cc C Hc y H. destruct (S y H) as [x [E A]]. rewrite Cc in *. unfold ess in E. injection E as _ _ _ <- _. exact (C Hc x A).
Qed.
Arguments Sub_costok {s s'}.

(* the list-dependent part of SInv, over essences *)
Definition EInv (tb : list Z) (sz sc : Z) (E : list (Z * Z * Z * Z * bool)) : Prop :=
  NoDup (map ekey E) /\
  (forall k, In k tb <-> exists t, In t E /\ ekey t = k /\ eunpub t = false) /\
  sz = Z.of_nat (length E) /\ sc = sumZ (map ecost E) /\ (forall t, In t E -> 0 <= ecost t).

Lemma sumZ_perm a b : Permutation a b -> sumZ a = sumZ b.
Proof. induction 1; cbn [sumZ]; lia. Qed.

Lemma EInv_perm tb sz sc E E' : Permutation E E' -> EInv tb sz sc E -> EInv tb sz sc E'.
Proof.
  intros P (A & B & C & D & F). repeat split.
  - exact (Permutation_NoDup (Permutation_map ekey P) A).
  - intros H. apply B in H. destruct H as [t [H1 H2]]. exists t. split; [exact (Permutation_in _ P H1)|exact H2].
  - intros [t [H1 H2]]. apply B. exists t. split; [exact (Permutation_in _ (Permutation_sym P) H1)|exact H2].
  - rewrite <- (Permutation_length P). exact C.
  - rewrite <- (sumZ_perm _ _ (Permutation_map ecost P)). exact D.
  - intros t H. apply F. exact (Permutation_in _ (Permutation_sym P) H).
Qed.
Arguments EInv_perm {tb sz sc E E'}.

Lemma EInv_drop tb sz sc t E : NoDup tb -> EInv tb sz sc (t :: E) ->
  EInv (if eunpub t then tb else remz tb (ekey t)) (sz - 1) (sc - ecost t) E.
Proof.
  intros ND (A & B & C & D & F). cbn [map length sumZ] in *.
  inversion A as [|x l Hx A']; subst. repeat split.
  - exact A'.
  - intros H. destruct (eunpub t) eqn:U.
    + apply B in H. destruct H as [t' [[H1|H1] [H2 H3]]]; [subst t'; congruence|].
      exists t'. repeat split; assumption.
    + apply (remz_In _ _ _ ND) in H. destruct H as [H N]. apply B in H.
      destruct H as [t' [[H1|H1] [H2 H3]]]; [subst t'; congruence|].
      exists t'. repeat split; assumption.
  - intros [t' [H1 [H2 H3]]]. assert (G : In k tb).
    { apply B. exists t'. split; [right; exact H1|split; assumption]. }
    destruct (eunpub t); [exact G|]. apply (remz_In _ _ _ ND). split; [exact G|].
    intros ->. apply Hx. rewrite <- H2. apply in_map. exact H1.
  - lia.
  - lia.
  - intros t' H. apply F. right. exact H.
Qed.

(* The three writes of apply_sieve, on the head of the essence list. Update of a published entry (upd_state_spec): *)
Lemma EInv_cons_write tb sz sc t t' E : EInv tb sz sc (t :: E) ->
  ekey t' = ekey t -> eunpub t' = eunpub t -> 0 <= ecost t' -> EInv tb sz (sc + (ecost t' - ecost t)) (t' :: E).
Proof.
  intros (A & B & C & D & F) K U N. unfold EInv. cbn [map length sumZ] in *. repeat split.
  - rewrite K. exact A.
  - intros H. apply B in H. destruct H as [x [[H1|H1] [H2 H3]]].
    + subst x. exists t'. split; [left; reflexivity|]. split; congruence.
    + exists x. split; [right; exact H1|split; assumption].
  - intros [x [[H1|H1] [H2 H3]]]; apply B.
    + subst x. exists t. split; [left; reflexivity|]. split; congruence.
    + exists x. split; [right; exact H1|split; assumption].
  - exact C.
  - lia.
  - intros x [H|H]; [subst x; exact N|apply F; right; exact H].
Qed.

(* insert of the unpublished candidate (ins_state_spec): *)
Lemma EInv_cons_insert tb sz sc t E : EInv tb sz sc E -> ~ In (ekey t) (map ekey E) ->
  eunpub t = true -> 0 <= ecost t -> EInv tb (sz + 1) (sc + ecost t) (t :: E).
Proof.
  intros (A & B & C & D & F) N U P. unfold EInv. cbn [map length sumZ]. repeat split.
  - constructor; assumption.
  - intros H. apply B in H. destruct H as [x [H1 H2]]. exists x. split; [right; exact H1|exact H2].
  - intros [x [[H1|H1] [H2 H3]]]; [subst x; congruence|]. apply B. exists x. split; [exact H1|split; assumption].
  - lia.
  - lia.
  - intros x [H|H]; [subst x; exact P|exact (F x H)].
Qed.

(* publication of the admitted candidate (pub_state_spec): *)
Lemma EInv_cons_publish tb sz sc t t' E : EInv tb sz sc (t :: E) -> eunpub t = true ->
  ekey t' = ekey t -> ecost t' = ecost t -> eunpub t' = false ->
  EInv (ekey t :: tb) sz sc (t' :: E) /\ ~ In (ekey t) tb.
Proof.
  intros (A & B & C & D & F) U K1 K2 U'. unfold EInv. cbn [map length sumZ] in *.
  assert (NI : ~ In (ekey t) tb).
  { intros H. apply B in H. destruct H as [x [[H1|H1] [H2 H3]]]; [subst x; congruence|].
    inversion A as [|a l Hx _]; subst. apply Hx. rewrite <- H2. apply in_map. exact H1. }
  split; [|exact NI]. repeat split.
  - rewrite K1. exact A.
  - intros [H|H].
    + subst k. exists t'. split; [left; reflexivity|split; assumption].
    + apply B in H. destruct H as [x [[H1|H1] [H2 H3]]]; [subst x; congruence|].
      exists x. split; [right; exact H1|split; assumption].
  - intros [x [[H1|H1] [H2 H3]]]; [subst x; left; congruence|].
    right. apply B. exists x. split; [right; exact H1|split; assumption].
  - exact C.
  - lia.
  - intros x [H|H]; [subst x; rewrite K2; apply F; left; reflexivity|apply F; right; exact H].
Qed.

Lemma ex_ess l (P : Z * Z * Z * Z * bool -> Prop) :
  (exists t, In t (map ess l) /\ P t) <-> exists it, In it l /\ P (ess it).
Proof.
  split.
  - intros [t [H1 H2]]. apply in_map_iff in H1. destruct H1 as [it [<- H1]]. exists it. split; assumption.
  - intros [it [H1 H2]]. exists (ess it). split; [apply in_map; exact H1|exact H2].
Qed.

Lemma SInv_ess s :
  SInv s <->
  EInv (tabk s) (size s) (scost s) (map ess (items s)) /\ NoDup (tabk s) /\
  (forall h, hand s = Some h -> In h (keys (main s))) /\
  pcap s + mcap s = cap s /\ (1 <= pmin s /\ pmin s <= pcap s /\ pcap s <= pmax s /\ pmax s <= cap s) /\
  (lst s = [] /\ lfu s = []) /\ 1 <= cap s.
Proof.
  unfold SInv, items, EInv. split.
  - intros [A B C D F G H I J K L]. split; [|tauto].
    split; [rewrite <- keys_ess; exact A|]. split.
    { intros k. rewrite (C k). symmetry. exact (ex_ess _ (fun t => ekey t = k /\ eunpub t = false)). }
    rewrite map_length, app_length, Nat2Z.inj_add, <- costs_ess. split; [exact D|]. split; [exact F|].
    intros t X. apply in_map_iff in X. destruct X as [it [<- X]]. exact (G it X).
  - intros ((A & C & D & F & G) & B & H & I & J & K & L). constructor; try assumption.
    + rewrite <- keys_ess in A. exact A.
    + intros k. rewrite (C k). exact (ex_ess _ (fun t => ekey t = k /\ eunpub t = false)).
    + rewrite map_length, app_length, Nat2Z.inj_add in D. exact D.
    + rewrite costs_ess. exact F.
    + intros it X. apply (G (ess it)). apply in_map. exact X.
Qed.

(* Frame: the configuration; nothing on the write path but adapts moves pcap / mcap. Of the other relations between two
   states, Keep is what every primitive step but a drop preserves, Agree what the publication of the candidate preserves;
   Sub holds across any run of steps. *)
Definition Frame (s s' : shard) : Prop :=
  cap s' = cap s /\ costcap s' = costcap s /\ pcap s' = pcap s /\ mcap s' = mcap s /\
  pmin s' = pmin s /\ pmax s' = pmax s /\ lst s' = lst s /\ lfu s' = lfu s.

Lemma Frame_refl s : Frame s s.
Proof. unfold Frame. repeat split. Qed.
Lemma Frame_trans a b c : Frame a b -> Frame b c -> Frame a c.
Proof. unfold Frame. intros H1 H2. intuition congruence. Qed.

Definition HandOK (h : option Z) (m : list item) : Prop := forall x, h = Some x -> In x (keys m).

(* a change of the queues: only the essence-level clause has to be re-established *)
Lemma SInv_change s s' : SInv s -> Frame s s' -> NoDup (tabk s') -> HandOK (hand s') (main s') ->
  (EInv (tabk s) (size s) (scost s) (map ess (items s)) -> EInv (tabk s') (size s') (scost s') (map ess (items s'))) ->
  SInv s'.
Proof.
  intros I (F1 & F2 & F3 & F4 & F5 & F6 & F7 & F8) T H G. apply SInv_ess in I. apply SInv_ess.
  destruct I as (A & _ & _ & D). rewrite F1, F3, F4, F5, F6, F7, F8. exact (conj (G A) (conj T (conj H D))).
Qed.

Lemma SInv_tabnd s : SInv s -> NoDup (tabk s).
Proof. intros I. exact (iv_tabnd _ _ _ _ _ _ _ _ _ _ _ _ _ I). Qed.

Lemma SInv_transfer s s' :
  SInv s -> Frame s s' -> Permutation (map ess (items s)) (map ess (items s')) ->
  tabk s' = tabk s -> size s' = size s -> scost s' = scost s -> HandOK (hand s') (main s') -> SInv s'.
Proof.
  intros I F P T Zs C H. apply (SInv_change s s' I F); [rewrite T; exact (SInv_tabnd _ I)|exact H|].
  rewrite T, Zs, C. exact (EInv_perm P).
Qed.

Lemma SInv_transfer_drop s s' it :
  SInv s -> Frame s s' -> Permutation (map ess (items s)) (ess it :: map ess (items s')) ->
  tabk s' = (if unpub it then tabk s else remz (tabk s) (key it)) -> size s' = size s - 1 ->
  scost s' = scost s - cost it -> HandOK (hand s') (main s') -> SInv s'.
Proof.
  intros I F P T Zs C H. pose proof (SInv_tabnd _ I) as B. apply (SInv_change s s' I F); [|exact H|].
  - rewrite T. destruct (unpub it); [exact B|exact (remz_NoDup _ _ B)].
  - rewrite T, Zs, C. intros A. exact (EInv_drop _ _ _ _ _ B (EInv_perm P A)).
Qed.

Lemma nodup_keys_app_l p m : NoDup (keys (p ++ m)) -> NoDup (keys p).
Proof. unfold keys. rewrite map_app, nodup_app_iff. tauto. Qed.
Lemma nodup_keys_app_r p m : NoDup (keys (p ++ m)) -> NoDup (keys m).
Proof. unfold keys. rewrite map_app, nodup_app_iff. tauto. Qed.
Lemma nodup_keys_disj p m k : NoDup (keys (p ++ m)) -> In k (keys p) -> ~ In k (keys m).
Proof.
  unfold keys. rewrite map_app. induction (map key p) as [|x l IH]; cbn [app In]; intros ND H; [destruct H|].
  inversion ND as [|y l' Hy ND']; subst. destruct H as [->|H]; [|exact (IH ND' H)].
  intros A. apply Hy. apply in_or_app. right. exact A.
Qed.

Lemma replace_map {B} (f : item -> B) l it n : In it l -> NoDup (keys l) -> key n = key it -> f n = f it ->
  map f (replace_item l n) = map f l.
Proof.
  intros H ND K E. destruct (in_split_key _ _ H ND) as [l1 [l2 [-> [N1 N2]]]].
  rewrite (replace_item_app _ _ _ _ N1 K). rewrite !map_app. cbn [map]. rewrite E. reflexivity.
Qed.

Lemma replace_ess l it n : In it l -> NoDup (keys l) -> ess n = ess it ->
  map ess (replace_item l n) = map ess l.
Proof. intros H ND E. apply (replace_map ess l it n H ND); [unfold ess in E; congruence|exact E]. Qed.

Lemma replace_flags_ess l it r v : In it l -> NoDup (keys l) ->
  map ess (replace_item l (set_flags it r v (unpub it))) = map ess l.
Proof. intros H ND. exact (replace_ess l it (set_flags it r v (unpub it)) H ND eq_refl). Qed.

Lemma replace_keys l n : keys (replace_item l n) = keys l.
Proof.
  unfold keys. induction l as [|x l IH]; cbn [replace_item map]; [reflexivity|].
  destruct (key x =? key n) eqn:E; cbn [map]; f_equal; [lia|exact IH].
Qed.

Lemma replace_items p m n :
  replace_item (p ++ m) n = if has_key p (key n) then replace_item p n ++ m else p ++ replace_item m n.
Proof.
  unfold has_key. induction p as [|x p IH]; cbn [app replace_item find_item]; [reflexivity|].
  destruct (key x =? key n); [reflexivity|]. rewrite IH. destruct (find_item p (key n)); reflexivity.
Qed.

Lemma replace_both p m n : NoDup (keys (p ++ m)) -> replace_item p n ++ replace_item m n = replace_item (p ++ m) n.
Proof.
  intros ND. rewrite replace_items. destruct (has_key p (key n)) eqn:E.
  - apply has_key_true in E. rewrite (replace_item_notin m n (nodup_keys_disj _ _ _ ND E)). reflexivity.
  - apply has_key_false in E. rewrite (replace_item_notin p n E). reflexivity.
Qed.

Lemma replace_cases l n y : NoDup (keys l) -> In y (replace_item l n) -> y = n \/ (In y l /\ key y <> key n).
Proof.
  unfold keys. induction l as [|x l IH]; cbn [replace_item map In]; intros ND H; [destruct H|].
  inversion ND as [|a b Hx ND']; subst. destruct (key x =? key n) eqn:E; destruct H as [H|H].
  - left. symmetry. exact H.
  - right. split; [right; exact H|]. intros K. apply Hx. replace (key x) with (key y) by lia. apply in_map. exact H.
  - right. split; [left; exact H|]. rewrite <- H. lia.
  - destruct (IH ND' H) as [A|[A B]]; [left; exact A|right; split; [right; exact A|exact B]].
Qed.

Definition others (k : Z) (l : list item) : list item := filter (fun it => negb (key it =? k)) l.

Lemma others_all k l : (forall y, In y l -> key y <> k) -> others k l = l.
Proof.
  unfold others. induction l as [|x l IH]; cbn [filter]; intros H; [reflexivity|].
  destruct (key x =? k) eqn:E; [exfalso; apply (H x (or_introl eq_refl)); lia|]. cbn [negb].
  f_equal. apply IH. intros y Hy. apply H. right. exact Hy.
Qed.

Lemma others_notin k l : ~ In k (keys l) -> others k l = l.
Proof. intros N. apply others_all. intros y Hy E. apply N. rewrite <- E. unfold keys. apply in_map. exact Hy. Qed.

Lemma others_split k L1 p L2 : NoDup (keys (L1 ++ p :: L2)) -> key p = k -> others k (L1 ++ p :: L2) = L1 ++ L2.
Proof.
  intros ND K. unfold keys in ND. rewrite map_app in ND. cbn [map] in ND. pose proof (NoDup_remove_2 _ _ _ ND) as N.
  unfold others. rewrite filter_app. cbn [filter]. rewrite K, Z.eqb_refl. cbn [negb].
  fold (others k L1). fold (others k L2). rewrite !others_all; [reflexivity| |].
  - intros y Hy E. apply N. apply in_or_app. right. rewrite K, <- E. apply in_map. exact Hy.
  - intros y Hy E. apply N. apply in_or_app. left. rewrite K, <- E. apply in_map. exact Hy.
Qed.

Lemma others_perm l p : NoDup (keys l) -> In p l -> Permutation l (p :: others (key p) l).
Proof.
  intros ND H. destruct (in_split_key _ _ H ND) as [l1 [l2 [-> _]]].
  rewrite (others_split (key p) l1 p l2 ND eq_refl). apply Permutation_sym, Permutation_middle.
Qed.

Lemma replace_perm l x n : NoDup (keys l) -> In x l -> key n = key x ->
  Permutation (replace_item l n) (n :: others (key x) l).
Proof.
  intros ND H K. destruct (in_split_key _ _ H ND) as [l1 [l2 [-> [N1 _]]]].
  rewrite (replace_item_app _ _ _ _ N1 K), (others_split (key x) l1 x l2 ND eq_refl).
  apply Permutation_sym, Permutation_middle.
Qed.

Lemma remove_key_others l k : NoDup (keys l) -> remove_key l k = others k l.
Proof.
  unfold keys, others. induction l as [|x l IH]; cbn [remove_key filter map]; intros ND; [reflexivity|].
  inversion ND as [|a b Hx ND']; subst. destruct (key x =? k) eqn:E; cbn [negb]; [|f_equal; exact (IH ND')].
  symmetry. apply filter_all. intros y Hy. destruct (key y =? k) eqn:F; [|reflexivity].
  exfalso. apply Hx. replace (key x) with (key y) by lia. apply in_map. exact Hy.
Qed.

Lemma others_keys k l x : In x (keys l) -> x <> k -> In x (keys (others k l)).
Proof.
  unfold keys, others. intros H N. apply in_map_iff in H. destruct H as [y [<- Hy]]. apply in_map, filter_In.
  split; [exact Hy|]. apply negb_true_iff, Z.eqb_neq. exact N.
Qed.

Lemma sieve_unlink_spec s it :
  NoDup (keys (items s)) -> HandOK (hand s) (main s) -> In it (items s) ->
  exists p m h, sieve_unlink s (key it) = sh_lists s p m h /\
    Permutation (map ess (items s)) (ess it :: map ess (p ++ m)) /\ HandOK h m.
Proof.
  unfold items. intros ND HO H. unfold sieve_unlink.
  pose proof (nodup_keys_app_l _ _ ND) as NDp. pose proof (nodup_keys_app_r _ _ ND) as NDm.
  pose proof (Permutation_map ess (others_perm _ _ ND H)) as P. unfold others in P. rewrite filter_app in P.
  fold (others (key it) (prob s)) (others (key it) (main s)) in P.
  rewrite <- (remove_key_others _ _ NDp), <- (remove_key_others _ _ NDm) in P.
  destruct (has_key (main s) (key it)) eqn:HM.
  - apply has_key_true in HM.
    rewrite (remove_key_notin (prob s) (key it)) in P by (intros A; exact (nodup_keys_disj _ _ _ ND A HM)).
    eexists _, _, _. split; [reflexivity|]. split; [exact P|].
    intros x Hx. rewrite (remove_key_others _ _ NDm). destruct (hand s) as [hk|] eqn:HH; [|discriminate].
    destruct (hk =? key it) eqn:E.
    + apply prev_main_some in Hx. destruct Hx as [A B]. exact (others_keys _ _ _ A B).
    + injection Hx as <-. apply others_keys; [apply HO; reflexivity|lia].
  - apply has_key_false in HM. rewrite (remove_key_notin _ _ HM) in P.
    assert (HP : has_key (prob s) (key it) = true).
    { apply has_key_true. unfold keys. apply in_app_or in H. destruct H as [H|H]; [apply in_map; exact H|].
      exfalso. apply HM. unfold keys. apply in_map. exact H. }
    rewrite HP. eexists _, _, _. split; [reflexivity|]. split; [exact P|exact HO].
Qed.

Section Env.
Variable e : env.
Hypothesis Hpol : e_pol e = policySieve.

Lemma is_sieve_true s : 1 <= cap s -> is_sieve s (e_pol e) = true.
Proof. intros H. unfold is_sieve. rewrite Hpol, Z.eqb_refl. cbn [andb]. lia. Qed.

Definition final_reason (it : item) (r0 : Z) : Z := if unpub it && (r0 =? reasonCapacity) then reasonRejected else r0.
Definition notif_of (it : item) (r : Z) : list notif :=
  if mask_has (e_mask e) r then [{| nkey := key it; nval := val it; nreason := r |}] else [].

Lemma SInv_items_nodup s : SInv s -> NoDup (keys (items s)).
Proof. intros I. exact (iv_nodup _ _ _ _ _ _ _ _ _ _ _ _ _ I). Qed.
Lemma SInv_hand s : SInv s -> HandOK (hand s) (main s).
Proof. intros I. exact (iv_hand _ _ _ _ _ _ _ _ _ _ _ _ _ I). Qed.
Arguments SInv_hand {s}.
Lemma SInv_cap s : SInv s -> 1 <= cap s.
Proof. intros I. exact (iv_cap _ _ _ _ _ _ _ _ _ _ _ _ _ I). Qed.
Lemma SInv_tab s : SInv s -> forall k, In k (tabk s) <-> exists it, In it (items s) /\ key it = k /\ unpub it = false.
Proof. intros I. exact (iv_tab _ _ _ _ _ _ _ _ _ _ _ _ _ I). Qed.

Lemma drop_item_spec s it r0 :
  SInv s -> In it (items s) ->
  let r := final_reason it r0 in
  exists s', drop_item e s it r0 = (s', true, if e_stats e && (r =? reasonCapacity) then 1 else 0) /\
    Frame s s' /\ Permutation (map ess (items s)) (ess it :: map ess (items s')) /\
    tabk s' = (if unpub it then tabk s else remz (tabk s) (key it)) /\
    size s' = size s - 1 /\ scost s' = scost s - cost it /\ HandOK (hand s') (main s') /\
    glog s' = glog s ++ [(10 + r, key it, val it)] /\ nlog s' = nlog s ++ notif_of it r /\
    staged s' = staged s ++ notif_of it r /\ serr s' = serr s /\ evs s' = evs s.
Proof.
  intros I H r. unfold drop_item.
  assert (G : negb (unpub it) && negb (memz (tabk s) (key it)) = false).
  { destruct (unpub it) eqn:U; [reflexivity|]. cbn [negb andb].
    assert (M : memz (tabk s) (key it) = true).
    { apply memz_In. apply (SInv_tab _ I). exists it. repeat split; assumption. }
    rewrite M. reflexivity. }
  rewrite G, (is_sieve_true _ (SInv_cap _ I)).
  destruct (sieve_unlink_spec s it (SInv_items_nodup _ I) (SInv_hand I) H) as [p [m [h [E [P HO]]]]].
  rewrite E. fold (final_reason it r0). fold r.
  assert (NS : forall l, (if mask_has (e_mask e) r then l ++ [{| nkey := key it; nval := val it; nreason := r |}] else l)
                         = l ++ notif_of it r).
  { intros l. unfold notif_of. destruct (mask_has (e_mask e) r); [reflexivity|symmetry; apply app_nil_r]. }
  eexists. split; [reflexivity|]. fields. rewrite NS. fold (notif_of it r). unfold Frame, items. fields.
  repeat split; try reflexivity; [exact P|exact HO].
Qed.

(* The error codes the write path can record in serr (the first one sticks, sh_err): pop_ev raises 100 + kind on an
   event of another kind and 200 + kind on an empty stream, apply_adapts 301 on a probation cap outside [pmin, pmax],
   force_loop 305 when its fuel is spent. The kinds popped here are 1..3 (evGhost, evKeep, evAdmit), so 100, 104, 200
   and 204 are slack. ErrOK fl a b: serr went from a to b, and 305 may only have appeared if fl = true. *)
Definition code (c : Z) : Prop := 100 <= c <= 104 \/ 200 <= c <= 204 \/ c = 301.
Definition ErrOK (fl : bool) (a b : Z) : Prop := a = b \/ (a = 0 /\ (code b \/ (fl = true /\ b = 305))).

Lemma ErrOK_refl fl a : ErrOK fl a a.
Proof. left. reflexivity. Qed.
Lemma ErrOK_trans fl a b c : ErrOK fl a b -> ErrOK fl b c -> ErrOK fl a c.
Proof.
  unfold ErrOK, code. intros [->|[-> H1]] [->|[E H2]]; auto.
Qed.
Arguments ErrOK_trans {fl a b c}.
Lemma ErrOK_err fl s c : code c \/ (fl = true /\ c = 305) -> ErrOK fl (serr s) (serr (sh_err s c)).
Proof.
  intros H. unfold ErrOK. fields. destruct (serr s =? 0) eqn:E; [right; split; [lia|exact H]|left; reflexivity].
Qed.

(* step fl s s' d n: one primitive change from s to s'; d is what it adds to the evictions counter the write returns, n the
   number of items it drops (0 or 1). The flag fl says whether running out of fuel (st_fuel, error 305) counts as a step;
   a run with fl = false needs the fuel shown sufficient (force_loop_steps). *)
Inductive step (fl : bool) : shard -> shard -> Z -> nat -> Prop :=
| st_evs s ev pe : step fl s (sh_evs s ev pe) 0 0
| st_err s c : code c -> step fl s (sh_err s c) 0 0
| st_fuel s : fl = true -> step fl s (sh_err s 305) 0 0
| st_stats s a r g p pe me : step fl s (sh_stats s a r g p pe me) 0 0
| st_hand s h : HandOK h (main s) -> step fl s (set_hand s h) 0 0
| st_fprob s it r v : In it (prob s) ->
    step fl s (sh_lists s (replace_item (prob s) (set_flags it r v (unpub it))) (main s) (hand s)) 0 0
| st_fmain s it r v : In it (main s) ->
    step fl s (sh_lists s (prob s) (replace_item (main s) (set_flags it r v (unpub it))) (hand s)) 0 0
| st_promote s it : In it (prob s) -> step fl s (promote s it) 0 0
| st_drop s it r0 s' d : In it (items s) -> (r0 = reasonCapacity \/ r0 = reasonRejected) ->
    drop_item e s it r0 = (s', true, d) -> step fl s s' d 1.

Definition Keep (s s' : shard) : Prop :=
  Frame s s' /\ Permutation (map ess (items s)) (map ess (items s')) /\ tabk s' = tabk s /\
  size s' = size s /\ scost s' = scost s /\ glog s' = glog s /\ nlog s' = nlog s /\ staged s' = staged s.

Lemma Keep_refl s : Keep s s.
Proof. unfold Keep. repeat split; try reflexivity. Qed.

Lemma promote_spec s it : SInv s -> In it (prob s) ->
  Keep s (promote s it) /\ HandOK (hand (promote s it)) (main (promote s it)) /\ serr (promote s it) = serr s.
Proof.
  intros I H. unfold promote.
  destruct (has_key (prob s) (key it) && (0 <? mcap s)) eqn:G.
  - fields. unfold Keep, Frame, items. fields. repeat split; try reflexivity.
    + pose proof (SInv_items_nodup _ I) as ND. unfold items in ND.
      pose proof (others_perm _ _ (nodup_keys_app_l _ _ ND) H) as P.
      rewrite <- (remove_key_others _ _ (nodup_keys_app_l _ _ ND)) in P.
      rewrite !map_app. cbn [map].
      eapply Permutation_trans; [apply Permutation_app_tail; exact (Permutation_map ess P)|].
      cbn [map app]. apply Permutation_middle.
    + intros x Hx. unfold keys. cbn [map key set_flags]. destruct (hand s) as [hk|] eqn:HH.
      * right. injection Hx as <-. apply (SInv_hand I). exact HH.
      * left. congruence.
  - split; [apply Keep_refl|]. split; [exact (SInv_hand I)|reflexivity].
Qed.

Lemma step_cases fl s s' d n : step fl s s' d n -> SInv s ->
  (n = 0%nat /\ d = 0 /\ Keep s s' /\ HandOK (hand s') (main s') /\ ErrOK fl (serr s) (serr s')) \/
  (n = 1%nat /\ exists it r0, In it (items s) /\ (r0 = reasonCapacity \/ r0 = reasonRejected) /\
                            drop_item e s it r0 = (s', true, d)).
Proof.
  intros S I. pose proof (SInv_hand I) as HS. destruct S.
  (* the first five steps leave the queues, the table and the logs as they are *)
  1-5: left; repeat split; try reflexivity; try assumption.
  - apply ErrOK_refl.
  - apply ErrOK_err. left. assumption.
  - apply ErrOK_err. right. split; [assumption|reflexivity].
  - apply ErrOK_refl.
  - apply ErrOK_refl.
  - left. pose proof (SInv_items_nodup _ I) as ND. unfold items in ND.
    repeat split; try reflexivity; fields; [|exact (SInv_hand I)|apply ErrOK_refl].
    unfold items. fields. rewrite !map_app.
    rewrite (replace_ess _ it (set_flags it r v (unpub it)) H (nodup_keys_app_l _ _ ND) eq_refl). reflexivity.
  - left. pose proof (SInv_items_nodup _ I) as ND. unfold items in ND.
    repeat split; try reflexivity; fields; [| |apply ErrOK_refl].
    + unfold items. fields. rewrite !map_app.
      rewrite (replace_ess _ it (set_flags it r v (unpub it)) H (nodup_keys_app_r _ _ ND) eq_refl). reflexivity.
    + intros x Hx. rewrite replace_keys.
      exact (SInv_hand I x Hx).
  - left. destruct (promote_spec s it I H) as [K [HO E]]. repeat split; try apply K; try exact HO.
    rewrite E. apply ErrOK_refl.
  - right. split; [reflexivity|]. exists it, r0. repeat split; assumption.
Qed.

Lemma step_SInv fl s s' d n : step fl s s' d n -> SInv s -> SInv s'.
Proof.
  intros S I. destruct (step_cases _ _ _ _ _ S I) as [(_ & _ & K & HO & _)|(_ & it & r0 & H & _ & D)].
  - destruct K as (F & P & T & Z1 & C & _). exact (SInv_transfer _ _ I F P T Z1 C HO).
  - destruct (drop_item_spec s it r0 I H) as [s2 (D' & F & P & T & Z1 & C & HO & _)].
    rewrite D in D'. injection D' as <- _. exact (SInv_transfer_drop _ _ it I F P T Z1 C HO).
Qed.
Arguments step_SInv {fl s s' d n}.

Inductive steps (fl : bool) : shard -> shard -> Z -> nat -> Prop :=
| steps_refl s : steps fl s s 0 0
| steps_cons s1 s2 s3 d1 d2 n1 n2 : step fl s1 s2 d1 n1 -> steps fl s2 s3 d2 n2 ->
    steps fl s1 s3 (d1 + d2) (n1 + n2).

Lemma steps_eq fl s s' d n d' n' : steps fl s s' d n -> d = d' -> n = n' -> steps fl s s' d' n'.
Proof. intros H -> ->. exact H. Qed.

Lemma steps_one fl s s' d n : step fl s s' d n -> steps fl s s' d n.
Proof.
  intros H. eapply steps_eq; [exact (steps_cons _ _ _ _ _ _ _ _ H (steps_refl _ _))|lia|lia].
Qed.
Arguments steps_one {fl s s' d n}.

Lemma steps_trans fl s1 s2 s3 d1 d2 n1 n2 : steps fl s1 s2 d1 n1 -> steps fl s2 s3 d2 n2 ->
  steps fl s1 s3 (d1 + d2) (n1 + n2).
Proof.
  intros H. revert s3 d2 n2. induction H as [s|a b c e1 e2 m1 m2 S _ IH]; intros s3 d2 n2 H2.
  - exact H2.
  - eapply steps_eq; [exact (steps_cons _ _ _ _ _ _ _ _ S (IH _ _ _ H2))|lia|lia].
Qed.
Arguments steps_trans {fl s1 s2 s3 d1 d2 n1 n2}.

(* composition when the totals are only equal, not convertible, to the sums *)
Lemma steps_comp fl s1 s2 s3 d1 d2 n1 n2 d n : steps fl s1 s2 d1 n1 -> steps fl s2 s3 d2 n2 ->
  d1 + d2 = d -> (n1 + n2)%nat = n -> steps fl s1 s3 d n.
Proof. intros H1 H2 <- <-. exact (steps_trans H1 H2). Qed.

Lemma steps_SInv fl s s' d n : steps fl s s' d n -> SInv s -> SInv s'.
Proof. induction 1 as [s|a b c e1 e2 m1 m2 S _ IH]; intros I; [exact I|]. exact (IH (step_SInv S I)). Qed.
Arguments steps_SInv {fl s s' d n}.

Lemma step_weaken fl fl' s s' d n : (fl = true -> fl' = true) -> step fl s s' d n -> step fl' s s' d n.
Proof.
  intros W S. destruct S; try (constructor; assumption).
  - apply st_fuel. auto.
  - eapply st_drop; eassumption.
Qed.
Lemma steps_weaken fl fl' s s' d n : (fl = true -> fl' = true) -> steps fl s s' d n -> steps fl' s s' d n.
Proof. intros W. induction 1; [constructor|]. econstructor; [eapply step_weaken; eassumption|assumption]. Qed.
Lemma steps_mono fl s s' d n : steps fl s s' d n -> steps true s s' d n.
Proof. apply steps_weaken. reflexivity. Qed.

(* A run is summarised by the list dl of the (item, reason) pairs it dropped, in order. dent: the drop record glog gets
   (tag 10 + reason); dnots: the notifications staged under the mask; dcount: the drops that count as evictions
   (reason capacity); reason_ok: a drop on the write path has reason capacity or rejected, and rejected exactly for an
   unpublished item. Sum fl s s' d n: s' is s minus the n dropped items, with logs, counters and error state to match. *)
Definition dent (p : item * Z) : Z * Z * Z := (10 + snd p, key (fst p), val (fst p)).
Definition dnots (dl : list (item * Z)) : list notif := flat_map (fun p => notif_of (fst p) (snd p)) dl.
Definition dcount (dl : list (item * Z)) : Z := Z.of_nat (length (filter (fun p => snd p =? reasonCapacity) dl)).
Definition reason_ok (p : item * Z) : Prop :=
  (snd p = reasonCapacity \/ snd p = reasonRejected) /\ (unpub (fst p) = true -> snd p = reasonRejected) /\
  (snd p = reasonCapacity -> unpub (fst p) = false).

Definition Sum (fl : bool) (s s' : shard) (d : Z) (n : nat) : Prop :=
  exists dl, length dl = n /\ Frame s s' /\
    Permutation (map ess (items s)) (map ess (map fst dl) ++ map ess (items s')) /\
    size s' = size s - Z.of_nat n /\
    glog s' = glog s ++ map dent dl /\ nlog s' = nlog s ++ dnots dl /\ staged s' = staged s ++ dnots dl /\
    Forall reason_ok dl /\ d = (if e_stats e then dcount dl else 0) /\ ErrOK fl (serr s) (serr s') /\
    scost s' = scost s - sumZ (map cost (map fst dl)).

Lemma final_reason_ok it r0 : r0 = reasonCapacity \/ r0 = reasonRejected -> reason_ok (it, final_reason it r0).
Proof.
  unfold reason_ok, final_reason, reasonCapacity, reasonRejected. cbn [fst snd]. intros [->| ->]; destruct (unpub it); cbn.
  - split; [right; reflexivity|]. split; [reflexivity|discriminate].
  - split; [left; reflexivity|]. split; [discriminate|reflexivity].
  - split; [right; reflexivity|]. split; [reflexivity|discriminate].
  - split; [right; reflexivity|]. split; [discriminate|discriminate].
Qed.

Lemma steps_sum fl s s' d n : steps fl s s' d n -> SInv s -> SInv s' /\ Sum fl s s' d n.
Proof.
  induction 1 as [s|s1 s2 s3 d1 d2 n1 n2 S SS IH]; intros I.
  - split; [exact I|]. exists []. cbn [length map app dnots flat_map]. rewrite !app_nil_r.
    repeat split; try reflexivity; try apply Frame_refl; try constructor.
    + lia.
    + unfold dcount. cbn. destruct (e_stats e); reflexivity.
    + reflexivity.
    + cbn. lia.
  - pose proof (step_SInv S I) as I2. destruct (IH I2) as [I3 [dl (L & F & P & Z1 & G & N & T & R & D & E & C3)]].
    split; [exact I3|].
    destruct (step_cases _ _ _ _ _ S I) as [(-> & -> & K & HO & E1)|(-> & it & r0 & H & R0 & Dr)].
    + destruct K as (F1 & P1 & T1 & Z2 & C1 & G1 & N1 & S1).
      exists dl. split; [exact L|]. split; [exact (Frame_trans _ _ _ F1 F)|].
      split; [exact (Permutation_trans P1 P)|]. split; [lia|].
      rewrite G, N, T, G1, N1, S1. repeat split; try assumption; try lia.
      exact (ErrOK_trans E1 E).
    + destruct (drop_item_spec s1 it r0 I H) as [s2' (D' & F1 & P1 & T1 & Z2 & C1 & HO & G1 & N1 & S1 & E1 & _)].
      rewrite Dr in D'. injection D' as <- Dd.
      exists ((it, final_reason it r0) :: dl). split; [cbn [length]; lia|].
      split; [exact (Frame_trans _ _ _ F1 F)|].
      split; [cbn [map fst app]; exact (Permutation_trans P1 (perm_skip _ P))|].
      split; [lia|].
      rewrite G, N, T, G1, N1, S1, <- !app_assoc. cbn [map dent app dnots flat_map fst snd].
      do 3 (split; [reflexivity|]).
      split; [constructor; [exact (final_reason_ok _ _ R0)|exact R]|].
      split; [|split; [rewrite <- E1; exact E|cbn [map fst sumZ]; lia]].
      rewrite Dd, D. unfold dcount. cbn [filter snd].
      destruct (e_stats e); cbn [andb]; [|reflexivity].
      destruct (final_reason it r0 =? reasonCapacity); cbn [length]; lia.
Qed.
Arguments steps_sum {fl s s' d n}.

Lemma pop_ev_cases s kind s' a : 0 <= kind <= 4 -> pop_ev s kind = (s', a) ->
  (exists r, s' = sh_evs s r (pend s)) \/ exists c, code c /\ s' = sh_err s c.
Proof.
  intros K. unfold pop_ev. destruct (evs s) as [|[k x] r]; [|destruct (k =? kind)];
    intros H; apply pair_equal_spec in H; destruct H as [<- _].
  - right. exists (200 + kind). split; [unfold code; lia|reflexivity].
  - left. exists r. reflexivity.
  - right. exists (100 + kind). split; [unfold code; lia|reflexivity].
Qed.

Lemma pop_ev_step fl s kind s' a : 0 <= kind <= 4 -> pop_ev s kind = (s', a) -> step fl s s' 0 0.
Proof.
  intros K H. destruct (pop_ev_cases _ _ _ _ K H) as [[r ->]|[c [C ->]]]; [apply st_evs|exact (st_err _ _ _ C)].
Qed.

Theorem main_candidate_spec s c it : main_candidate s c = Some it -> In it (main s).
Proof.
  unfold main_candidate. destruct c as [k|].
  - destruct (find_item (main s) k) as [x|] eqn:E.
    + intros H. injection H as <-. exact (proj1 (find_item_some _ _ _ E)).
    + apply last_item_In.
  - apply last_item_In.
Qed.

Lemma main_candidate_none s c : main_candidate s c = None -> main s = [].
Proof.
  unfold main_candidate. destruct c as [k|]; [|apply last_item_None].
  destruct (find_item (main s) k); [discriminate|apply last_item_None].
Qed.

Lemma find_item_app_l p m k it : find_item p k = Some it -> find_item (p ++ m) k = Some it.
Proof.
  induction p as [|x p IH]; cbn [find_item app]; [discriminate|]. destruct (key x =? k); [trivial|exact IH].
Qed.
Lemma find_item_app_r p m k : find_item p k = None -> find_item (p ++ m) k = find_item m k.
Proof.
  induction p as [|x p IH]; cbn [find_item app]; [reflexivity|]. destruct (key x =? k); [discriminate|exact IH].
Qed.
Lemma find_q_items s k : find_q s k = find_item (items s) k.
Proof.
  unfold find_q, items. destruct (find_item (prob s) k) as [it|] eqn:E.
  - symmetry. exact (find_item_app_l _ _ _ _ E).
  - symmetry. exact (find_item_app_r _ _ _ E).
Qed.
Lemma find_q_in s k it : find_q s k = Some it -> In it (items s) /\ key it = k.
Proof. rewrite find_q_items. apply find_item_some. Qed.

Lemma prev_main_handok m k : HandOK (prev_main m k) m.
Proof. intros x H. exact (proj1 (prev_main_some _ _ _ H)). Qed.

Lemma find_victim_steps fl n : forall s c force s' v,
  SInv s -> HandOK c (main s) -> find_victim n s c force = (s', v) ->
  steps fl s s' 0 0 /\ prob s' = prob s /\ keys (main s') = keys (main s) /\
  (forall vk, v = Some vk -> In vk (keys (main s'))) /\
  (force = true -> main s <> [] -> v <> None).
Proof.
  induction n as [|n IH]; intros s c force s' v I HC; cbn [find_victim].
  - destruct force.
    + destruct (main_candidate s c) as [it|] eqn:MC; intros H; injection H as <- <-.
      * split; [apply steps_one, st_hand, prev_main_handok|]. fields.
        repeat split; try reflexivity; try discriminate.
        intros vk H. injection H as <-. unfold keys. apply in_map. exact (main_candidate_spec _ _ _ MC).
      * split; [apply steps_refl|]. repeat split; try reflexivity; try discriminate.
        intros _ H. exfalso. exact (H (main_candidate_none _ _ MC)).
    + intros H; injection H as <- <-. split; [apply steps_one, st_hand, HC|]. fields.
      repeat split; try reflexivity; discriminate.
  - destruct (main_candidate s c) as [it|] eqn:MC.
    + pose proof (main_candidate_spec _ _ _ MC) as Hin.
      destruct (visited it) eqn:V.
      * set (r := if 0 <? reuse it then reuse it - 1 else reuse it).
        set (s1 := sh_lists s (prob s) (replace_item (main s) (set_flags it r false (unpub it))) (hand s)).
        assert (S1 : step fl s s1 0 0) by (apply st_fmain; exact Hin).
        pose proof (step_SInv S1 I) as I1. intros H.
        destruct (IH s1 _ force s' v I1 (prev_main_handok _ _) H) as (A & B & C & D & F).
        assert (K1 : keys (main s1) = keys (main s)) by (unfold s1; fields; apply replace_keys).
        split; [exact (steps_cons _ _ _ _ _ _ _ _ S1 A)|].
        split; [exact B|]. split; [rewrite C; exact K1|]. split; [exact D|].
        intros Hf Hm. apply (F Hf). intros Hm1. rewrite Hm1 in K1. cbn in K1. apply Hm.
        unfold keys in K1. symmetry in K1. exact (map_eq_nil _ _ K1).
      * intros H; injection H as <- <-. split; [apply steps_one, st_hand, prev_main_handok|]. fields.
        repeat split; try reflexivity; try discriminate.
        intros vk H. injection H as <-. unfold keys. apply in_map. exact Hin.
    + intros H; injection H as <- <-. split; [apply steps_refl|]. repeat split; try reflexivity; try discriminate.
      intros _ H. exfalso. exact (H (main_candidate_none _ _ MC)).
Qed.

Lemma find_main_victim_steps fl s scan force s' v :
  SInv s -> find_main_victim s scan force = (s', v) ->
  steps fl s s' 0 0 /\ prob s' = prob s /\ keys (main s') = keys (main s) /\
  (forall vk, v = Some vk -> In vk (keys (main s'))) /\
  (force = true -> main s <> [] -> v <> None).
Proof.
  intros I. unfold find_main_victim. destruct (main s) as [|x m] eqn:M.
  - intros H; injection H as <- <-. split; [apply steps_refl|]. rewrite M.
    repeat split; try reflexivity; try discriminate. intros _ H; congruence.
  - rewrite <- M. apply find_victim_steps; [exact I|exact (SInv_hand I)].
Qed.

(* the last clause serves the callers that bump the statistics after the drop *)
Lemma drop_found fl s it r0 : SInv s -> In it (items s) -> r0 = reasonCapacity \/ r0 = reasonRejected ->
  exists s' d, drop_item e s it r0 = (s', true, d) /\ steps fl s s' d 1 /\
               forall a b c f, steps fl s (bump s' a b c f) d 1.
Proof.
  intros I H R. destruct (drop_item_spec s it r0 I H) as [s' [D _]].
  assert (S : steps fl s s' _ 1) by (apply steps_one; eapply st_drop; eassumption).
  eexists _, _. split; [exact D|]. split; [exact S|]. intros a b c f.
  eapply steps_comp; [exact S|exact (steps_one (st_stats _ _ _ _ _ _ _ _))|lia|lia].
Qed.

Lemma drop_prob_victim_steps fl s it s' ok d : SInv s -> In it (items s) ->
  drop_prob_victim e s it = (s', ok, d) -> ok = true /\ steps fl s s' d 1.
Proof.
  intros I H. unfold drop_prob_victim.
  destruct (drop_found fl s it reasonCapacity I H (or_introl eq_refl)) as [s1 [d1 (D & _ & S)]]. rewrite D.
  intros E; injection E as <- <- <-. split; [reflexivity|apply S].
Qed.

Lemma evict_probation_steps fl s s' p d : SInv s -> evict_probation e s = (s', p, d) ->
  exists n, steps fl s s' d n /\ (n <= 1)%nat.
Proof.
  intros I. unfold evict_probation. destruct (last_item (prob s)) as [it|] eqn:L.
  - pose proof (last_item_In _ _ L) as Hin.
    destruct ((probationPromotionReuse <=? reuse it) || visited it).
    + intros H; injection H as <- <- <-. exists 0%nat. split; [apply steps_one, st_promote, Hin|lia].
    + destruct (drop_prob_victim e s it) as [[s1 ok] d1] eqn:D. intros H; injection H as <- <- <-.
      assert (Hi : In it (items s)) by (unfold items; apply in_or_app; left; exact Hin).
      destruct (drop_prob_victim_steps fl _ _ _ _ _ I Hi D) as [_ S]. exists 1%nat. split; [exact S|lia].
  - intros H; injection H as <- <- <-. exists 0%nat. split; [apply steps_refl|lia].
Qed.

Lemma find_drop fl s s2 k it r0 : SInv s -> steps fl s s2 0 0 -> find_q s2 k = Some it ->
  r0 = reasonCapacity \/ r0 = reasonRejected ->
  exists s3 d3, drop_item e s2 it r0 = (s3, true, d3) /\ steps fl s s3 d3 1 /\
                forall a b c f, steps fl s (bump s3 a b c f) d3 1.
Proof.
  intros I S2 FQ R.
  destruct (drop_found fl s2 it r0 (steps_SInv S2 I) (proj1 (find_q_in _ _ _ FQ)) R) as [s3 [d3 (D & S & SB)]].
  exists s3, d3. split; [exact D|]. split; [exact (steps_trans S2 S)|].
  intros a b c f. exact (steps_trans S2 (SB a b c f)).
Qed.

Lemma evict_main_steps fl s inn tie scan force s' ok d : SInv s ->
  evict_main e s inn tie scan force = (s', ok, d) -> exists n, steps fl s s' d n /\ (n <= 1)%nat.
Proof.
  intros I. unfold evict_main.
  generalize (match inn with Some k => if owns s k then Some k else None | None => None end). intros inn'.
  destruct (find_main_victim s scan force) as [s1 v] eqn:FV.
  destruct (find_main_victim_steps fl _ _ _ _ _ I FV) as (S1 & _).
  (* from a state s2 reached without a drop, the exits are: nothing (NODROP), or find_q and one drop (find_drop) *)
  assert (NODROP : forall s2 b, steps fl s s2 0 0 -> (s2, b, 0) = (s', ok, d) ->
                   exists n, steps fl s s' d n /\ (n <= 1)%nat).
  { intros s2 b S2 H. injection H as <- <- <-. exists 0%nat. split; [exact S2|lia]. }
  destruct v as [vk|]; cbv zeta.
  - destruct (match inn' with
              | Some k => if k =? vk then (s1, true) else
                            let '(s2, a) := pop_ev s1 evAdmit in
                            (s2, match a with Some x => negb (x =? 0) | None => true end)
              | None => (s1, true)
              end) as [s2 adm] eqn:DEC.
    assert (S2 : steps fl s s2 0 0).
    { destruct inn' as [k|]; [destruct (k =? vk)|]; try (injection DEC as <- _; exact S1).
      destruct (pop_ev s1 evAdmit) as [s2' a] eqn:PE. injection DEC as <- _.
      refine (steps_comp _ _ _ _ _ _ _ _ _ _ S1 (steps_one (pop_ev_step fl _ _ _ _ _ PE)) eq_refl eq_refl).
      unfold evAdmit. lia. }
    destruct (negb adm).
    + destruct inn' as [k|]; [|exact (NODROP _ _ S2)].
      destruct (find_q s2 k) as [it|] eqn:FQ; [|exact (NODROP _ _ S2)].
      destruct (find_drop fl s s2 k it reasonRejected I S2 FQ (or_intror eq_refl)) as [s3 [d3 (D & S & _)]]. rewrite D.
      intros H; injection H as <- <- <-. exists 1%nat. split; [exact S|lia].
    + destruct (find_q s2 vk) as [it|] eqn:FQ; [|exact (NODROP _ _ S2)].
      destruct (find_drop fl s s2 vk it reasonCapacity I S2 FQ (or_introl eq_refl)) as [s3 [d3 (D & _ & S)]]. rewrite D.
      intros H; injection H as <- <- <-. exists 1%nat. split; [apply S|lia].
  - destruct inn' as [k|]; [destruct force|]; try exact (NODROP _ _ S1).
    destruct (find_q s1 k) as [it|] eqn:FQ; [|exact (NODROP _ _ S1)].
    destruct (find_drop fl s s1 k it reasonRejected I S1 FQ (or_intror eq_refl)) as [s3 [d3 (D & S & _)]]. rewrite D.
    intros H; injection H as <- <- <-. exists 1%nat. split; [exact S|lia].
Qed.

Lemma force_evict_steps fl s s' ok d : SInv s -> force_evict e s = (s', ok, d) ->
  exists n, steps fl s s' d n /\ (n <= 1)%nat /\ (items s <> [] -> ok = true /\ n = 1%nat).
Proof.
  intros I. unfold force_evict. destruct (last_item (prob s)) as [it|] eqn:L.
  - intros H. assert (Hi : In it (items s)) by (unfold items; apply in_or_app; left; exact (last_item_In _ _ L)).
    destruct (drop_prob_victim_steps fl _ _ _ _ _ I Hi H) as [-> S]. exists 1%nat. split; [exact S|]. split; [lia|]. split; reflexivity.
  - pose proof (last_item_None _ L) as P0. destruct (main s) as [|x m] eqn:M.
    + intros H; injection H as <- <- <-. exists 0%nat. split; [apply steps_refl|]. split; [lia|].
      intros N. exfalso. apply N. unfold items. rewrite P0, M. reflexivity.
    + destruct (find_main_victim s 1 true) as [s1 v] eqn:FV.
      destruct (find_main_victim_steps fl _ _ _ _ _ I FV) as (S1 & P1 & K1 & V1 & V2).
      pose proof (steps_SInv S1 I) as I1.
      destruct v as [vk|]; [|exfalso; apply (V2 eq_refl); [rewrite M; discriminate|reflexivity]].
      assert (FQ : exists it, find_q s1 vk = Some it).
      { unfold find_q. rewrite P1, P0. cbn [find_item]. apply find_item_In_key. apply V1. reflexivity. }
      destruct FQ as [it FQ]. rewrite FQ.
      destruct (drop_found fl s1 it reasonCapacity I1 (proj1 (find_q_in _ _ _ FQ)) (or_introl eq_refl)) as [s3 [d3 (D & _ & S)]].
      rewrite D. intros H; injection H as <- <- <-. exists 1%nat.
      split; [exact (steps_trans S1 (S _ _ _ _))|split; [lia|split; reflexivity]].
Qed.

Lemma steps_pres fl s s' d n : steps fl s s' d n -> SInv s ->
  SInv s' /\ Frame s s' /\ size s' = size s - Z.of_nat n /\ (length (items s) = n + length (items s'))%nat /\ Sub s s'.
Proof.
  intros S I. destruct (steps_sum S I) as [I' [dl (L & F & P & Z1 & _)]].
  split; [exact I'|]. split; [exact F|]. split; [exact Z1|]. split; [|exact (Sub_perm _ _ _ P)].
  apply Permutation_length in P. rewrite app_length, !map_length, L in P. exact P.
Qed.
Arguments steps_pres {fl s s' d n}.

(* n: the number of drops of a run from s *)
Definition Bnd (s : shard) (n : nat) : Prop := costcap s <= 0 -> Z.of_nat n <= Z.max 0 (size s - cap s).

Lemma Bnd_zero s : Bnd s 0.
Proof. unfold Bnd. lia. Qed.

Lemma Bnd_one s n : over_capacity s = true -> (n <= 1)%nat -> Bnd s n.
Proof. unfold Bnd, over_capacity. lia. Qed.

Lemma Bnd_combine fl s s1 d1 n1 n2 : SInv s -> steps fl s s1 d1 n1 -> Bnd s n1 -> Bnd s1 n2 -> Bnd s (n1 + n2).
Proof.
  unfold Bnd. intros I S1 B1 B2 C. destruct (steps_pres S1 I) as (_ & F & Z1 & _).
  destruct F as (F1 & F2 & _). rewrite F1, F2, Z1 in B2. specialize (B1 C). specialize (B2 C). lia.
Qed.
Arguments Bnd_combine {fl s s1 d1 n1 n2}.

Lemma Bnd_round fl s s1 d1 n1 n2 : SInv s -> over_capacity s = true -> steps fl s s1 d1 n1 -> (n1 <= 1)%nat ->
  Bnd s1 n2 -> Bnd s (n1 + n2).
Proof. intros I O S1 L. exact (Bnd_combine I S1 (Bnd_one _ _ O L)). Qed.
Arguments Bnd_round {fl s s1 d1 n1 n2}.

Lemma enforce_loop_steps fl w : forall s inn tie acc s' inn' tie' a',
  SInv s -> enforce_loop w e s inn tie acc = (s', inn', tie', a') ->
  exists d n, steps fl s s' d n /\ a' = acc + d /\ Bnd s n.
Proof.
  induction w as [|w IH]; intros s inn tie acc s' inn' tie' a' I; cbn [enforce_loop].
  - intros H; injection H as <- _ _ <-. exists 0, 0%nat. split; [apply steps_refl|]. split; [lia|apply Bnd_zero].
  - destruct (over_capacity s) eqn:OC; cbn [negb].
    2:{ intros H; injection H as <- _ _ <-. exists 0, 0%nat. split; [apply steps_refl|]. split; [lia|apply Bnd_zero]. }
    assert (G : forall s1 d1 n1 inn1 tie1, steps fl s s1 d1 n1 -> (n1 <= 1)%nat ->
                 enforce_loop w e s1 inn1 tie1 (acc + d1) = (s', inn', tie', a') ->
                 exists d n, steps fl s s' d n /\ a' = acc + d /\ Bnd s n).
    { intros s1 d1 n1 inn1 tie1 S1 L1 H.
      destruct (IH _ _ _ _ _ _ _ _ (steps_SInv S1 I) H) as [d2 [n2 (S2 & A & B)]].
      exists (d1 + d2), (n1 + n2)%nat. split; [exact (steps_trans S1 S2)|].
      split; [lia|exact (Bnd_round I OC S1 L1 B)]. }
    destruct ((pcap s <? zlen (prob s)) && negb (zlen (prob s) =? 0)).
    { destruct (evict_probation e s) as [[s1 p] d1] eqn:EP.
      destruct (evict_probation_steps fl _ _ _ _ I EP) as [n1 (S1 & L1)].
      destruct p as [k|]; intros H; exact (G _ _ _ _ _ S1 L1 H). }
    destruct (negb (zlen (main s) =? 0)).
    { destruct (pop_ev s evKeep) as [s0 a] eqn:PE. cbv beta iota.
      assert (S0 : step fl s s0 0 0) by (refine (pop_ev_step fl _ _ _ _ _ PE); unfold evKeep; lia).
      (* whether the candidate is kept is an oracle answer; the walk is the same for both *)
      assert (K : exists keep, (if in_probation_below_cap s inn
                                then (s0, match a with Some x => negb (x =? 0) | None => false end)
                                else (s0, false)) = (s0, keep))
        by (destruct (in_probation_below_cap s inn); eexists; reflexivity).
      destruct K as [keep ->]. cbv beta iota.
      destruct (evict_main e s0 (if keep then None else inn) (if keep then false else tie) defaultMainVictimScan false)
        as [[s1 ok] d1] eqn:EM.
      destruct (evict_main_steps fl _ _ _ _ _ _ _ _ (step_SInv S0 I) EM) as [n1 [S1 L1]].
      pose proof (steps_cons _ _ _ _ _ _ _ _ S0 S1) as S01.
      destruct ok; intros H; exact (G _ _ _ _ _ S01 L1 H). }
    destruct (negb (zlen (prob s) =? 0)).
    { destruct (evict_probation e s) as [[s1 p] d1] eqn:EP.
      destruct (evict_probation_steps fl _ _ _ _ I EP) as [n1 (S1 & L1)].
      destruct p as [k|]; intros H; exact (G _ _ _ _ _ S1 L1 H). }
    intros H; injection H as <- _ _ <-. exists 0, 0%nat. split; [apply steps_refl|]. split; [lia|apply Bnd_zero].
Qed.

Lemma nodup_all_eq (l : list Z) k : NoDup l -> (forall x, In x l -> x = k) -> (length l <= 1)%nat.
Proof.
  intros ND H. destruct l as [|a [|b r]]; cbn [length]; try lia.
  exfalso. inversion ND as [|x l Hx _]; subst. apply Hx.
  rewrite (H a (or_introl eq_refl)), (H b (or_intror (or_introl eq_refl))). left. reflexivity.
Qed.

Lemma filter_split_length {A} (f : A -> bool) l :
  (length (filter f l) + length (filter (fun x => negb (f x)) l) = length l)%nat.
Proof. induction l as [|x l IH]; cbn [filter length]; [reflexivity|]. destruct (f x); cbn [negb length]; lia. Qed.

Lemma nodup_keys_filter f l : NoDup (keys l) -> NoDup (keys (filter f l)).
Proof.
  unfold keys. induction l as [|x l IH]; cbn [filter map]; intros ND; [constructor|].
  inversion ND as [|y r Hy ND']; subst. destruct (f x); [|exact (IH ND')].
  cbn [map]. constructor; [|exact (IH ND')]. intros H. apply Hy.
  apply in_map_iff in H. destruct H as [z [E Hz]]. apply filter_In in Hz. rewrite <- E. apply in_map. tauto.
Qed.

Lemma items_le_tab s k : SInv s -> PendLe s k -> (length (items s) <= S (length (tabk s)))%nat.
Proof.
  intros I P. pose proof (SInv_items_nodup _ I) as ND.
  rewrite <- (filter_split_length unpub (items s)).
  assert (A : (length (filter unpub (items s)) <= 1)%nat).
  { rewrite <- (map_length key). apply (nodup_all_eq _ k).
    - exact (nodup_keys_filter _ _ ND).
    - intros x Hx. apply in_map_iff in Hx. destruct Hx as [it [<- Hi]]. apply filter_In in Hi. apply P; tauto. }
  assert (B : (length (filter (fun x => negb (unpub x)) (items s)) <= length (tabk s))%nat).
  { rewrite <- (map_length key). apply NoDup_incl_length.
    - exact (nodup_keys_filter _ _ ND).
    - intros x Hx. apply in_map_iff in Hx. destruct Hx as [it [<- Hi]]. apply filter_In in Hi. destruct Hi as [Hi U].
      apply (SInv_tab _ I). exists it. repeat split; [exact Hi|]. destruct (unpub it); [discriminate|reflexivity]. }
  lia.
Qed.

Lemma small_not_over s k : SInv s -> CostOK s -> PendLe s k ->
  (length (items s) <= 1)%nat \/ tabk s = [] -> over_capacity s = false.
Proof.
  intros I C P H.
  assert (L : (length (items s) <= 1)%nat).
  { destruct H as [H|H]; [exact H|]. pose proof (items_le_tab _ _ I P) as B. rewrite H in B. exact B. }
  pose proof (SInv_cap _ I) as C1. apply SInv_ess in I. destruct I as ((_ & _ & Z1 & Z2 & Z3) & _).
  unfold CostOK in C. destruct (items s) as [|x [|y r]] eqn:E; cbn [length] in L; try lia.
  - cbn in Z1, Z2. unfold over_capacity. lia.
  - cbn [map length sumZ] in Z1, Z2. change (ecost (ess x)) with (cost x) in Z2.
    unfold over_capacity. destruct (0 <? costcap s) eqn:G.
    + assert (cost x <= costcap s) by (apply C; [lia|left; reflexivity]). lia.
    + lia.
Qed.

(* the forced loop: with fl = true it may run out of fuel (error 305); with fuel for every resident item it does
   not, because each round drops one item and a shard with at most one item, or with an empty table, is not over *)
Lemma force_loop_steps fl k : forall fuel s acc s' a', SInv s ->
  fl = true \/ (CostOK s /\ PendLe s k /\ (length (items s) <= fuel)%nat /\ (1 <= fuel)%nat) ->
  force_loop fuel e s acc = (s', a') ->
  exists d n, steps fl s s' d n /\ a' = acc + d /\ Bnd s n /\ (fl = false -> over_capacity s' = false).
Proof.
  induction fuel as [|f IH]; intros s acc s' a' I FH; cbn [force_loop].
  - destruct FH as [->|(_ & _ & _ & F)]; [|lia]. intros H; injection H as <- <-. exists 0, 0%nat.
    split; [apply steps_one, st_fuel; reflexivity|]. split; [lia|]. split; [apply Bnd_zero|discriminate].
  - destruct (over_capacity s && (0 <? zlen (tabk s))) eqn:G.
    2:{ intros H; injection H as <- <-. exists 0, 0%nat. split; [apply steps_refl|]. split; [lia|]. split; [apply Bnd_zero|].
        intros ->. destruct FH as [FH|(C & P & _)]; [discriminate|].
        apply andb_false_iff in G. destruct G as [G|G]; [exact G|].
        apply (small_not_over _ k I C P). right. destruct (tabk s); [reflexivity|]. unfold zlen in G. cbn [length] in G. lia. }
    apply andb_true_iff in G. destruct G as [OC _].
    destruct (force_evict e s) as [[s1 ok] d1] eqn:FE.
    destruct (force_evict_steps fl _ _ _ _ I FE) as [n1 (S1 & L1 & N1)].
    destruct (steps_pres S1 I) as (I1 & (_ & Fc & _) & _ & LL & SB).
    assert (G : fl = true \/ (CostOK s1 /\ PendLe s1 k /\ (length (items s1) <= f)%nat /\ (1 <= f)%nat) ->
                force_loop f e s1 (acc + d1) = (s', a') ->
                exists d n, steps fl s s' d n /\ a' = acc + d /\ Bnd s n /\ (fl = false -> over_capacity s' = false)).
    { intros FH1 H. destruct (IH _ _ _ _ I1 FH1 H) as [d2 [n2 (S2 & A & B & O2)]].
      exists (d1 + d2), (n1 + n2)%nat. split; [exact (steps_trans S1 S2)|]. split; [lia|].
      split; [exact (Bnd_round I OC S1 L1 B)|exact O2]. }
    destruct FH as [->|(C & P & L & F)].
    + destruct ok; [exact (G (or_introl eq_refl))|]. intros H; injection H as <- <-. exists d1, n1.
      split; [exact S1|]. split; [lia|]. split; [exact (Bnd_one _ _ OC L1)|discriminate].
    + assert (L2 : (2 <= length (items s))%nat).
      { destruct (le_lt_dec 2 (length (items s))) as [A|A]; [exact A|]. exfalso.
        rewrite (small_not_over _ k I C P) in OC; [discriminate|]. left. lia. }
      destruct N1 as [-> ->]; [intros E0; rewrite E0 in L2; cbn in L2; lia|].
      apply G. right. split; [exact (Sub_costok SB Fc C)|]. split; [exact (proj2 (Sub_pres SB) k P)|]. lia.
Qed.

(* the bounded pass and the forced section; an early exit (not over capacity) is also what the forced loop answers
   from such a state, so every exit is stated through force_loop *)
Lemma enforce_cases fl s inn tie s' d : SInv s -> enforce e s inn tie = (s', d) ->
  exists s3 a3 n3, steps fl s s3 a3 n3 /\ Bnd s n3 /\ force_loop (S (length (tabk s3))) e s3 a3 = (s', d).
Proof.
  intros I. unfold enforce.
  destruct (enforce_loop (Z.to_nat maxEvictionWork) e s inn tie 0) as [[[s1 inn1] tie1] a1] eqn:EL.
  destruct (enforce_loop_steps fl _ _ _ _ _ _ _ _ _ I EL) as [d1 [n1 (S1 & A1 & B1)]].
  rewrite Z.add_0_l in A1. subst a1.
  pose proof (steps_SInv S1 I) as I1.
  destruct (over_capacity s1) eqn:O1; cbn [negb].
  2:{ intros H. exists s1, d1, n1. split; [exact S1|]. split; [exact B1|]. cbn [force_loop]. rewrite O1. exact H. }
  assert (G : exists s2 inn2 tie2 a2 n2, steps fl s s2 a2 n2 /\ Bnd s n2 /\
     (if negb (zlen (prob s1) =? 0)
      then let '(s', p, d) := evict_probation e s1 in
           match p with Some k => (s', Some k, true, d1 + d) | None => (s', inn1, tie1, d1 + d) end
      else (s1, inn1, tie1, d1)) = (s2, inn2, tie2, a2)).
  { destruct (negb (zlen (prob s1) =? 0)).
    - destruct (evict_probation e s1) as [[sx p] dx] eqn:EP.
      destruct (evict_probation_steps fl _ _ _ _ I1 EP) as [nx (Sx & Lx)].
      pose proof (Bnd_combine I S1 B1 (Bnd_one _ _ O1 Lx)) as Bx.
      pose proof (steps_trans S1 Sx) as Sy.
      destruct p as [k|]; eexists _, _, _, _, _; (split; [exact Sy|split; [exact Bx|reflexivity]]).
    - eexists _, _, _, _, _. split; [exact S1|split; [exact B1|reflexivity]]. }
  destruct G as [s2 [inn2 [tie2 [a2 [n2 (S2 & B2 & E2)]]]]]. rewrite E2.
  pose proof (steps_SInv S2 I) as I2.
  destruct (over_capacity s2) eqn:O2; cbn [negb].
  2:{ intros H. exists s2, a2, n2. split; [exact S2|]. split; [exact B2|]. cbn [force_loop]. rewrite O2. exact H. }
  destruct (negb (zlen (main s2) =? 0)).
  - destruct (evict_main e s2 inn2 tie2 defaultMainVictimScan true) as [[sx okx] dx] eqn:EM.
    destruct (evict_main_steps fl _ _ _ _ _ _ _ _ I2 EM) as [nx [Sx Lx]].
    intros H. exists sx, (a2 + dx), (n2 + nx)%nat. split; [exact (steps_trans S2 Sx)|].
    split; [exact (Bnd_combine I S2 B2 (Bnd_one _ _ O2 Lx))|exact H].
  - intros H. exists s2, a2, n2. split; [exact S2|]. split; [exact B2|exact H].
Qed.

Lemma enforce_not_over s inn tie : over_capacity s = false -> enforce e s inn tie = (s, 0).
Proof.
  intros O. unfold enforce.
  assert (E : forall w, enforce_loop w e s inn tie 0 = (s, inn, tie, 0)).
  { intros [|w]; [reflexivity|]. cbn [enforce_loop]. rewrite O. reflexivity. }
  rewrite E, O. reflexivity.
Qed.

Lemma enforce_any fl s inn tie s' d k : SInv s -> fl = true \/ (CostOK s /\ PendLe s k) ->
  enforce e s inn tie = (s', d) ->
  exists n, steps fl s s' d n /\ Bnd s n /\ (fl = false -> over_capacity s' = false) /\
            (over_capacity s = false -> n = 0%nat).
Proof.
  intros I FH H. destruct (over_capacity s) eqn:OV.
  2:{ rewrite (enforce_not_over _ _ _ OV) in H. injection H as <- <-. exists 0%nat. split; [apply steps_refl|].
      split; [apply Bnd_zero|]. split; [intros _; exact OV|reflexivity]. }
  destruct (enforce_cases fl _ _ _ _ _ I H) as [s3 [a3 [n3 (S3 & B3 & FL)]]].
  destruct (steps_pres S3 I) as (I3 & (_ & Fc & _) & _ & _ & SB).
  assert (FH3 : fl = true \/ (CostOK s3 /\ PendLe s3 k /\ (length (items s3) <= S (length (tabk s3)))%nat /\
                              (1 <= S (length (tabk s3)))%nat)).
  { destruct FH as [->|[C P]]; [left; reflexivity|right]. pose proof (proj2 (Sub_pres SB) k P) as P3.
    split; [exact (Sub_costok SB Fc C)|]. split; [exact P3|]. split; [exact (items_le_tab _ _ I3 P3)|lia]. }
  destruct (force_loop_steps fl k _ _ _ _ _ I3 FH3 FL) as [d4 [n4 (S4 & -> & B4 & O4)]].
  exists (n3 + n4)%nat. split; [exact (steps_trans S3 S4)|].
  split; [exact (Bnd_combine I S3 B3 B4)|]. split; [exact O4|discriminate].
Qed.

Lemma lookup_sieve s k : SInv s -> lookup s (e_pol e) k = if memz (tabk s) k then find_item (items s) k else None.
Proof.
  intros I. unfold lookup. rewrite (is_sieve_true _ (SInv_cap _ I)). fold (find_q s k). rewrite find_q_items.
  destruct (memz (tabk s) k); reflexivity.
Qed.

Theorem lookup_spec s k : SInv s -> Quiet s ->
  lookup s (e_pol e) k = find_item (items s) k /\ (lookup s (e_pol e) k <> None <-> In k (tabk s)).
Proof.
  intros I Q. rewrite (lookup_sieve _ _ I). destruct (memz (tabk s) k) eqn:M.
  - apply memz_In in M. split; [reflexivity|]. split; [intros _; exact M|]. intros _.
    apply (SInv_tab _ I) in M. destruct M as [it [A [B _]]].
    rewrite (find_item_unique (SInv_items_nodup _ I) A B). discriminate.
  - apply memz_false in M. assert (N : find_item (items s) k = None).
    { destruct (find_item (items s) k) as [it|] eqn:E; [|reflexivity]. exfalso. apply M.
      destruct (find_item_some _ _ _ E) as [A B]. apply (SInv_tab _ I). exists it. repeat split; try assumption. exact (Q _ A). }
    rewrite N. split; [reflexivity|]. split; [congruence|]. intros H. contradiction.
Qed.

Lemma lookup_some s k it : SInv s -> lookup s (e_pol e) k = Some it ->
  In it (items s) /\ key it = k /\ unpub it = false /\ In k (tabk s) /\ find_item (items s) k = Some it.
Proof.
  intros I. rewrite (lookup_sieve _ _ I). destruct (memz (tabk s) k) eqn:M; [|discriminate].
  apply memz_In in M. intros H. destruct (find_item_some _ _ _ H) as [A B].
  split; [exact A|]. split; [exact B|]. split; [|split; assumption].
  apply (SInv_tab _ I) in M. destruct M as [it' [A' [B' C']]].
  rewrite (find_item_unique (SInv_items_nodup _ I) A' B') in H. congruence.
Qed.

Lemma lookup_none s k : SInv s -> Quiet s -> lookup s (e_pol e) k = None -> ~ In k (keys (items s)).
Proof.
  intros I Q H. destruct (lookup_spec s k I Q) as [E _]. rewrite H in E. symmetry in E. exact (proj1 (find_item_none _ _) E).
Qed.

Lemma replace_in l it n : In it l -> key n = key it -> In n (replace_item l n).
Proof.
  induction l as [|x l IH]; cbn [replace_item In]; [intros []|]. intros [->|H] K.
  - rewrite K, Z.eqb_refl. left. reflexivity.
  - destruct (key x =? key n); [left; reflexivity|right; exact (IH H K)].
Qed.

Lemma record_update_steps fl s k : SInv s -> steps fl s (record_update s k) 0 0.
Proof.
  intros I. unfold record_update. destruct (find_item (main s) k) as [it|] eqn:FM.
  - apply steps_one. apply st_fmain. exact (proj1 (find_item_some _ _ _ FM)).
  - destruct (find_item (prob s) k) as [it|] eqn:FP; [|apply steps_refl].
    pose proof (proj1 (find_item_some _ _ _ FP)) as Hin.
    set (r := if reuse it <? maxItemReuse then reuse it + 1 else reuse it).
    destruct ((visited it || (probationPromotionReuse <=? r)) && (0 <? mcap s)).
    + set (it' := set_flags it r (visited it) (unpub it)).
      assert (S1 : step fl s (sh_lists s (replace_item (prob s) it') (main s) (hand s)) 0 0) by (apply st_fprob; exact Hin).
      eapply steps_eq; [refine (steps_trans (steps_one S1) (steps_one (st_promote _ _ it' _)))|lia|lia].
      fields. exact (replace_in _ it it' Hin eq_refl).
    + apply steps_one. exact (st_fprob fl s it r true Hin).
Qed.

(* what adapts and an oracle pop leave alone (adapts may move the probation / main split) *)
Definition Same (s s' : shard) : Prop :=
  prob s' = prob s /\ main s' = main s /\ hand s' = hand s /\ tabk s' = tabk s /\ size s' = size s /\
  scost s' = scost s /\ glog s' = glog s /\ nlog s' = nlog s /\ staged s' = staged s /\ cap s' = cap s /\
  costcap s' = costcap s /\ lst s' = lst s /\ lfu s' = lfu s /\ pmin s' = pmin s /\ pmax s' = pmax s.

Lemma Same_refl s : Same s s.
Proof. unfold Same. repeat split. Qed.
Lemma Same_trans a b c : Same a b -> Same b c -> Same a c.
Proof. unfold Same. intros H1 H2. intuition congruence. Qed.

Definition CapsOK (s : shard) : Prop :=
  pcap s + mcap s = cap s /\ 1 <= pmin s /\ pmin s <= pcap s /\ pcap s <= pmax s /\ pmax s <= cap s.

Lemma SInv_same s s' : SInv s -> Same s s' -> CapsOK s' -> SInv s'.
Proof.
  intros I (Eprob & Emain & Ehand & Etabk & Esize & Escost & _ & _ & _ & Ecap & Ecostcap & Elst & Elfu & Epmin & Epmax) (C1 & C2).
  unfold SInv in *. rewrite Eprob, Emain, Ehand, Etabk, Esize, Escost, Ecap, Elst, Elfu, Epmin. destruct I. constructor; try assumption; lia.
Qed.

Lemma apply_adapts_spec fuel : forall s, CapsOK s ->
  Same s (apply_adapts fuel s) /\ CapsOK (apply_adapts fuel s) /\ ErrOK false (serr s) (serr (apply_adapts fuel s)).
Proof.
  induction fuel as [|f IH]; intros s C; cbn [apply_adapts].
  - split; [apply Same_refl|]. split; [exact C|apply ErrOK_refl].
  - destruct (evs s) as [|[k a] r] eqn:E.
    + split; [apply Same_refl|]. split; [exact C|apply ErrOK_refl].
    + destruct (k =? evAdapt).
      * destruct ((pmin s <=? a) && (a <=? pmax s)) eqn:G.
        -- assert (C1 : CapsOK (sh_caps (sh_evs s r (pend s)) a)).
           { unfold CapsOK in *. fields. lia. }
           destruct (IH _ C1) as (A & B & D). split; [|split; [exact B|exact D]].
           refine (Same_trans _ _ _ _ A). unfold Same. fields. repeat split.
        -- split; [unfold Same; fields; repeat split|]. split; [exact C|].
           apply (ErrOK_err false (sh_evs s r (pend s)) 301). left. unfold code. lia.
      * split; [apply Same_refl|]. split; [exact C|apply ErrOK_refl].
Qed.

Lemma SInv_capsok s : SInv s -> CapsOK s.
Proof. intros I. destruct I. unfold CapsOK. tauto. Qed.

Lemma adapts_spec s : SInv s ->
  SInv (adapts s) /\ Same s (adapts s) /\ ErrOK false (serr s) (serr (adapts s)).
Proof.
  intros I. unfold adapts. destruct (apply_adapts_spec (length (evs s)) s (SInv_capsok _ I)) as (A & B & C).
  split; [exact (SInv_same _ _ I A B)|]. split; assumption.
Qed.

Definition upd_item (prev : item) (k v ex c : Z) : item :=
  {| key := k; val := v; exp := ex; cost := c; reuse := reuse prev; visited := visited prev; unpub := false |}.
Definition upd_state (s : shard) (prev : item) (k v ex c : Z) : shard :=
  let it := upd_item prev k v ex c in
  let s1 := if has_key (prob s) k then sh_lists s (replace_item (prob s) it) (main s) (hand s)
            else sh_lists s (prob s) (replace_item (main s) it) (hand s) in
  sh_ghost (sh_set s1 (tabk s1) (lst s1) (lfu s1) (prob s1) (main s1) (hand s1) (size s1)
                   (scost s1 + (c - cost prev)) (staged s1)) [(1, k, val prev); (0, k, v)] [].

Lemma apply_sieve_update_eq s k v ex c prev : lookup s (e_pol e) k = Some prev ->
  apply_sieve e s k v ex c =
  (let s3 := if warmup s then upd_state s prev k v ex c else record_update (upd_state s prev k v ex c) k in
   if over_capacity s3 then let '(s4, d) := enforce e s3 None false in (s4, true, d) else (s3, true, 0)).
Proof. intros H. unfold apply_sieve. rewrite H. reflexivity. Qed.

Lemma upd_state_fields s prev k v ex c :
  let s2 := upd_state s prev k v ex c in
  Frame s s2 /\ tabk s2 = tabk s /\ hand s2 = hand s /\ size s2 = size s /\ scost s2 = scost s + (c - cost prev) /\
  glog s2 = glog s ++ [(1, k, val prev); (0, k, v)] /\ nlog s2 = nlog s /\ staged s2 = staged s /\ serr s2 = serr s.
Proof. unfold upd_state, Frame. destruct (has_key (prob s) k); fields; rewrite ?app_nil_r; repeat split. Qed.

Lemma upd_state_spec s prev k v ex c :
  SInv s -> lookup s (e_pol e) k = Some prev -> 0 <= c ->
  let s2 := upd_state s prev k v ex c in
  SInv s2 /\ Permutation ((k, v, ex, c, false) :: map ess (others k (items s))) (map ess (items s2)) /\
  (forall y, In y (items s2) -> y = upd_item prev k v ex c \/ In y (items s)).
Proof.
  intros I L C s2. destruct (lookup_some _ _ _ I L) as (Hin & K & U & _).
  pose proof (SInv_items_nodup _ I) as ND. set (n := upd_item prev k v ex c).
  assert (E : items s2 = replace_item (items s) n).
  { unfold s2, upd_state, items. rewrite replace_items. change (key n) with k.
    destruct (has_key (prob s) k); reflexivity. }
  assert (KM : keys (main s2) = keys (main s)).
  { unfold s2, upd_state. destruct (has_key (prob s) k); fields; [reflexivity|apply replace_keys]. }
  destruct (upd_state_fields s prev k v ex c) as (F & T2 & HH & Z2 & C2 & _). fold s2 in F, T2, HH, Z2, C2.
  pose proof (replace_perm _ prev n ND Hin (eq_sym K)) as P. rewrite K, <- E in P.
  assert (I2 : SInv s2).
  { apply (SInv_change s s2 I F).
    - rewrite T2. exact (SInv_tabnd _ I).
    - rewrite HH. unfold HandOK. rewrite KM. exact (SInv_hand I).
    - rewrite T2, Z2, C2. intros A. apply (EInv_perm (Permutation_sym (Permutation_map ess P))).
      apply (EInv_perm (Permutation_map ess (others_perm _ _ ND Hin))) in A. rewrite K in A.
      exact (EInv_cons_write _ _ _ (ess prev) (ess n) _ A (eq_sym K) (eq_sym U) C). }
  split; [exact I2|]. split; [exact (Permutation_sym (Permutation_map ess P))|].
  intros y H. rewrite E in H. destruct (replace_cases _ _ _ ND H) as [A|[A _]]; [left|right]; exact A.
Qed.

Definition ins_pre (s : shard) : shard * bool :=
  let '(s', a) := pop_ev s evGhost in
  (adapts s', negb (warmup s) && match a with Some x => negb (x =? 0) | None => false end).
Definition ins_item (k v ex c : Z) (to_main : bool) : item :=
  {| key := k; val := v; exp := ex; cost := c; reuse := if to_main then 1 else 0; visited := to_main; unpub := true |}.
Definition ins_state (s0 : shard) (gh : bool) (k v ex c : Z) : shard :=
  let to_main := gh && (0 <? mcap s0) in
  let it := ins_item k v ex c to_main in
  let s1 := sh_set s0 (tabk s0) (lst s0) (lfu s0)
                   (if to_main then prob s0 else it :: prob s0)
                   (if to_main then it :: main s0 else main s0)
                   (if to_main then match hand s0 with None => Some k | h => h end else hand s0)
                   (size s0 + 1) (scost s0 + c) (staged s0) in
  let s1 := sh_ghost s1 [(0, k, v)] [] in
  if to_main then sh_stats s1 (admits s1) (rejects s1) (ghosthits s1 + 1) (promos s1) (pevicts s1) (mevicts s1) else s1.
Definition pub_list (k : Z) (l : list item) : list item :=
  match find_item l k with Some x => replace_item l (set_flags x (reuse x) (visited x) false) | None => l end.
Definition pub_state (s2 : shard) (k : Z) : shard :=
  sh_set s2 (k :: tabk s2) (lst s2) (lfu s2) (pub_list k (prob s2)) (pub_list k (main s2)) (hand s2)
         (size s2) (scost s2) (staged s2).

Lemma apply_sieve_insert_eq s k v ex c : lookup s (e_pol e) k = None ->
  apply_sieve e s k v ex c =
  (let '(s0, gh) := ins_pre s in
   let s1 := ins_state s0 gh k v ex c in
   let '(s2, d) := if negb (warmup s) || over_capacity s1 then enforce e s1 (Some k) gh else (s1, 0) in
   if owns s2 k then (bump (pub_state s2 k) 1 0 0 0, true, d) else (bump s2 0 1 0 0, false, d)).
Proof.
  intros H. unfold apply_sieve, ins_pre. rewrite H. destruct (pop_ev s evGhost) as [s' a]. reflexivity.
Qed.

Lemma pop_ev_same s kind s' a : 0 <= kind <= 4 -> pop_ev s kind = (s', a) ->
  Same s s' /\ ErrOK false (serr s) (serr s').
Proof.
  intros K H. destruct (pop_ev_cases _ _ _ _ K H) as [[r ->]|[c [C ->]]]; (split; [unfold Same; fields; repeat split|]).
  - apply ErrOK_refl.
  - apply ErrOK_err. left. exact C.
Qed.

Lemma ins_pre_spec s s0 gh : SInv s -> ins_pre s = (s0, gh) ->
  SInv s0 /\ Same s s0 /\ ErrOK false (serr s) (serr s0).
Proof.
  intros I. unfold ins_pre. destruct (pop_ev s evGhost) as [s' a] eqn:PE. intros H. injection H as <- _.
  assert (K : 0 <= evGhost <= 4) by (unfold evGhost; lia).
  destruct (pop_ev_same _ _ _ _ K PE) as (A & D). pose proof (step_SInv (pop_ev_step false _ _ _ _ K PE) I) as I'.
  destruct (adapts_spec _ I') as (I0 & A0 & E0).
  split; [exact I0|]. split; [exact (Same_trans _ _ _ A A0)|exact (ErrOK_trans D E0)].
Qed.

Lemma Same_items s s' : Same s s' -> items s' = items s.
Proof. intros (Eprob & Emain & _). unfold items. rewrite Eprob, Emain. reflexivity. Qed.

Lemma ins_state_fields s0 gh k v ex c :
  let s1 := ins_state s0 gh k v ex c in
  Frame s0 s1 /\ tabk s1 = tabk s0 /\ size s1 = size s0 + 1 /\ scost s1 = scost s0 + c /\
  glog s1 = glog s0 ++ [(0, k, v)] /\ nlog s1 = nlog s0 /\ staged s1 = staged s0 /\ serr s1 = serr s0.
Proof. unfold ins_state, Frame. destruct (gh && (0 <? mcap s0)); fields; rewrite ?app_nil_r; repeat split. Qed.

Lemma ins_state_spec s0 gh k v ex c : SInv s0 -> ~ In k (keys (items s0)) -> 0 <= c ->
  let s1 := ins_state s0 gh k v ex c in
  SInv s1 /\ (Quiet s0 -> Pending s1 k) /\ exists tm, Permutation (ins_item k v ex c tm :: items s0) (items s1).
Proof.
  intros I N C s1.
  assert (G : exists tm, Permutation (ins_item k v ex c tm :: items s0) (items s1) /\ HandOK (hand s1) (main s1)).
  { unfold s1, ins_state, items. destruct (gh && (0 <? mcap s0)) eqn:TM; fields.
    - exists true. split; [apply Permutation_middle|].
      intros x Hx. unfold keys. cbn [map key ins_item]. destruct (hand s0) as [h|] eqn:HH; injection Hx as <-.
      + right. exact (SInv_hand I h HH).
      + left. reflexivity.
    - exists false. split; [reflexivity|exact (SInv_hand I)]. }
  destruct G as [tm (P & HO)].
  destruct (ins_state_fields s0 gh k v ex c) as (F & T & Z1 & C1 & _). fold s1 in F, T, Z1, C1.
  assert (I1 : SInv s1).
  { apply (SInv_change s0 s1 I F); [rewrite T; exact (SInv_tabnd _ I)|exact HO|].
    rewrite T, Z1, C1. intros A. apply (EInv_perm (Permutation_map ess P)).
    refine (EInv_cons_insert _ _ _ (ess (ins_item k v ex c tm)) _ A _ eq_refl C). rewrite <- keys_ess. exact N. }
  split; [exact I1|]. split; [|exists tm; exact P].
  intros Q0. split.
  - intros y Hy Uy. apply (Permutation_in _ (Permutation_sym P)) in Hy. destruct Hy as [<-|Hy]; [reflexivity|].
    rewrite (Q0 y Hy) in Uy. discriminate.
  - exists (ins_item k v ex c tm). split; [exact (Permutation_in _ P (or_introl eq_refl))|split; reflexivity].
Qed.

(* the essence of it with the unpublished flag of key k overridden by b. ASum compares the items before and after a write
   of k up to this: there b says whether the write was an insert (the candidate is unpublished until its publication). *)
Definition ess_as (k : Z) (b : bool) (it : item) : Z * Z * Z * Z * bool :=
  if key it =? k then (key it, val it, exp it, cost it, b) else ess it.

Lemma ess_as_id k b l : (forall y, In y l -> key y = k -> unpub y = b) -> map (ess_as k b) l = map ess l.
Proof.
  intros H. apply map_ext_in. intros y Hy. unfold ess_as, ess. destruct (key y =? k) eqn:E; [|reflexivity].
  rewrite (H y Hy) by lia. reflexivity.
Qed.

Lemma ess_as_key k b y : ekey (ess_as k b y) = key y.
Proof. unfold ess_as. destruct (key y =? k); reflexivity. Qed.

Lemma in_ess_as k b l t : In t (map (ess_as k b) l) -> exists y, In y l /\ key y = ekey t /\ ess_as k b y = t.
Proof.
  intros A. apply in_map_iff in A. destruct A as [y [E H]]. exists y.
  split; [exact H|]. split; [rewrite <- E; symmetry; apply ess_as_key|exact E].
Qed.

Definition is_none {A} (o : option A) : bool := match o with None => true | Some _ => false end.

(* What one apply_sieve e s k v ex c = (s', cm, d) does, from a quiet s. old: the entry overwritten, if any; ins: the write is
   an insert; W: the write records logged; sz, sc: size and cost once the new entry is in. Clauses: invariant; quiet;
   configuration unchanged; then, for the list dl of dropped (item, reason) pairs, those that ADrops names. *)
Definition ASum (fl : bool) (s : shard) (k v ex c : Z) (s' : shard) (cm : bool) (d : Z) : Prop :=
  let old := lookup s (e_pol e) k in
  let ins := is_none old in
  let W := match old with Some prev => [(1, k, val prev); (0, k, v)] | None => [(0, k, v)] end in
  let sz := size s + (if ins then 1 else 0) in
  let sc := scost s + c - match old with Some prev => cost prev | None => 0 end in
  SInv s' /\ Quiet s' /\
  (cap s' = cap s /\ costcap s' = costcap s /\ pmin s' = pmin s /\ pmax s' = pmax s) /\
  exists dl,
    glog s' = glog s ++ W ++ map dent dl /\ nlog s' = nlog s ++ dnots dl /\ staged s' = staged s ++ dnots dl /\
    Forall reason_ok dl /\ d = (if e_stats e then dcount dl else 0) /\
    ErrOK fl (serr s) (serr s') /\ (fl = false -> over_capacity s' = false) /\
    size s' = sz - Z.of_nat (length dl) /\
    (costcap s <= 0 -> Z.of_nat (length dl) <= Z.max 0 (sz - cap s)) /\
    (sz <= cap s -> (0 < costcap s -> sc <= costcap s) -> dl = []) /\
    Permutation ((k, v, ex, c, ins) :: map ess (others k (items s)))
                (map ess (map fst dl) ++ map (ess_as k ins) (items s')) /\
    (cm = false -> ins = true /\ ~ In k (keys (items s'))) /\
    (cm = true -> ins = true -> In k (keys (items s'))).

(* ASum read by name: what holds of the list dl of dropped (item, reason) pairs *)
Record ADrops (fl : bool) (s : shard) (k v ex c : Z) (s' : shard) (cm : bool) (d : Z) (dl : list (item * Z)) : Prop := {
  (* the ghost log gets the write records (an update first retires the old value), then one record per drop *)
  ad_glog : glog s' = glog s ++ match lookup s (e_pol e) k with
                                | Some prev => [(1, k, val prev); (0, k, v)] | None => [(0, k, v)] end ++ map dent dl;
  ad_nlog : nlog s' = nlog s ++ dnots dl;
  ad_staged : staged s' = staged s ++ dnots dl;
  ad_reasons : Forall reason_ok dl;
  (* the returned evictions delta *)
  ad_count : d = (if e_stats e then dcount dl else 0);
  ad_err : ErrOK fl (serr s) (serr s');
  (* with the fuel shown sufficient the write ends within budget *)
  ad_budget : fl = false -> over_capacity s' = false;
  ad_size : size s' = size s + (if is_none (lookup s (e_pol e) k) then 1 else 0) - Z.of_nat (length dl);
  (* without a cost cap, no more drops than the excess of the written state over the capacity *)
  ad_bound : costcap s <= 0 ->
             Z.of_nat (length dl) <= Z.max 0 (size s + (if is_none (lookup s (e_pol e) k) then 1 else 0) - cap s);
  (* a written state that fits drops nothing *)
  ad_fit : size s + (if is_none (lookup s (e_pol e) k) then 1 else 0) <= cap s ->
           (0 < costcap s -> scost s + c - match lookup s (e_pol e) k with Some prev => cost prev | None => 0 end
                             <= costcap s) -> dl = [];
  (* the new essence and the other old items are the dropped items and the items of s' *)
  ad_items : Permutation ((k, v, ex, c, is_none (lookup s (e_pol e) k)) :: map ess (others k (items s)))
                         (map ess (map fst dl) ++ map (ess_as k (is_none (lookup s (e_pol e) k))) (items s'));
  (* only an insert can fail to commit, and then the key is absent; a committed insert is present *)
  ad_rejected : cm = false -> is_none (lookup s (e_pol e) k) = true /\ ~ In k (keys (items s'));
  ad_present : cm = true -> is_none (lookup s (e_pol e) k) = true -> In k (keys (items s')) }.
Arguments ad_glog {fl s k v ex c s' cm d dl}. Arguments ad_nlog {fl s k v ex c s' cm d dl}.
Arguments ad_staged {fl s k v ex c s' cm d dl}. Arguments ad_reasons {fl s k v ex c s' cm d dl}.
Arguments ad_count {fl s k v ex c s' cm d dl}. Arguments ad_err {fl s k v ex c s' cm d dl}.
Arguments ad_budget {fl s k v ex c s' cm d dl}. Arguments ad_size {fl s k v ex c s' cm d dl}.
Arguments ad_bound {fl s k v ex c s' cm d dl}. Arguments ad_fit {fl s k v ex c s' cm d dl}.
Arguments ad_items {fl s k v ex c s' cm d dl}. Arguments ad_rejected {fl s k v ex c s' cm d dl}.
Arguments ad_present {fl s k v ex c s' cm d dl}.

Lemma ASum_read fl s k v ex c s' cm d : ASum fl s k v ex c s' cm d ->
  SInv s' /\ Quiet s' /\ exists dl, ADrops fl s k v ex c s' cm d dl.
Proof.
  intros (I' & Q' & _ & dl & A1 & A2 & A3 & A4 & A5 & A6 & A7 & A8 & A9 & A10 & A11 & A12 & A13).
  split; [exact I'|]. split; [exact Q'|]. exists dl. constructor; assumption.
Qed.

Lemma not_over_fits s : 1 <= cap s -> over_capacity s = false <-> (size s <= cap s /\ (0 < costcap s -> scost s <= costcap s)).
Proof. intros H. unfold over_capacity. lia. Qed.

Definition Agree (s s' : shard) : Prop :=
  Frame s s' /\ size s' = size s /\ scost s' = scost s /\ glog s' = glog s /\ nlog s' = nlog s /\
  staged s' = staged s /\ serr s' = serr s.

Lemma Agree_refl s : Agree s s.
Proof. unfold Agree, Frame. repeat split. Qed.

Lemma pub_state_fields s2 k :
  let s3 := pub_state s2 k in Agree s2 s3 /\ tabk s3 = k :: tabk s2 /\ hand s3 = hand s2.
Proof. unfold pub_state, Agree, Frame. fields. repeat split. Qed.

(* publication only clears the unpublished flag of the key: invisible through ess_as k b *)
Lemma pub_state_spec s2 k x : SInv s2 -> PendLe s2 k -> In x (items s2) -> key x = k -> unpub x = true ->
  let s3 := pub_state s2 k in
  SInv s3 /\ Quiet s3 /\ keys (items s3) = keys (items s2) /\
  forall b, map (ess_as k b) (items s3) = map (ess_as k b) (items s2).
Proof.
  intros I P Hin K U s3. pose proof (SInv_items_nodup _ I) as ND.
  set (x' := set_flags x (reuse x) (visited x) false).
  assert (PL : forall l, incl l (items s2) -> pub_list k l = replace_item l x').
  { intros l Hl. unfold pub_list. destruct (find_item l k) as [y|] eqn:F.
    - destruct (find_item_some _ _ _ F) as [A B].
      pose proof (find_item_unique ND (Hl y A) B) as Fy. rewrite (find_item_unique ND Hin K) in Fy.
      injection Fy as Fy. rewrite <- Fy. reflexivity.
    - symmetry. apply replace_item_notin. change (key x') with (key x). rewrite K. apply find_item_none. exact F. }
  assert (Ip : incl (prob s2) (items s2)) by (unfold items; apply incl_appl, incl_refl).
  assert (Im : incl (main s2) (items s2)) by (unfold items; apply incl_appr, incl_refl).
  assert (E : items s3 = replace_item (items s2) x').
  { unfold s3, pub_state, items. fields. rewrite (PL _ Ip), (PL _ Im). apply replace_both. exact ND. }
  assert (KM : keys (main s3) = keys (main s2)).
  { unfold s3, pub_state. fields. rewrite (PL _ Im). apply replace_keys. }
  destruct (pub_state_fields s2 k) as ((F & Z1 & C1 & _) & T & HH). fold s3 in F, T, HH, Z1, C1.
  assert (KI : keys (items s3) = keys (items s2)) by (rewrite E; apply replace_keys).
  assert (Q : Quiet s3).
  { intros y Hy. rewrite E in Hy. destruct (replace_cases _ _ _ ND Hy) as [->|[A B]]; [reflexivity|].
    destruct (unpub y) eqn:Uy; [|reflexivity]. exfalso. apply B. change (key x') with (key x). rewrite K.
    exact (P y A Uy). }
  pose proof (replace_perm _ x x' ND Hin eq_refl) as P3. rewrite K, <- E in P3.
  assert (I3 : SInv s3).
  { destruct (proj1 (SInv_ess s2) I) as (A & _).
    apply (EInv_perm (Permutation_map ess (others_perm _ _ ND Hin))) in A. rewrite K in A.
    destruct (EInv_cons_publish _ _ _ (ess x) (ess x') _ A U eq_refl eq_refl eq_refl) as [A' NI].
    assert (EK : ekey (ess x) = k) by exact K. rewrite EK in A', NI.
    apply (SInv_change s2 s3 I F).
    - rewrite T. constructor; [exact NI|exact (SInv_tabnd _ I)].
    - rewrite HH. unfold HandOK. rewrite KM. exact (SInv_hand I).
    - intros _. rewrite T, Z1, C1. apply (EInv_perm (Permutation_sym (Permutation_map ess P3))). exact A'. }
  repeat (split; [assumption|]). intros b. rewrite E. apply (replace_map (ess_as k b) _ x x' Hin ND eq_refl).
  unfold ess_as. change (key x') with (key x). rewrite K, Z.eqb_refl. reflexivity.
Qed.

(* what apply_sieve needs for a run with flag fl *)
Definition FuelHyp (fl : bool) (s : shard) (c : Z) : Prop :=
  fl = true \/ (CostOK s /\ (0 < costcap s -> c <= costcap s)).

Lemma owns_true s k : owns s k = true <-> In k (keys (items s)).
Proof.
  unfold owns, items, keys. rewrite orb_true_iff, !has_key_true, map_app, in_app_iff. reflexivity.
Qed.

Lemma ErrOK_false_any fl a b : ErrOK false a b -> ErrOK fl a b.
Proof. unfold ErrOK. intros [H|[H1 [H2|[H2 _]]]]; [left; exact H|right; split; [exact H1|left; exact H2]|discriminate]. Qed.

Lemma steps0_over fl s s' d : steps fl s s' d 0 -> SInv s -> over_capacity s' = over_capacity s.
Proof.
  intros S I. destruct (steps_sum S I) as [_ [dl (L & (F1 & F2 & _) & _ & Z1 & _ & _ & _ & _ & _ & _ & C1)]].
  destruct dl; [|discriminate]. apply over_capacity_frame; [exact F1|exact F2|lia|cbn in C1; lia].
Qed.

(* ASum from the three phases of apply_sieve: the written state s1 (the new essence stands for the key, the write
   records are logged), the run s1 -> s2 of enforce, and the publication s2 -> s', which changes the statistics and the
   unpublished flag of the key only; ess_as hides that flag *)
Lemma ASum_intro fl s k v ex c old s1 s2 s' cm d n :
  lookup s (e_pol e) k = old ->
  SInv s1 -> cap s1 = cap s /\ costcap s1 = costcap s /\ pmin s1 = pmin s /\ pmax s1 = pmax s ->
  glog s1 = glog s ++ match old with Some prev => [(1, k, val prev); (0, k, v)] | None => [(0, k, v)] end ->
  nlog s1 = nlog s -> staged s1 = staged s -> ErrOK false (serr s) (serr s1) ->
  size s1 = size s + (if is_none old then 1 else 0) ->
  scost s1 = scost s + c - match old with Some prev => cost prev | None => 0 end ->
  Permutation ((k, v, ex, c, is_none old) :: map ess (others k (items s))) (map ess (items s1)) ->
  steps fl s1 s2 d n -> Bnd s1 n -> (fl = false -> over_capacity s2 = false) -> (over_capacity s1 = false -> n = 0%nat) ->
  SInv s' -> Quiet s' -> Agree s2 s' -> map (ess_as k (is_none old)) (items s') = map ess (items s2) ->
  (cm = false -> is_none old = true /\ ~ In k (keys (items s'))) ->
  (cm = true -> is_none old = true -> In k (keys (items s'))) ->
  ASum fl s k v ex c s' cm d.
Proof.
  intros Lk I1 (K1 & K2 & K3 & K4) G1 N1 T1 E1 Z1 C1 P1 S B O Z0 I' Q'
    ((K1' & K2' & _ & _ & K3' & K4' & _) & Z' & C' & G' & N' & T' & E') M CF CT.
  pose proof (over_capacity_frame _ _ K1' K2' Z' C') as O'.
  destruct (steps_sum S I1)
    as [_ [dl (Ld & (F1 & F2 & _ & _ & F5 & F6 & _) & P & Zs & Gs & Ns & Ts & R & D & Es & _)]].
  unfold ASum. rewrite Lk. cbv zeta.
  split; [exact I'|]. split; [exact Q'|]. split; [repeat split; congruence|].
  exists dl. rewrite G', Gs, G1, N', Ns, N1, T', Ts, T1, E', Z', Zs, Z1, M, <- !app_assoc, Ld.
  do 3 (split; [reflexivity|]). split; [exact R|]. split; [exact D|].
  split; [exact (ErrOK_trans (ErrOK_false_any _ _ _ E1) Es)|].
  split; [intros Hf; rewrite O'; exact (O Hf)|]. split; [reflexivity|].
  split; [unfold Bnd in B; rewrite K1, K2, Z1 in B; exact B|].
  split; [|split; [exact (Permutation_trans P1 P)|split; assumption]].
  intros A1 A2. assert (O1 : over_capacity s1 = false).
  { apply (not_over_fits _ (SInv_cap _ I1)). rewrite Z1, C1, K1, K2. exact (conj A1 A2). }
  rewrite (Z0 O1) in Ld. destruct dl; [reflexivity|discriminate].
Qed.

Lemma apply_sieve_update_sum fl s k v ex c prev s' cm d :
  SInv s -> Quiet s -> lookup s (e_pol e) k = Some prev -> 0 <= c -> FuelHyp fl s c ->
  apply_sieve e s k v ex c = (s', cm, d) -> ASum fl s k v ex c s' cm d.
Proof.
  intros I Q L C FH. rewrite (apply_sieve_update_eq _ _ _ _ _ _ L).
  destruct (upd_state_spec s prev k v ex c I L C) as (I2 & P2 & IN2).
  destruct (upd_state_fields s prev k v ex c) as (F & _ & _ & Z2 & C2 & G2 & N2 & T2 & R2).
  set (s2 := upd_state s prev k v ex c) in *. cbv zeta.
  assert (Q2 : Quiet s2).
  { intros y Hy. destruct (IN2 y Hy) as [->|A]; [reflexivity|exact (Q y A)]. }
  assert (S3 : steps fl s2 (if warmup s then s2 else record_update s2 k) 0 0).
  { destruct (warmup s); [apply steps_refl|apply record_update_steps; exact I2]. }
  set (s3 := if warmup s then s2 else record_update s2 k) in *.
  destruct (steps_pres S3 I2) as (I3 & F3 & _ & _ & SB3).
  (* the capacity test before enforce is redundant: enforce does nothing on a shard that is not over *)
  destruct (enforce e s3 None false) as [s4 d4] eqn:EN. cbv beta iota.
  assert (H4 : (if over_capacity s3 then (s4, true, d4) else (s3, true, 0)) = (s4, true, d4)).
  { destruct (over_capacity s3) eqn:O; [reflexivity|]. rewrite (enforce_not_over _ _ _ O) in EN.
    injection EN as <- <-. reflexivity. }
  rewrite H4. intros H. injection H as <- <- <-.
  assert (FH3 : fl = true \/ (CostOK s3 /\ PendLe s3 k)).
  { destruct FH as [->|[CK Cc]]; [left; reflexivity|right].
    split; [|exact (Quiet_PendLe _ _ (proj1 (Sub_pres SB3) Q2))].
    apply (Sub_costok SB3 (proj1 (proj2 F3))). intros Hc y Hy. rewrite (proj1 (proj2 F)) in Hc |- *.
    destruct (IN2 y Hy) as [->|A]; [exact (Cc Hc)|exact (CK Hc y A)]. }
  destruct (enforce_any fl _ _ _ _ _ k I3 FH3 EN) as [n (S4 & B4 & O4 & Z4)].
  pose proof (steps_trans S3 S4) as S24.
  destruct (steps_pres S24 I2) as (I4 & _ & _ & _ & SB4).
  pose proof (proj1 (Sub_pres SB4) Q2) as Q4.
  destruct F as (F1 & F2 & _ & _ & F5 & F6 & _).
  refine (ASum_intro fl s k v ex c (Some prev) s2 s4 s4 true d4 n L I2 (conj F1 (conj F2 (conj F5 F6))) G2 N2 T2 _ _ _ P2
            S24 _ O4 _ I4 Q4 (Agree_refl s4) _ _ _).
  - left. symmetry. exact R2.
  - cbn [is_none]. lia.
  - lia.
  - exact (Bnd_combine I2 S3 (Bnd_zero _) B4).
  - intros O2. apply Z4. rewrite (steps0_over _ _ _ _ S3 I2). exact O2.
  - apply ess_as_id. intros y Hy _. exact (Q4 y Hy).
  - discriminate.
  - intros _. discriminate.
Qed.

Lemma apply_sieve_insert_sum fl s k v ex c s' cm d :
  SInv s -> Quiet s -> lookup s (e_pol e) k = None -> 0 <= c -> FuelHyp fl s c ->
  apply_sieve e s k v ex c = (s', cm, d) -> ASum fl s k v ex c s' cm d.
Proof.
  intros I Q L C FH. rewrite (apply_sieve_insert_eq _ _ _ _ _ L).
  destruct (ins_pre s) as [s0 gh] eqn:IP. destruct (ins_pre_spec _ _ _ I IP) as (I0 & SA & E0).
  pose proof (lookup_none _ _ I Q L) as NK. pose proof (Same_items _ _ SA) as IT0.
  destruct SA as (_ & _ & _ & _ & Esize & Escost & Eglog & Enlog & Estaged & Ecap & Ecostcap & _ & _ & Epmin & Epmax).
  assert (NK0 : ~ In k (keys (items s0))) by (rewrite IT0; exact NK).
  assert (Q0 : Quiet s0) by (intros y Hy; apply Q; rewrite <- IT0; exact Hy).
  destruct (ins_state_spec s0 gh k v ex c I0 NK0 C) as (I1 & PD & tm & P1).
  destruct (ins_state_fields s0 gh k v ex c) as (F1 & _ & Z1 & C1 & G1 & N1 & T1 & R1).
  set (s1 := ins_state s0 gh k v ex c) in *. cbv zeta. destruct (PD Q0) as [PL1 _].
  assert (IN1 : forall y, In y (items s1) -> y = ins_item k v ex c tm \/ In y (items s)).
  { intros y Hy. rewrite <- IT0. apply (Permutation_in _ (Permutation_sym P1)) in Hy.
    destruct Hy as [Hy|Hy]; [left; symmetry; exact Hy|right; exact Hy]. }
  destruct F1 as (F11 & F12 & _ & _ & F15 & F16 & _).
  (* the test before enforce is redundant: enforce does nothing on a shard that is not over *)
  destruct (enforce e s1 (Some k) gh) as [s2 d2] eqn:EN.
  assert (H2 : (if negb (warmup s) || over_capacity s1 then (s2, d2) else (s1, 0)) = (s2, d2)).
  { destruct (over_capacity s1) eqn:O; [rewrite orb_true_r; reflexivity|]. rewrite (enforce_not_over _ _ _ O) in EN.
    injection EN as <- <-. destruct (negb (warmup s)); reflexivity. }
  rewrite H2. cbv beta iota.
  assert (FH1 : fl = true \/ (CostOK s1 /\ PendLe s1 k)).
  { destruct FH as [->|[CK Cc]]; [left; reflexivity|right]. split; [|exact PL1].
    intros Hc y Hy. rewrite F12, Ecostcap in Hc |- *. destruct (IN1 y Hy) as [->|Hs]; [exact (Cc Hc)|exact (CK Hc y Hs)]. }
  destruct (enforce_any fl _ _ _ _ _ k I1 FH1 EN) as [n (S2 & B2 & O2 & Z2)].
  destruct (steps_pres S2 I1) as (I2 & _ & _ & _ & SB).
  pose proof (proj2 (Sub_pres SB) k PL1) as PL2.
  (* an item of s2 with key k descends from the candidate, so it is unpublished *)
  assert (UK : forall y, In y (items s2) -> key y = k -> unpub y = true).
  { intros y Hy Ky. destruct (SB y Hy) as [z [Ez Hz]]. unfold ess in Ez. injection Ez as Ez1 _ _ _ Ez5.
    destruct (IN1 z Hz) as [->|Hs]; [rewrite <- Ez5; reflexivity|].
    exfalso. apply NK. rewrite <- Ky, <- Ez1. unfold keys. apply in_map. exact Hs. }
  assert (W : forall s3 cm3, SInv s3 -> Quiet s3 -> Agree s2 s3 -> map (ess_as k true) (items s3) = map ess (items s2) ->
            (cm3 = false -> true = true /\ ~ In k (keys (items s3))) ->
            (cm3 = true -> true = true -> In k (keys (items s3))) -> ASum fl s k v ex c s3 cm3 d2).
  { intros s3 cm3. refine (ASum_intro fl s k v ex c None s1 s2 s3 cm3 d2 n L I1 _ _ _ _ _ _ _ _ S2 B2 O2 Z2).
    - repeat split; congruence.
    - rewrite G1, Eglog. reflexivity.
    - congruence.
    - congruence.
    - rewrite R1. exact E0.
    - cbn [is_none]. lia.
    - lia.
    - cbn [is_none]. rewrite <- IT0, (others_notin _ _ NK0). exact (Permutation_map ess P1). }
  destruct (owns s2 k) eqn:OW; intros H; injection H as <- <- <-.
  - apply owns_true in OW. unfold keys in OW. apply in_map_iff in OW. destruct OW as [x [Kx Hx]].
    destruct (pub_state_spec s2 k x I2 PL2 Hx Kx (UK x Hx Kx)) as (I3 & Q3 & KI3 & M3).
    apply (W (bump (pub_state s2 k) 1 0 0 0) true I3 Q3 (proj1 (pub_state_fields s2 k))).
    + change (items (bump (pub_state s2 k) 1 0 0 0)) with (items (pub_state s2 k)). rewrite M3.
      exact (ess_as_id k true _ UK).
    + discriminate.
    + intros _ _. change (In k (keys (items (pub_state s2 k)))). rewrite KI3, <- Kx. unfold keys. apply in_map. exact Hx.
  - assert (KN : ~ In k (keys (items s2))) by (intros A; apply owns_true in A; congruence).
    refine (W (bump s2 0 1 0 0) false I2 _ (Agree_refl s2) (ess_as_id k true _ UK) (fun _ => conj eq_refl KN) _).
    + intros y Hy. destruct (unpub y) eqn:Uy; [|reflexivity]. exfalso. apply KN. rewrite <- (PL2 y Hy Uy).
      unfold keys. apply in_map. exact Hy.
    + discriminate.
Qed.

Theorem apply_sieve_sum fl s k v ex c s' cm d :
  SInv s -> Quiet s -> 0 <= c -> FuelHyp fl s c ->
  apply_sieve e s k v ex c = (s', cm, d) -> ASum fl s k v ex c s' cm d.
Proof.
  intros I Q C FH H. destruct (lookup s (e_pol e) k) as [prev|] eqn:L.
  - exact (apply_sieve_update_sum fl _ _ _ _ _ _ _ _ _ I Q L C FH H).
  - exact (apply_sieve_insert_sum fl _ _ _ _ _ _ _ _ I Q L C FH H).
Qed.

Lemma FuelHyp_true s c : FuelHyp true s c.
Proof. left. reflexivity. Qed.

Theorem apply_sieve_preserves s k v ex c s' cm d :
  SInv s -> Quiet s -> 0 <= c -> apply_sieve e s k v ex c = (s', cm, d) -> SInv s' /\ Quiet s'.
Proof.
  intros I Q C H. destruct (apply_sieve_sum true _ _ _ _ _ _ _ _ I Q C (FuelHyp_true _ _) H) as (A & B & _).
  split; assumption.
Qed.

Lemma sum_ge_elem {A} (f : A -> Z) l : (forall x, In x l -> 0 <= f x) ->
  0 <= sumZ (map f l) /\ forall y, In y l -> f y <= sumZ (map f l).
Proof.
  induction l as [|a l IH]; cbn [In map sumZ]; intros N; [split; [lia|intros y []]|].
  destruct IH as [P B]; [intros x Hx; apply N; right; exact Hx|]. pose proof (N a (or_introl eq_refl)).
  split; [lia|]. intros y [->|H']; [lia|]. specialize (B y H'). lia.
Qed.

Lemma CostOK_of_fits s : SInv s -> over_capacity s = false -> CostOK s.
Proof.
  intros I O Hc it Hin. apply (not_over_fits _ (SInv_cap _ I)) in O. destruct O as [_ O]. specialize (O Hc).
  destruct I as [_ _ _ _ Cs Cn _ _ _ _ _]. pose proof (proj2 (sum_ge_elem cost _ Cn) it Hin) as B. lia.
Qed.

Lemma FuelHyp_false s c : SInv s -> over_capacity s = false -> (costcap s = 0 \/ c <= costcap s) -> FuelHyp false s c.
Proof. intros I O H. right. split; [exact (CostOK_of_fits _ I O)|]. lia. Qed.

(* the budget, for every oracle stream: a write that starts within budget ends within budget, whatever the error state *)
Theorem apply_sieve_budget_strong s k v ex c s' cm d :
  SInv s -> Quiet s -> over_capacity s = false -> 0 <= c -> (costcap s = 0 \/ c <= costcap s) ->
  apply_sieve e s k v ex c = (s', cm, d) ->
  SInv s' /\ Quiet s' /\ over_capacity s' = false /\
  (serr s' = serr s \/ (serr s = 0 /\ code (serr s'))).
Proof.
  intros I Q O C Hc H.
  destruct (ASum_read _ _ _ _ _ _ _ _ _ (apply_sieve_sum false _ _ _ _ _ _ _ _ I Q C (FuelHyp_false _ _ I O Hc) H)) as (A & B & dl & AD).
  pose proof (ad_err AD) as E. pose proof (ad_budget AD) as OV.
  split; [exact A|]. split; [exact B|]. split; [exact (OV eq_refl)|].
  destruct E as [E|[E1 [E2|[E2 _]]]]; [left; congruence|right; split; assumption|discriminate].
Qed.

(* the same under the hypothesis serr s' = 0, which the proof does not use *)
Theorem apply_sieve_budget s k v ex c :
  SInv s -> Quiet s -> over_capacity s = false -> 0 <= c -> (costcap s = 0 \/ c <= costcap s) ->
  let '(s', committed, d) := apply_sieve e s k v ex c in
  serr s' = 0 -> SInv s' /\ Quiet s' /\ over_capacity s' = false.
Proof.
  intros I Q O C Hc. destruct (apply_sieve e s k v ex c) as [[s' cm] d] eqn:H. intros _.
  destruct (apply_sieve_budget_strong _ _ _ _ _ _ _ _ I Q O C Hc H) as (A & B & D & _).
  split; [exact A|split; [exact B|exact D]].
Qed.

(* the fuel claim: force_loop never runs dry (305 is never raised) and only oracle codes can appear *)
Theorem apply_sieve_serr s k v ex c s' cm d :
  SInv s -> Quiet s -> over_capacity s = false -> 0 <= c -> (costcap s = 0 \/ c <= costcap s) ->
  apply_sieve e s k v ex c = (s', cm, d) -> serr s = 0 ->
  serr s' <> 305 /\ (serr s' = 0 \/ 100 <= serr s' <= 104 \/ 200 <= serr s' <= 204 \/ serr s' = 301).
Proof.
  intros I Q O C Hc H Z0. destruct (apply_sieve_budget_strong _ _ _ _ _ _ _ _ I Q O C Hc H) as (_ & _ & _ & [E|[_ E]]).
  - split; [lia|left; lia].
  - unfold code in E. split; [lia|right; exact E].
Qed.

Theorem apply_sieve_reasons s k v ex c s' cm d :
  SInv s -> Quiet s -> 0 <= c -> apply_sieve e s k v ex c = (s', cm, d) ->
  exists dl,
    glog s' = glog s ++ (match lookup s (e_pol e) k with Some prev => [(1, k, val prev); (0, k, v)] | None => [(0, k, v)] end)
                     ++ map dent dl /\
    nlog s' = nlog s ++ dnots dl /\ staged s' = staged s ++ dnots dl /\
    Forall (fun p => (snd p = reasonCapacity \/ snd p = reasonRejected) /\
                     (unpub (fst p) = true -> snd p = reasonRejected) /\
                     (snd p = reasonCapacity -> unpub (fst p) = false)) dl /\
    d = (if e_stats e then Z.of_nat (length (filter (fun p => snd p =? reasonCapacity) dl)) else 0).
Proof.
  intros I Q C H. destruct (ASum_read _ _ _ _ _ _ _ _ _ (apply_sieve_sum true _ _ _ _ _ _ _ _ I Q C (FuelHyp_true _ _) H)) as (_ & _ & dl & AD).
  pose proof (ad_glog AD) as G. pose proof (ad_nlog AD) as N. pose proof (ad_staged AD) as S.
  pose proof (ad_reasons AD) as R. pose proof (ad_count AD) as D.
  exists dl. repeat split; assumption.
Qed.

Lemma lookup_of_in s it : SInv s -> In it (items s) -> unpub it = false -> lookup s (e_pol e) (key it) = Some it.
Proof.
  intros I H U. rewrite (lookup_sieve _ _ I).
  assert (M : memz (tabk s) (key it) = true).
  { apply memz_In. apply (SInv_tab _ I). exists it. repeat split; assumption. }
  rewrite M. exact (find_item_unique (SInv_items_nodup _ I) H eq_refl).
Qed.

Lemma lookup_owned s k it : SInv s -> lookup s (e_pol e) k = Some it -> In k (keys (items s)).
Proof. intros I L. destruct (lookup_some _ _ _ I L) as (H & <- & _). unfold keys. apply in_map. exact H. Qed.

Lemma others_in k l it : In it (others k l) -> In it l /\ key it <> k.
Proof. unfold others. rewrite filter_In, negb_true_iff, Z.eqb_neq. exact (fun H => H). Qed.

Lemma lhs_nodup s k (t : Z * Z * Z * Z * bool) : SInv s -> ekey t = k -> NoDup (map ekey (t :: map ess (others k (items s)))).
Proof.
  intros I K. cbn [map]. rewrite <- keys_ess. constructor.
  - rewrite K. unfold keys. intros H. apply in_map_iff in H. destruct H as [y [Ky Hy]].
    exact (proj2 (others_in _ _ _ Hy) Ky).
  - apply nodup_keys_filter. exact (SInv_items_nodup _ I).
Qed.

Lemma ess_as_quiet k b y : unpub y = false -> ess y = (fst (ess_as k b y), false).
Proof. intros U. unfold ess_as, ess. rewrite U. destruct (key y =? k); reflexivity. Qed.

(* the permutation clause of ASum (ad_items) is read through two lemmas, this one and dropped_or_found *)
Lemma apply_sieve_kept fl s k v ex c s' cm d k' it' : SInv s -> Quiet s -> ASum fl s k v ex c s' cm d ->
  lookup s' (e_pol e) k' = Some it' ->
  if k' =? k then ess it' = (k, v, ex, c, false) else exists it, lookup s (e_pol e) k' = Some it /\ ess it = ess it'.
Proof.
  intros I Q AS L'. destruct (ASum_read _ _ _ _ _ _ _ _ _ AS) as (I' & _ & dl & AD). pose proof (ad_items AD) as P.
  destruct (lookup_some _ _ _ I' L') as (Hin & <- & U' & _).
  set (b := is_none (lookup s (e_pol e) k)) in P.
  pose proof (Permutation_in _ (Permutation_sym P) (in_or_app _ _ _ (or_intror (in_map (ess_as k b) _ _ Hin)))) as A.
  rewrite (ess_as_quiet k b it' U'), <- (ess_as_key k b it'). destruct A as [<-|A].
  - cbn [ekey fst]. rewrite Z.eqb_refl. reflexivity.
  - apply in_map_iff in A. destruct A as [it [<- Hi]]. apply others_in in Hi. destruct Hi as [Hi NK].
    change (ekey (ess it)) with (key it). rewrite (proj2 (Z.eqb_neq _ _) NK).
    exists it. split; [exact (lookup_of_in _ _ I Hi (Q it Hi))|]. unfold ess. rewrite (Q it Hi). reflexivity.
Qed.

Lemma dropped_or_found s' k b L D t : SInv s' -> Quiet s' -> Permutation L (D ++ map (ess_as k b) (items s')) -> In t L ->
  In t D \/ exists y, lookup s' (e_pol e) (ekey t) = Some y /\ ess y = (fst t, false).
Proof.
  intros I' Q' P H. apply (Permutation_in _ P), in_app_or in H. destruct H as [H|H]; [left; exact H|right].
  destruct (in_ess_as _ _ _ _ H) as [y (Hy & <- & <-)]. exists y.
  split; [exact (lookup_of_in _ _ I' Hy (Q' y Hy))|exact (ess_as_quiet k b y (Q' y Hy))].
Qed.

Theorem others_unchanged_or_lost s k v ex c s' cm d k' it' :
  SInv s -> Quiet s -> 0 <= c -> apply_sieve e s k v ex c = (s', cm, d) -> k' <> k ->
  lookup s' (e_pol e) k' = Some it' ->
  exists it, lookup s (e_pol e) k' = Some it /\ ess it = ess it'.
Proof.
  intros I Q C H NK L'.
  pose proof (apply_sieve_sum true _ _ _ _ _ _ _ _ I Q C (FuelHyp_true _ _) H) as AS.
  pose proof (apply_sieve_kept _ _ _ _ _ _ _ _ _ _ _ I Q AS L') as K.
  replace (k' =? k) with false in K by lia. exact K.
Qed.

(* a rejected candidate is absent and reported exactly once, with reason rejected *)
Theorem rejected_means_absent s k v ex c s' d :
  SInv s -> Quiet s -> 0 <= c -> apply_sieve e s k v ex c = (s', false, d) ->
  lookup s (e_pol e) k = None /\ lookup s' (e_pol e) k = None /\
  exists dl1 x dl2,
    glog s' = glog s ++ [(0, k, v)] ++ map dent dl1 ++ (10 + reasonRejected, k, v) :: map dent dl2 /\
    ess x = (k, v, ex, c, true) /\ (forall p, In p (dl1 ++ dl2) -> key (fst p) <> k).
Proof.
  intros I Q C H.
  destruct (ASum_read _ _ _ _ _ _ _ _ _ (apply_sieve_sum true _ _ _ _ _ _ _ _ I Q C (FuelHyp_true _ _) H)) as (I' & Q' & dl & AD).
  pose proof (ad_glog AD) as G. pose proof (ad_reasons AD) as R. pose proof (ad_items AD) as P.
  pose proof (ad_rejected AD) as CF.
  destruct (CF eq_refl) as [INS NK]. destruct (lookup s (e_pol e) k) as [prev|] eqn:L; [discriminate|].
  cbn [is_none] in P. split; [reflexivity|]. split.
  { destruct (lookup s' (e_pol e) k) as [y|] eqn:L'; [destruct (NK (lookup_owned _ _ _ I' L'))|reflexivity]. }
  (* lookup cannot find the candidate in s', so it is among the dropped *)
  destruct (dropped_or_found s' k true _ _ _ I' Q' P (or_introl eq_refl)) as [A|[y [Ly _]]];
    [|destruct (NK (lookup_owned _ _ _ I' Ly))].
  rewrite map_map in A. apply in_map_iff in A. destruct A as [[x r] [Ep Hp]]. cbn [fst] in Ep.
  destruct (in_split _ _ Hp) as [dl1 [dl2 ->]]. exists dl1, x, dl2. split; [|split; [exact Ep|]].
  - rewrite Forall_forall in R. destruct (R _ Hp) as (_ & R2 & _). cbn [fst snd] in R2.
    rewrite G, map_app. cbn [map]. unfold dent at 2. cbn [fst snd]. unfold ess in Ep. injection Ep as -> -> _ _ U.
    rewrite (R2 U). reflexivity.
  - (* the keys on the left of the permutation are distinct, hence so are those of the dropped items *)
    pose proof (Permutation_NoDup (Permutation_map ekey P) (lhs_nodup s k (k, v, ex, c, true) I eq_refl)) as ND.
    rewrite map_app in ND. apply nodup_app_iff in ND. destruct ND as [ND _].
    rewrite !map_map, map_app in ND. cbn [map fst] in ND.
    pose proof (NoDup_remove_2 _ _ _ ND) as NN. intros p Hp2 Kp. apply NN.
    change (ekey (ess x)) with (key x). replace (key x) with k by (unfold ess in Ep; congruence). rewrite <- Kp.
    rewrite <- map_app. apply (in_map (fun y => ekey (ess (fst y)))). exact Hp2.
Qed.

Theorem room_no_drop s k v ex c s' cm d :
  SInv s -> Quiet s -> lookup s (e_pol e) k = None -> 0 <= c ->
  size s + 1 <= cap s -> (costcap s <= 0 \/ scost s + c <= costcap s) ->
  apply_sieve e s k v ex c = (s', cm, d) ->
  cm = true /\ d = 0 /\ glog s' = glog s ++ [(0, k, v)] /\ staged s' = staged s /\ nlog s' = nlog s /\
  (exists it', lookup s' (e_pol e) k = Some it' /\ ess it' = (k, v, ex, c, false)) /\
  (forall k' it, lookup s (e_pol e) k' = Some it -> exists it', lookup s' (e_pol e) k' = Some it' /\ ess it' = ess it).
Proof.
  intros I Q L C RS RC H.
  destruct (ASum_read _ _ _ _ _ _ _ _ _ (apply_sieve_sum true _ _ _ _ _ _ _ _ I Q C (FuelHyp_true _ _) H)) as (I' & Q' & dl & AD).
  pose proof (ad_glog AD) as G. pose proof (ad_nlog AD) as N. pose proof (ad_staged AD) as S. pose proof (ad_count AD) as D.
  pose proof (ad_fit AD) as FIT. pose proof (ad_items AD) as P. pose proof (ad_rejected AD) as CF.
  rewrite L in G, FIT, P. cbn [is_none] in FIT, P.
  assert (DL : dl = []) by (apply FIT; lia). subst dl. cbn [dnots flat_map] in N, S. rewrite app_nil_r in N, S.
  rewrite (others_notin _ _ (lookup_none _ _ I Q L)) in P.
  (* nothing was dropped, so lookup finds every entry of the written state *)
  assert (FIND : forall t, In t ((k, v, ex, c, true) :: map ess (items s)) ->
            exists y, lookup s' (e_pol e) (ekey t) = Some y /\ ess y = (fst t, false)).
  { intros t Ht. destruct (dropped_or_found s' k true _ [] t I' Q' P Ht) as [[]|A]. exact A. }
  destruct (FIND _ (or_introl eq_refl)) as [y Ly].
  split; [|split; [rewrite D; destruct (e_stats e); reflexivity|]].
  { destruct cm; [reflexivity|]. destruct (CF eq_refl) as [_ NK]. destruct (NK (lookup_owned _ _ _ I' (proj1 Ly))). }
  split; [exact G|]. split; [exact S|]. split; [exact N|]. split; [exists y; exact Ly|].
  intros k' it Lk. destruct (lookup_some _ _ _ I Lk) as (Hin & <- & U & _).
  destruct (FIND (ess it) (or_intror (in_map ess _ _ Hin))) as [z (Lz & Ez)]. exists z. split; [exact Lz|].
  rewrite Ez. unfold ess. rewrite U. reflexivity.
Qed.

(* without a cost cap an insert drops at most one entry (the rejected candidate counts) *)
Theorem unweighted_at_most_one s k v ex c s' cm d :
  SInv s -> Quiet s -> lookup s (e_pol e) k = None -> 0 <= c -> costcap s = 0 -> over_capacity s = false ->
  apply_sieve e s k v ex c = (s', cm, d) ->
  exists dl, glog s' = glog s ++ [(0, k, v)] ++ map dent dl /\ (length dl <= 1)%nat.
Proof.
  intros I Q L C CC O H.
  destruct (ASum_read _ _ _ _ _ _ _ _ _ (apply_sieve_sum true _ _ _ _ _ _ _ _ I Q C (FuelHyp_true _ _) H)) as (_ & _ & dl & AD).
  pose proof (ad_glog AD) as G. pose proof (ad_bound AD) as B.
  rewrite L in G, B. cbn [is_none] in B. exists dl. split; [exact G|].
  apply (not_over_fits _ (SInv_cap _ I)) in O. destruct O as [O _]. specialize (B ltac:(lia)). lia.
Qed.

(* an update takes effect, or the key is gone *)
Theorem update_effective s k v ex c prev s' cm d :
  SInv s -> Quiet s -> lookup s (e_pol e) k = Some prev -> 0 <= c ->
  apply_sieve e s k v ex c = (s', cm, d) ->
  cm = true /\
  (forall it', lookup s' (e_pol e) k = Some it' -> ess it' = (k, v, ex, c, false)) /\
  (over_capacity s = false -> (costcap s <= 0 \/ c <= cost prev) ->
   exists it', lookup s' (e_pol e) k = Some it' /\ ess it' = (k, v, ex, c, false)).
Proof.
  intros I Q L C H. pose proof (apply_sieve_sum true _ _ _ _ _ _ _ _ I Q C (FuelHyp_true _ _) H) as AS.
  destruct (ASum_read _ _ _ _ _ _ _ _ _ AS) as (I' & Q' & dl & AD).
  pose proof (ad_fit AD) as FIT. pose proof (ad_items AD) as P. pose proof (ad_rejected AD) as CF.
  rewrite L in FIT, P, CF. cbn [is_none] in FIT, P, CF.
  split; [destruct cm; [reflexivity|destruct (CF eq_refl); discriminate]|]. split.
  - intros it' L'. pose proof (apply_sieve_kept _ _ _ _ _ _ _ _ _ _ _ I Q AS L') as K. rewrite Z.eqb_refl in K. exact K.
  - (* the written state fits, so nothing is dropped and lookup finds the written entry *)
    intros O HC. apply (not_over_fits _ (SInv_cap _ I)) in O. destruct O as [O1 O2].
    assert (DL : dl = []) by (apply FIT; [lia|]; intros Hc; specialize (O2 Hc); lia). subst dl.
    destruct (dropped_or_found s' k false _ [] _ I' Q' P (or_introl eq_refl)) as [[]|A]. exact A.
Qed.

Definition gmatch (P : Z -> bool) (k v : Z) (t : Z * Z * Z) : bool :=
  P (fst (fst t)) && (snd (fst t) =? k) && (snd t =? v).
Definition gcount (P : Z -> bool) (k v : Z) (g : list (Z * Z * Z)) : nat := length (filter (gmatch P k v) g).
Definition ematch (k v : Z) (t : Z * Z * Z * Z * bool) : bool := (ekey t =? k) && (evalue t =? v).
Definition ecount (k v : Z) (E : list (Z * Z * Z * Z * bool)) : nat := length (filter (ematch k v) E).
Definition icount (k v : Z) (l : list item) : nat := length (filter (fun it => (key it =? k) && (val it =? v)) l).

Definition tag_is (x : Z) (t : Z) : bool := t =? x.
Definition tag_drop (t : Z) : bool := 10 <=? t.
Definition Ledger (s : shard) : Prop :=
  forall k v, gcount (tag_is 0) k v (glog s) =
              (icount k v (items s) + gcount (tag_is 1) k v (glog s) + gcount (tag_is 2) k v (glog s)
               + gcount tag_drop k v (glog s))%nat.

Definition notif_of_entry (m : Z) (t : Z * Z * Z) : list notif :=
  if (10 <=? fst (fst t)) && mask_has m (fst (fst t) - 10)
  then [{| nkey := snd (fst t); nval := snd t; nreason := fst (fst t) - 10 |}] else [].
Definition NotifLog (m : Z) (s : shard) : Prop := nlog s = flat_map (notif_of_entry m) (glog s).

Lemma gcount_app P k v a b : gcount P k v (a ++ b) = (gcount P k v a + gcount P k v b)%nat.
Proof. unfold gcount. rewrite filter_app, app_length. reflexivity. Qed.
Lemma ecount_app k v a b : ecount k v (a ++ b) = (ecount k v a + ecount k v b)%nat.
Proof. unfold ecount. rewrite filter_app, app_length. reflexivity. Qed.
Lemma gcount_cons P k0 v0 t g : gcount P k0 v0 (t :: g) = ((if gmatch P k0 v0 t then 1 else 0) + gcount P k0 v0 g)%nat.
Proof. unfold gcount. cbn [filter]. destruct (gmatch P k0 v0 t); reflexivity. Qed.
Lemma ecount_cons k0 v0 t E : ecount k0 v0 (t :: E) = ((if ematch k0 v0 t then 1 else 0) + ecount k0 v0 E)%nat.
Proof. unfold ecount. cbn [filter]. destruct (ematch k0 v0 t); reflexivity. Qed.

Lemma icount_ess k v l : icount k v l = ecount k v (map ess l).
Proof.
  unfold icount, ecount. induction l as [|x l IH]; cbn [filter map]; [reflexivity|].
  change (ematch k v (ess x)) with ((key x =? k) && (val x =? v)).
  destruct ((key x =? k) && (val x =? v)); cbn [length]; rewrite IH; reflexivity.
Qed.

Lemma ecount_ess_as k0 v0 k b l : ecount k0 v0 (map (ess_as k b) l) = icount k0 v0 l.
Proof.
  rewrite icount_ess. induction l as [|x l IH]; cbn [map]; [reflexivity|]. rewrite !ecount_cons, IH.
  unfold ess_as. destruct (key x =? k); reflexivity.
Qed.

Lemma filter_perm_length {A} (f : A -> bool) l l' : Permutation l l' -> length (filter f l) = length (filter f l').
Proof.
  induction 1 as [|x l l' _ IH|x y l|l l' l'' _ IH1 _ IH2]; cbn [filter].
  - reflexivity.
  - destruct (f x); cbn [length]; rewrite IH; reflexivity.
  - destruct (f x), (f y); reflexivity.
  - congruence.
Qed.

Lemma ecount_perm k v E E' : Permutation E E' -> ecount k v E = ecount k v E'.
Proof. apply filter_perm_length. Qed.

Lemma reasons_nonneg dl : Forall reason_ok dl -> Forall (fun p => 0 <= snd p) dl.
Proof. apply Forall_impl. intros p ([R|R] & _); rewrite R; unfold reasonCapacity, reasonRejected; lia. Qed.

(* drop records carry tags >= 10, so they count as drops only, once each, and notify under the mask *)
Lemma gcount_dent P b k v dl : Forall (fun p => 0 <= snd p) dl -> (forall r, 0 <= r -> P (10 + r) = b) ->
  gcount P k v (map dent dl) = if b then ecount k v (map ess (map fst dl)) else 0%nat.
Proof.
  intros R HP. induction R as [|p dl Rp _ IH]; cbn [map]; [destruct b; reflexivity|].
  rewrite gcount_cons, IH. unfold gmatch, dent. cbn [fst snd]. rewrite (HP _ Rp).
  destruct b; [rewrite ecount_cons|]; reflexivity.
Qed.

Lemma notif_dent dl : Forall (fun p => 0 <= snd p) dl -> flat_map (notif_of_entry (e_mask e)) (map dent dl) = dnots dl.
Proof.
  intros R. unfold dnots. induction R as [|p dl Rp _ IH]; cbn [map flat_map]; [reflexivity|]. rewrite IH. f_equal.
  unfold notif_of_entry, dent, notif_of. cbn [fst snd]. replace (10 + snd p - 10) with (snd p) by lia.
  replace (10 <=? 10 + snd p) with true by lia. reflexivity.
Qed.

(* The ledger across a transition that retires the entries Eout, writes the entries Ein, logs the records W for
   that (sets under tag 0, overwrites under tag 1), and then drops the items dl, logging each drop. Er is what the
   write leaves alone; E' stands for the items of s' (as far as counting by key and value can tell). *)
Lemma Ledger_change s s' W dl Eout Ein Er E' :
  Forall (fun p => 0 <= snd p) dl -> glog s' = glog s ++ W ++ map dent dl ->
  Permutation (map ess (items s)) (Eout ++ Er) -> Permutation (Ein ++ Er) (map ess (map fst dl) ++ E') ->
  (forall k v, ecount k v E' = icount k v (items s')) ->
  (forall k v, gcount (tag_is 0) k v W = ecount k v Ein /\ gcount (tag_is 1) k v W = ecount k v Eout /\
               gcount (tag_is 2) k v W = 0%nat /\ gcount tag_drop k v W = 0%nat) ->
  Ledger s -> Ledger s'.
Proof.
  intros R G P1 P2 HE HW Lg k v. specialize (Lg k v). destruct (HW k v) as (W0 & W1 & W2 & Wd).
  rewrite G, !gcount_app, W0, W1, W2, Wd, <- HE.
  rewrite !(gcount_dent _ false _ _ _ R) by (intros r Hr; apply Z.eqb_neq; lia).
  rewrite (gcount_dent _ true _ _ _ R) by (intros r Hr; apply Z.leb_le; lia).
  rewrite icount_ess, (ecount_perm _ _ _ _ P1), ecount_app in Lg.
  pose proof (ecount_perm k v _ _ P2) as EP. rewrite !ecount_app in EP. lia.
Qed.

(* what every function of the write path preserves *)
Definition Pres (s s' : shard) : Prop :=
  SInv s' /\ (Quiet s -> Quiet s') /\ (forall k, PendLe s k -> PendLe s' k) /\
  (Ledger s -> Ledger s') /\ (NotifLog (e_mask e) s -> NotifLog (e_mask e) s').

Lemma Pres_refl s : SInv s -> Pres s s.
Proof. intros I. unfold Pres. tauto. Qed.

Lemma Pres_trans a b c : Pres a b -> Pres b c -> Pres a c.
Proof.
  unfold Pres. intros (A1 & A2 & A3 & A4 & A5) (B1 & B2 & B3 & B4 & B5).
  split; [exact B1|]. split; [tauto|]. split; [intros k H; exact (B3 k (A3 k H))|]. split; tauto.
Qed.

(* nothing new appears, so Quiet and PendLe survive; each removed item is matched by one drop record and its notification *)
Lemma drops_Pres s s' dl : SInv s' -> Forall (fun p => 0 <= snd p) dl ->
  Permutation (map ess (items s)) (map ess (map fst dl) ++ map ess (items s')) ->
  glog s' = glog s ++ map dent dl -> nlog s' = nlog s ++ dnots dl -> Pres s s'.
Proof.
  intros I' R P G N. destruct (Sub_pres (Sub_perm _ _ _ P)) as [Q PL].
  split; [exact I'|]. split; [exact Q|]. split; [exact PL|]. split.
  - apply (Ledger_change s s' [] dl [] [] _ _ R G (Permutation_refl _) P (fun k v => eq_sym (icount_ess k v _))).
    intros k v. repeat split.
  - unfold NotifLog. intros Nl. rewrite G, N, flat_map_app, (notif_dent _ R), Nl. reflexivity.
Qed.

Lemma Pres_of_steps fl s s' d n : steps fl s s' d n -> SInv s -> Pres s s'.
Proof.
  intros S I. destruct (steps_sum S I) as [I' [dl (_ & _ & P & _ & G & N & _ & R & _)]].
  exact (drops_Pres _ _ _ I' (reasons_nonneg _ R) P G N).
Qed.
Arguments Pres_of_steps {fl s s' d n}.

(* the write records balance the written and the overwritten entry *)
Theorem apply_sieve_Pres s k v ex c s' cm d :
  SInv s -> Quiet s -> 0 <= c -> apply_sieve e s k v ex c = (s', cm, d) -> Pres s s'.
Proof.
  intros I Q C H.
  destruct (ASum_read _ _ _ _ _ _ _ _ _ (apply_sieve_sum true _ _ _ _ _ _ _ _ I Q C (FuelHyp_true _ _) H)) as (I' & Q' & dl & AD).
  pose proof (ad_glog AD) as G. pose proof (ad_nlog AD) as N. pose proof (ad_reasons AD) as R. pose proof (ad_items AD) as P.
  apply reasons_nonneg in R.
  split; [exact I'|]. split; [intros _; exact Q'|]. split; [intros k0 _ y Hy U; rewrite (Q' y Hy) in U; discriminate|]. split.
  - destruct (lookup s (e_pol e) k) as [prev|] eqn:L; cbn [is_none] in P.
    + destruct (lookup_some _ _ _ I L) as (Hin & <- & _).
      apply (Ledger_change s s' _ dl [ess prev] [_] _ _ R G
               (Permutation_map ess (others_perm _ _ (SInv_items_nodup _ I) Hin)) P (fun k0 v0 => ecount_ess_as k0 v0 _ _ _)).
      (* with the tags literal, each count of the two records computes to the count of the entry it stands for *)
      intros k0 v0. rewrite !gcount_cons, !ecount_cons. repeat split.
    + rewrite (others_notin _ _ (lookup_none _ _ I Q L)) in P.
      apply (Ledger_change s s' _ dl [] [_] _ _ R G (Permutation_refl _) P (fun k0 v0 => ecount_ess_as k0 v0 _ _ _)).
      intros k0 v0. rewrite !gcount_cons, ecount_cons. repeat split.
  - unfold NotifLog. intros Nl. rewrite G, N, !flat_map_app, (notif_dent _ R), Nl. f_equal.
    destruct (lookup s (e_pol e) k); reflexivity.
Qed.

(* sieve_unlink alone leaves size/scost/tabk stale (drop_item repairs them); its own contract: *)
Theorem sieve_unlink_preserves s it : SInv s -> In it (items s) ->
  let s1 := sieve_unlink s (key it) in
  NoDup (keys (items s1)) /\ HandOK (hand s1) (main s1) /\
  Permutation (map ess (items s)) (ess it :: map ess (items s1)) /\
  tabk s1 = tabk s /\ size s1 = size s /\ scost s1 = scost s /\ glog s1 = glog s /\ nlog s1 = nlog s.
Proof.
  intros I H. cbv zeta.
  destruct (sieve_unlink_spec s it (SInv_items_nodup _ I) (SInv_hand I) H) as [p [m [h (E & P & HO)]]].
  rewrite E. unfold items. fields. split; [|repeat split; assumption].
  pose proof (SInv_items_nodup _ I) as ND. rewrite keys_ess in *.
  pose proof (Permutation_NoDup (Permutation_map ekey P) ND) as ND2. cbn [map] in ND2.
  inversion ND2; assumption.
Qed.

(* drop_item with any non-negative reason (capacity, rejected, expired, deleted) *)
Theorem drop_item_preserves s it r0 s' ok d : SInv s -> In it (items s) -> 0 <= r0 ->
  drop_item e s it r0 = (s', ok, d) -> ok = true /\ Pres s s'.
Proof.
  intros I H R0 D. destruct (drop_item_spec s it r0 I H) as [s2 (D' & F & P & T & Z1 & C & HO & G & N & _)].
  rewrite D in D'. injection D' as <- -> _. split; [reflexivity|].
  apply (drops_Pres _ _ [(it, final_reason it r0)] (SInv_transfer_drop _ _ it I F P T Z1 C HO)); [|exact P|exact G|].
  - constructor; [|constructor]. cbn [snd]. unfold final_reason, reasonCapacity, reasonRejected.
    destruct (unpub it && (r0 =? 0)); lia.
  - rewrite N. unfold dnots. cbn [flat_map fst snd]. rewrite app_nil_r. reflexivity.
Qed.

Theorem promote_preserves s it : SInv s -> In it (prob s) -> Pres s (promote s it).
Proof. intros I H. exact (Pres_of_steps (steps_one (st_promote false _ _ H)) I). Qed.

Theorem find_victim_preserves n s c force s' v : SInv s -> HandOK c (main s) ->
  find_victim n s c force = (s', v) -> Pres s s' /\ (forall vk, v = Some vk -> In vk (keys (main s'))).
Proof.
  intros I HC H. destruct (find_victim_steps false n _ _ _ _ _ I HC H) as (S & _ & _ & V & _).
  split; [exact (Pres_of_steps S I)|exact V].
Qed.

Theorem find_main_victim_preserves s scan force s' v : SInv s ->
  find_main_victim s scan force = (s', v) -> Pres s s' /\ (forall vk, v = Some vk -> In vk (keys (main s'))).
Proof.
  intros I H. destruct (find_main_victim_steps false _ _ _ _ _ I H) as (S & _ & _ & V & _).
  split; [exact (Pres_of_steps S I)|exact V].
Qed.

Theorem drop_prob_victim_preserves s it s' ok d : SInv s -> In it (items s) ->
  drop_prob_victim e s it = (s', ok, d) -> Pres s s'.
Proof. intros I H D. destruct (drop_prob_victim_steps false _ _ _ _ _ I H D) as [_ S]. exact (Pres_of_steps S I). Qed.

Theorem evict_probation_preserves s s' p d : SInv s -> evict_probation e s = (s', p, d) -> Pres s s'.
Proof. intros I H. destruct (evict_probation_steps false _ _ _ _ I H) as [n [S _]]. exact (Pres_of_steps S I). Qed.

Theorem evict_main_preserves s inn tie scan force s' ok d : SInv s ->
  evict_main e s inn tie scan force = (s', ok, d) -> Pres s s'.
Proof. intros I H. destruct (evict_main_steps false _ _ _ _ _ _ _ _ I H) as [n [S _]]. exact (Pres_of_steps S I). Qed.

Theorem force_evict_preserves s s' ok d : SInv s -> force_evict e s = (s', ok, d) -> Pres s s'.
Proof. intros I H. destruct (force_evict_steps false _ _ _ _ I H) as [n [S _]]. exact (Pres_of_steps S I). Qed.

Theorem enforce_loop_preserves w s inn tie acc s' inn' tie' a' : SInv s ->
  enforce_loop w e s inn tie acc = (s', inn', tie', a') -> Pres s s'.
Proof. intros I H. destruct (enforce_loop_steps false w _ _ _ _ _ _ _ _ I H) as [d [n [S _]]]. exact (Pres_of_steps S I). Qed.

Theorem force_loop_preserves fuel s acc s' a' : SInv s -> force_loop fuel e s acc = (s', a') -> Pres s s'.
Proof. intros I H. destruct (force_loop_steps true 0 fuel _ _ _ _ I (or_introl eq_refl) H) as [d [n [S _]]]. exact (Pres_of_steps S I). Qed.

Theorem enforce_preserves s inn tie s' d : SInv s -> enforce e s inn tie = (s', d) -> Pres s s'.
Proof. intros I H. destruct (enforce_any true _ _ _ _ _ 0 I (or_introl eq_refl) H) as [n [S _]]. exact (Pres_of_steps S I). Qed.

Theorem record_update_preserves s k : SInv s -> Pres s (record_update s k).
Proof. intros I. exact (Pres_of_steps (record_update_steps false _ _ I) I). Qed.

Theorem adapts_preserves s : SInv s -> Pres s (adapts s).
Proof.
  intros I. destruct (adapts_spec _ I) as (I' & (Eprob & Emain & _ & _ & _ & _ & Eglog & Enlog & _) & _).
  unfold Pres, Quiet, PendLe, Ledger, NotifLog, items. rewrite Eprob, Emain, Eglog, Enlog. tauto.
Qed.

Theorem apply_sieve_ledger s k v ex c s' cm d :
  SInv s -> Quiet s -> 0 <= c -> Ledger s -> apply_sieve e s k v ex c = (s', cm, d) -> Ledger s'.
Proof. intros I Q C Lg H. destruct (apply_sieve_Pres _ _ _ _ _ _ _ _ I Q C H) as (_ & _ & _ & A & _). exact (A Lg). Qed.

Theorem apply_sieve_notiflog s k v ex c s' cm d :
  SInv s -> Quiet s -> 0 <= c -> NotifLog (e_mask e) s -> apply_sieve e s k v ex c = (s', cm, d) ->
  NotifLog (e_mask e) s'.
Proof. intros I Q C Nl H. destruct (apply_sieve_Pres _ _ _ _ _ _ _ _ I Q C H) as (_ & _ & _ & _ & A). exact (A Nl). Qed.

(* the state change of op_get's SieveTinyLFU hit branch (CacheModel op_get, before the trailing adapts), copied here so
   that it has a name; CacheProofs.v (op_get_tail) identifies it with that branch by unfolding both *)
Definition get_touch (s : shard) (k : Z) (it : item) : shard :=
  if warmup s then s
  else let it' := set_flags it (reuse it) true (unpub it) in
       if has_key (prob s) k then sh_lists s (replace_item (prob s) it') (main s) (hand s)
       else sh_lists s (prob s) (replace_item (main s) it') (hand s).

Theorem get_touch_preserves s k it : SInv s -> lookup s (e_pol e) k = Some it -> Pres s (get_touch s k it).
Proof.
  intros I L. destruct (lookup_some _ _ _ I L) as (_ & _ & _ & _ & FI). unfold get_touch, items in *.
  destruct (warmup s); [apply Pres_refl; exact I|]. cbv zeta.
  (* has_key asks find_item, and find_item over prob ++ main answers from the queue that holds the key *)
  unfold has_key. destruct (find_item (prob s) k) as [x|] eqn:Fx.
  - rewrite (find_item_app_l _ (main s) _ _ Fx) in FI. injection FI as ->.
    exact (Pres_of_steps (steps_one (st_fprob false _ it (reuse it) true (proj1 (find_item_some _ _ _ Fx)))) I).
  - rewrite (find_item_app_r _ _ _ Fx) in FI.
    exact (Pres_of_steps (steps_one (st_fmain false _ it (reuse it) true (proj1 (find_item_some _ _ _ FI)))) I).
Qed.

Theorem cleanup_shard_preserves nw s ev ex k : SInv s ->
  Pres s (fst (fst (cleanup_shard e nw (s, ev, ex) k))).
Proof.
  intros I. unfold cleanup_shard. destruct (lookup s (e_pol e) k) as [it|] eqn:L; [|apply Pres_refl; exact I].
  destruct (expired it nw); [|apply Pres_refl; exact I].
  destruct (drop_item e s it reasonExpired) as [[s1 ok] d1] eqn:D. cbn [fst].
  exact (proj2 (drop_item_preserves _ _ reasonExpired _ _ _ I (proj1 (lookup_some _ _ _ I L))
                                    ltac:(unfold reasonExpired; lia) D)).
Qed.

Theorem cleanup_fold_preserves nw l : forall s ev ex, SInv s ->
  Pres s (fst (fst (fold_left (cleanup_shard e nw) l (s, ev, ex)))).
Proof.
  induction l as [|k l IH]; intros s ev ex I; cbn [fold_left]; [apply Pres_refl; exact I|].
  pose proof (cleanup_shard_preserves nw s ev ex k I) as P1.
  destruct (cleanup_shard e nw (s, ev, ex) k) as [[s1 ev1] ex1]. cbn [fst] in P1.
  exact (Pres_trans _ _ _ P1 (IH s1 ev1 ex1 (proj1 P1))).
Qed.

(* the delete records that clear_shard logs, one per item, counted under any tag predicate *)
Lemma gcount_deleted P k v l :
  gcount P k v (map (fun it : item => (2, key it, val it)) l) = if P 2 then icount k v l else 0%nat.
Proof.
  unfold gcount, icount. induction l as [|x l IH]; cbn [map filter]; [destruct (P 2); reflexivity|].
  unfold gmatch at 1. cbn [fst snd]. destruct (P 2); cbn [andb]; [|exact IH].
  destruct ((key x =? k) && (val x =? v)); cbn [length]; rewrite IH; reflexivity.
Qed.

Theorem clear_shard_preserves m s : SInv s -> Quiet s ->
  let s' := clear_shard (e_pol e) s in
  SInv s' /\ Quiet s' /\ (Ledger s -> Ledger s') /\ (NotifLog m s -> NotifLog m s') /\
  size s' = 0 /\ scost s' = 0 /\ tabk s' = [] /\ staged s' = staged s.
Proof.
  intros I Q. cbv zeta. unfold clear_shard, shard_items. rewrite (is_sieve_true _ (SInv_cap _ I)). fold (items s).
  (* every item is published and in the table, so the two filters keep them all: each gets its delete record *)
  rewrite (filter_all (fun it => negb (unpub it))) by (intros x Hx; rewrite (Q x Hx); reflexivity).
  rewrite filter_all by (intros x Hx; apply memz_In, (SInv_tab _ I); exists x; repeat split; [exact Hx|exact (Q x Hx)]).
  split; [|split; [|split; [|split]]].
  - destruct I as [_ _ _ _ _ _ _ J8 J9 _ J11]. unfold SInv. fields. exact (SInvF_empty _ _ _ _ _ J8 J9 J11).
  - intros x [].
  - intros Lg k v. specialize (Lg k v). unfold items in Lg |- *. fields.
    rewrite !gcount_app, !gcount_deleted.
    (* the delete records carry tag 2: they count under tag_is 2 only *)
    change (tag_is 0 2) with false. change (tag_is 1 2) with false. change (tag_is 2 2) with true.
    change (tag_drop 2) with false. cbn [app icount filter length]. lia.
  - unfold NotifLog. intros Nl. fields. rewrite flat_map_app, app_nil_r, <- Nl.
    assert (E3 : forall l, flat_map (notif_of_entry m) (map (fun it : item => (2, key it, val it)) l) = []).
    { induction l as [|x l IH]; cbn [map flat_map]; [reflexivity|]. rewrite IH. reflexivity. }
    rewrite E3, app_nil_r. reflexivity.
  - fields. repeat split.
Qed.

Theorem enforce_from_pending s inn tie s' d k : SInv s -> Pending s k -> enforce e s inn tie = (s', d) ->
  SInv s' /\ (Pending s' k \/ Quiet s').
Proof.
  intros I [P _] H. destruct (enforce_preserves _ _ _ _ _ I H) as (I' & _ & PP & _). split; [exact I'|].
  destruct (Forall_Exists_dec (fun it => unpub it = false) (fun it => bool_dec (unpub it) false) (items s')) as [A|A].
  - right. exact (proj1 (Forall_forall _ _) A).
  - (* an unpublished item of s' can only be the candidate *)
    left. apply Exists_exists in A. destruct A as [x [Hx Ux]]. apply not_false_is_true in Ux.
    split; [exact (PP k P)|]. exists x. split; [exact Hx|]. split; [exact (PP k P x Hx Ux)|exact Ux].
Qed.

Theorem enforce_from_quiet s inn tie s' d : SInv s -> Quiet s -> enforce e s inn tie = (s', d) -> SInv s' /\ Quiet s'.
Proof. intros I Q H. destruct (enforce_preserves _ _ _ _ _ I H) as (I' & QQ & _). split; [exact I'|exact (QQ Q)]. Qed.

(* inside apply_sieve, right after the candidate is linked *)
Theorem ins_state_pending s k v ex c s0 gh :
  SInv s -> Quiet s -> lookup s (e_pol e) k = None -> 0 <= c -> ins_pre s = (s0, gh) ->
  SInv (ins_state s0 gh k v ex c) /\ Pending (ins_state s0 gh k v ex c) k.
Proof.
  intros I Q L C IP. destruct (ins_pre_spec _ _ _ I IP) as (I0 & SA & _).
  pose proof (lookup_none _ _ I Q L) as NK. unfold Quiet in Q. rewrite <- (Same_items _ _ SA) in NK, Q.
  destruct (ins_state_spec s0 gh k v ex c I0 NK C) as (I1 & PD & _). exact (conj I1 (PD Q)).
Qed.

Theorem pub_state_quiet s2 k : SInv s2 -> Pending s2 k -> SInv (pub_state s2 k) /\ Quiet (pub_state s2 k).
Proof.
  intros I [P [x (Hx & Kx & Ux)]]. destruct (pub_state_spec s2 k x I P Hx Kx Ux) as (A & B & _). split; assumption.
Qed.

End Env.

Corollary lookup_spec_sieve s k : SInv s -> Quiet s ->
  lookup s policySieve k = find_item (prob s ++ main s) k /\ (lookup s policySieve k <> None <-> In k (tabk s)).
Proof. exact (lookup_spec {| e_pol := policySieve; e_stats := false; e_mask := 0 |} eq_refl s k). Qed.

(* the hypotheses above can be met: a concrete shard of capacity 4 and writes computed from it *)
Definition ex_env : env := {| e_pol := policySieve; e_stats := true; e_mask := 3 |}.
Definition ex_s0 : shard :=
  {| cap := 4; costcap := 0; tabk := []; lst := []; lfu := []; prob := []; main := []; hand := None;
     pcap := 1; mcap := 3; pmin := 1; pmax := 2; size := 0; scost := 0; staged := []; evs := []; pend := [];
     admits := 0; rejects := 0; ghosthits := 0; promos := 0; pevicts := 0; mevicts := 0; serr := 0; glog := []; nlog := [] |}.
(* one Set(k, v) of cost 1, no TTL, with the oracle events [ev] recorded for it *)
Definition ex_set (s : shard) (ev : list (Z * Z)) (k v : Z) : shard * bool * Z :=
  apply_sieve ex_env (sh_evs s ev []) k v 0 1.
Definition ex_st (r : shard * bool * Z) : shard := fst (fst r).
(* fill: four inserts (two in warm-up), each consuming one EvGhost = 0 *)
Definition ex_fill : shard :=
  ex_st (ex_set (ex_st (ex_set (ex_st (ex_set (ex_st (ex_set ex_s0 [(1,0)] 1 10)) [(1,0)] 2 20)) [(1,0)] 3 30)) [(1,0)] 4 40).
(* update-all: every key is rewritten once, recordUpdate promotes each to main *)
Definition ex_upd : shard :=
  ex_st (ex_set (ex_st (ex_set (ex_st (ex_set (ex_st (ex_set ex_fill [] 1 11)) [] 2 21)) [] 3 31)) [] 4 41).
(* a fifth key with events EvGhost 0, EvKeep 0, EvAdmit a *)
Definition ex_accept := ex_set ex_upd [(1,0);(2,0);(3,1)] 5 50.
Definition ex_reject := ex_set ex_upd [(1,0);(2,0);(3,0)] 5 50.

Definition ex_view (s : shard) :=
  (map key (prob s), map key (main s), hand s, tabk s, size s, scost s, serr s, over_capacity s, evs s).
Definition Good (s : shard) : Prop := SInv s /\ Quiet s /\ Ledger s /\ NotifLog 3 s.

Lemma ex_s0_good : Good ex_s0.
Proof.
  unfold Good. split; [|split; [|split]].
  - apply SInvF_empty; cbn; lia.
  - intros it [].
  - intros k v. reflexivity.
  - reflexivity.
Qed.

Lemma ex_set_good s ev k v : Good s -> Good (ex_st (ex_set s ev k v)).
Proof.
  intros (I & Q & L & N). unfold ex_st, ex_set.
  destruct (apply_sieve ex_env (sh_evs s ev []) k v 0 1) as [[s' cm] d] eqn:H. cbn [fst].
  (* sh_evs changes the oracle stream only, so the four facts about s hold of the state written to as they stand *)
  destruct (apply_sieve_Pres ex_env eq_refl (sh_evs s ev []) k v 0 1 _ _ _ I Q ltac:(lia) H) as (I' & Q' & _ & L' & N').
  exact (conj I' (conj (Q' Q) (conj (L' L) (N' N)))).
Qed.

Example ex_fill_view : ex_view ex_fill = ([4; 3; 2; 1], [], None, [4; 3; 2; 1], 4, 4, 0, false, []).
Proof. vm_compute. reflexivity. Qed.
Example ex_fill_good : Good ex_fill.
Proof. unfold ex_fill. do 4 apply ex_set_good. exact ex_s0_good. Qed.

Example ex_upd_view : ex_view ex_upd = ([], [4; 3; 2; 1], Some 1, [4; 3; 2; 1], 4, 4, 0, false, []).
Proof. vm_compute. reflexivity. Qed.
Example ex_upd_good : Good ex_upd.
Proof. unfold ex_upd. do 4 apply ex_set_good. exact ex_fill_good. Qed.
Example ex_upd_values : map (fun k => match lookup ex_upd policySieve k with Some it => val it | None => -1 end) [1; 2; 3; 4; 5]
                        = [11; 21; 31; 41; -1].
Proof. vm_compute. reflexivity. Qed.

(* accepted: the SIEVE hand clears the visited bits, evicts key 1 (reason capacity), key 5 is published *)
Example ex_accept_result :
  let '(s, cm, d) := ex_accept in
  ex_view s = ([5], [4; 3; 2], Some 2, [5; 4; 3; 2], 4, 4, 0, false, []) /\ cm = true /\ d = 1 /\
  skipn 12 (glog s) = [(0, 5, 50); (10 + reasonCapacity, 1, 11)] /\
  nlog s = [{| nkey := 1; nval := 11; nreason := reasonCapacity |}] /\
  (mevicts s, pevicts s, admits s, rejects s, promos s) = (1, 0, 5, 0, 4).
Proof. vm_compute. repeat split; reflexivity. Qed.
Example ex_accept_good : Good (ex_st ex_accept).
Proof. unfold ex_accept. apply ex_set_good. exact ex_upd_good. Qed.

(* rejected: the candidate is dropped with reason rejected, never published, nothing else changes *)
Example ex_reject_result :
  let '(s, cm, d) := ex_reject in
  ex_view s = ([], [4; 3; 2; 1], Some 2, [4; 3; 2; 1], 4, 4, 0, false, []) /\ cm = false /\ d = 0 /\
  skipn 12 (glog s) = [(0, 5, 50); (10 + reasonRejected, 5, 50)] /\
  nlog s = [{| nkey := 5; nval := 50; nreason := reasonRejected |}] /\
  lookup s policySieve 5 = None /\
  (mevicts s, pevicts s, admits s, rejects s, promos s) = (0, 0, 4, 1, 4).
Proof. vm_compute. repeat split; reflexivity. Qed.
Example ex_reject_good : Good (ex_st ex_reject).
Proof. unfold ex_reject. apply ex_set_good. exact ex_upd_good. Qed.

(* why the forced section matters: a capacity-1 shard has pcap = 1, mcap = 0 (sieve_segs 1), so promotion is
   impossible; once the resident key has been rewritten (reuse 1, visited) evict_probation keeps answering
   "promoted" without moving anything, the bounded pass burns its 32 work units without progress, and only
   force_loop restores the budget (evicting the resident with reason capacity). *)
Definition c1_s0 : shard :=
  {| cap := 1; costcap := 0; tabk := []; lst := []; lfu := []; prob := []; main := []; hand := None;
     pcap := 1; mcap := 0; pmin := 1; pmax := 1; size := 0; scost := 0; staged := []; evs := []; pend := [];
     admits := 0; rejects := 0; ghosthits := 0; promos := 0; pevicts := 0; mevicts := 0; serr := 0; glog := []; nlog := [] |}.
Definition c1_b : shard := ex_st (ex_set (ex_st (ex_set c1_s0 [(1,0)] 1 10)) [] 1 11).
Definition c1_in : shard := ins_state (fst (ins_pre (sh_evs c1_b [(1,0)] []))) false 2 20 0 1.

Example ex_cap1_bounded_pass_stuck :
  let '(s, inn, tie, a) := enforce_loop (Z.to_nat maxEvictionWork) ex_env c1_in (Some 2) false 0 in
  over_capacity s = true /\ map key (prob s) = [2; 1] /\ glog s = glog c1_in /\ inn = Some 1 /\ a = 0.
Proof. vm_compute. repeat split; reflexivity. Qed.

Example ex_cap1_forced :
  let '(s, cm, d) := ex_set c1_b [(1,0)] 2 20 in
  ex_view s = ([2], [], None, [2], 1, 1, 0, false, []) /\ cm = true /\ d = 1 /\
  skipn 3 (glog s) = [(0, 2, 20); (10 + reasonCapacity, 1, 11)].
Proof. vm_compute. repeat split; reflexivity. Qed.

(* update_effective needs the budget hypothesis [over_capacity s = false] for its "takes effect" clause: from a state
   that satisfies SInv and Quiet but is already over capacity (unreachable between operations, by
   apply_sieve_budget_strong) the freshly updated key itself can be the forced victim, even with costcap = 0. *)
Definition s_over : shard :=
  {| cap := 1; costcap := 0; tabk := [2; 1]; lst := []; lfu := [];
     prob := [ {| key := 2; val := 20; exp := 0; cost := 1; reuse := 0; visited := false; unpub := false |};
               {| key := 1; val := 10; exp := 0; cost := 1; reuse := 0; visited := false; unpub := false |} ];
     main := []; hand := None;
     pcap := 1; mcap := 0; pmin := 1; pmax := 1; size := 2; scost := 2; staged := []; evs := []; pend := [];
     admits := 0; rejects := 0; ghosthits := 0; promos := 0; pevicts := 0; mevicts := 0; serr := 0; glog := []; nlog := [] |}.

Lemma s_over_inv : SInv s_over /\ Quiet s_over.
Proof.
  split.
  - unfold SInv, s_over. cbn [cap pcap mcap pmin pmax tabk lst lfu prob main hand size scost].
    constructor; cbn [app map key cost sumZ]; try lia.
    + repeat constructor; cbn [In]; intuition lia.
    + repeat constructor; cbn [In]; intuition lia.
    + intros k. cbn [In]. split.
      * intros [<-|[<-|[]]]; eauto 7.
      * intros [it [[H|[H|[]]] [K _]]]; subst it; cbn [key] in K; lia.
    + reflexivity.
    + intros it [H|[H|[]]]; subst it; cbn [cost]; lia.
    + discriminate.
    + split; reflexivity.
  - intros it [H|[H|[]]]; subst it; reflexivity.
Qed.

Example update_effective_literal_refuted :
  SInv s_over /\ Quiet s_over /\ costcap s_over = 0 /\ over_capacity s_over = true /\
  (exists prev, lookup s_over policySieve 1 = Some prev) /\
  let '(s', cm, d) := apply_sieve ex_env s_over 1 99 0 1 in
  cm = true /\ lookup s' policySieve 1 = None /\ glog s' = [(1, 1, 10); (0, 1, 99); (10 + reasonCapacity, 1, 99)].
Proof.
  split; [exact (proj1 s_over_inv)|]. split; [exact (proj2 s_over_inv)|].
  split; [reflexivity|]. split; [reflexivity|]. split; [eexists; vm_compute; reflexivity|].
  vm_compute. repeat split; reflexivity.
Qed.
