(* HtableModel.v — the per-shard open-addressing table (htable.go) in its sequential view:
   every operation runs under the shard write lock, slots are {empty, tombstone, live item}.
   Loops carry explicit fuel = number of slots; `None`/error results mean "out of fuel" and
   are ruled out by the theorems (an empty slot always exists under the load bound).  Only
   reclaim_loop has no such result: with its fuel spent it returns what it has, like a normal
   stop, which the theorems allow and do not exclude. *)
Require Import KV.Base KV.Gen.Consts.
Open Scope Z_scope.

Record item := { ikey : Z; ihash : Z; ival : Z; iid : Z }.

Inductive cell := Empty | Tomb | Live (it : item).

Record cursor := { cgen : Z; cslot : nat; ctomb : bool }.

Record htable := {
  slots : list cell;
  live : Z;
  tombs : Z;
  pinned : option nat;
  gen : Z;          (* identity of the slot array: bumped by clear and rehash *)
  herr : bool       (* a loop ran out of fuel (never, under the invariant) *)
}.

(* htNormHash *)
Definition norm (h : Z) : Z := if h <? 2 then h + 2 else h.

Definition nslots (t : htable) : nat := length (slots t).
Definition home_in (n : nat) (h : Z) : nat := Z.to_nat (norm h mod Z.of_nat n).
Definition next_in (n i : nat) : nat := if Nat.eqb (S i) n then O else S i.
Definition prev_in (n i : nat) : nat := match i with O => Nat.pred n | S j => j end.

Definition getc (l : list cell) (i : nat) : cell := nth i l Empty.
Fixpoint setc (l : list cell) (i : nat) (c : cell) : list cell :=
  match l, i with
  | [], _ => []
  | _ :: r, O => c :: r
  | x :: r, S j => x :: setc r j c
  end.

Definition matches (it : item) (h k : Z) : bool := (norm (ihash it) =? norm h) && (ikey it =? k).

(* ---- lookup ---- *)
Fixpoint lookup_from (fuel : nat) (l : list cell) (n i : nat) (h k : Z) : option (option item) :=
  match fuel with
  | O => None
  | S f =>
    match getc l i with
    | Empty => Some None
    | Tomb => lookup_from f l n (next_in n i) h k
    | Live it => if matches it h k then Some (Some it) else lookup_from f l n (next_in n i) h k
    end
  end.
Definition lookup (t : htable) (h k : Z) : option item :=
  match lookup_from (nslots t) (slots t) (nslots t) (home_in (nslots t) h) h k with
  | Some r => r
  | None => None
  end.

(* ---- rehash / maybeGrow ---- *)
Fixpoint first_empty (fuel : nat) (l : list cell) (n i : nat) : option nat :=
  match fuel with
  | O => None
  | S f => match getc l i with Empty => Some i | _ => first_empty f l n (next_in n i) end
  end.

Definition reinsert (n : nat) (acc : list cell * bool) (c : cell) : list cell * bool :=
  match c with
  | Live it =>
    match first_empty n (fst acc) n (home_in n (ihash it)) with
    | Some j => (setc (fst acc) j (Live it), snd acc)
    | None => (fst acc, true)
    end
  | _ => acc
  end.

Definition count_live (l : list cell) : Z :=
  fold_left (fun a c => match c with Live _ => a + 1 | _ => a end) l 0.

Definition rehash (t : htable) (newN : nat) : htable :=
  let '(nl, e) := fold_left (reinsert newN) (slots t) (repeat Empty newN, false) in
  {| slots := nl; live := count_live nl; tombs := 0; pinned := None; gen := gen t + 1; herr := herr t || e |}.

Definition maybe_grow (t : htable) : htable :=
  let n := Z.of_nat (nslots t) in
  if (live t + tombs t) * htLoadDen <? n * htLoadNum then t
  else rehash t (if live t * htLoadDen >=? n * htLoadNum then (nslots t * 2)%nat else nslots t).

(* ---- store ---- *)
Inductive probe_res := PEmpty (at_ : nat) (tomb : bool) | PFound (slot : nat) (it : item) | PFuel.

(* one walk shared by store and probe: first tombstone remembered, stops at empty or match *)
Fixpoint walk_for (fuel : nat) (l : list cell) (n i : nat) (ft : option nat) (h k : Z) : probe_res :=
  match fuel with
  | O => PFuel
  | S f =>
    match getc l i with
    | Empty => match ft with Some j => PEmpty j true | None => PEmpty i false end
    | Tomb => walk_for f l n (next_in n i) (match ft with Some _ => ft | None => Some i end) h k
    | Live it => if matches it h k then PFound i it else walk_for f l n (next_in n i) ft h k
    end
  end.
Definition walk (t : htable) (h k : Z) : probe_res :=
  walk_for (nslots t) (slots t) (nslots t) (home_in (nslots t) h) None h k.

Definition with_slots (t : htable) (l : list cell) (lv tb : Z) (p : option nat) : htable :=
  {| slots := l; live := lv; tombs := tb; pinned := p; gen := gen t; herr := herr t |}.
Definition set_err (t : htable) : htable :=
  {| slots := slots t; live := live t; tombs := tombs t; pinned := pinned t; gen := gen t; herr := true |}.

Definition store (t : htable) (it : item) : htable * option item :=
  match walk t (ihash it) (ikey it) with
  | PEmpty j tomb =>
    (maybe_grow (with_slots t (setc (slots t) j (Live it)) (live t + 1)
                   (if tomb then tombs t - 1 else tombs t) (pinned t)), None)
  | PFound s cur => (with_slots t (setc (slots t) s (Live it)) (live t) (tombs t) (pinned t), Some cur)
  | PFuel => (set_err t, None)
  end.

(* ---- probe / publish / swapAt / unpin ---- *)
Definition probe (t : htable) (h k : Z) : htable * option (nat * item) * cursor :=
  match walk t h k with
  | PEmpty j tomb =>
    (with_slots t (slots t) (live t) (tombs t) (Some j), None, {| cgen := gen t; cslot := j; ctomb := tomb |})
  | PFound s it => (t, Some (s, it), {| cgen := -1; cslot := 0; ctomb := false |})
  | PFuel => (set_err t, None, {| cgen := -1; cslot := 0; ctomb := false |})
  end.

Definition publish (t : htable) (it : item) (cur : cursor) : htable :=
  let t0 := with_slots t (slots t) (live t) (tombs t) None in
  if negb (cgen cur =? gen t) then fst (store t0 it)
  else
    let wasTomb := ctomb cur && match getc (slots t) (cslot cur) with Tomb => true | _ => false end in
    maybe_grow (with_slots t (setc (slots t) (cslot cur) (Live it)) (live t + 1)
                  (if wasTomb then tombs t - 1 else tombs t) None).

Definition swap_at (t : htable) (s : nat) (it : item) : htable :=
  with_slots t (setc (slots t) s (Live it)) (live t) (tombs t) (pinned t).

Definition unpin (t : htable) : htable := with_slots t (slots t) (live t) (tombs t) None.

(* ---- removeExact / reclaimTombs ---- *)
Definition is_pin (p : option nat) (i : nat) : bool :=
  match p with Some q => Nat.eqb q i | None => false end.

Fixpoint reclaim_loop (fuel : nat) (l : list cell) (n i : nat) (p : option nat) (tb : Z) : list cell * Z :=
  match fuel with
  | O => (l, tb)
  | S f =>
    if is_pin p i then (l, tb)
    else match getc l i with
         | Tomb => reclaim_loop f (setc l i Empty) n (prev_in n i) p (tb - 1)
         | _ => (l, tb)
         end
  end.

Definition reclaim_tombs (l : list cell) (n i : nat) (p : option nat) (tb : Z) : list cell * Z :=
  let nx := next_in n i in
  if is_pin p nx then (l, tb)
  else match getc l nx with
       | Empty => reclaim_loop n l n i p tb
       | _ => (l, tb)
       end.

Fixpoint find_exact (fuel : nat) (l : list cell) (n i : nat) (it : item) : option (option nat) :=
  match fuel with
  | O => None
  | S f =>
    match getc l i with
    | Empty => Some None
    | Tomb => find_exact f l n (next_in n i) it
    | Live cur => if (norm (ihash cur) =? norm (ihash it)) && (iid cur =? iid it) then Some (Some i)
                  else find_exact f l n (next_in n i) it
    end
  end.

Definition remove_exact (t : htable) (it : item) : htable * bool :=
  match find_exact (nslots t) (slots t) (nslots t) (home_in (nslots t) (ihash it)) it with
  | Some (Some i) =>
    let l1 := setc (slots t) i Tomb in
    let '(l2, tb) := reclaim_tombs l1 (nslots t) i (pinned t) (tombs t + 1) in
    (with_slots t l2 (live t - 1) tb (pinned t), true)
  | Some None => (t, false)
  | None => (set_err t, false)
  end.

Definition clear (t : htable) : htable :=
  {| slots := repeat Empty (nslots t); live := 0; tombs := 0; pinned := None; gen := gen t + 1; herr := herr t |}.

Definition contents (t : htable) : list item :=
  flat_map (fun c => match c with Live it => [it] | _ => [] end) (slots t).

Definition new_table (capHint : Z) : htable :=
  let n := Z.to_nat (Z.max (if capHint * 2 <=? 1 then 1 else 2 ^ (Z.log2 (capHint * 2 - 1) + 1)) htMinSlots) in
  {| slots := repeat Empty n; live := 0; tombs := 0; pinned := None; gen := 0; herr := false |}.

(* ---- stream "ht": the VerifHtable wrapper ---- *)
Record htstate := {
  tab : htable;
  hcur : cursor;
  hslot : nat;
  lastobj : list (Z * item);   (* most recent item object created per key *)
  nextid : Z
}.

Fixpoint assoc_get (l : list (Z * item)) (k : Z) : option item :=
  match l with [] => None | (k', v) :: r => if k' =? k then Some v else assoc_get r k end.
Definition assoc_set (l : list (Z * item)) (k : Z) (v : item) : list (Z * item) := (k, v) :: l.

Definition mk (s : htstate) (k h v : Z) : item := {| ikey := k; ihash := h; ival := v; iid := nextid s |}.
Definition upd_state (s : htstate) (t : htable) (newobj : option item) : htstate :=
  {| tab := t; hcur := hcur s; hslot := hslot s;
     lastobj := match newobj with Some it => assoc_set (lastobj s) (ikey it) it | None => lastobj s end;
     nextid := match newobj with Some _ => nextid s + 1 | None => nextid s end |}.

Definition ht_obs (t : htable) : list Z := [live t; b2z (herr t)].

Definition ht_step (s : htstate) (op : list Z) : htstate * list Z :=
  match op with
  | [1; k; h; v] =>
    let it := mk s k h v in
    let '(t1, prev) := store (tab s) it in
    (upd_state s t1 (Some it),
     match prev with Some p => [1; ival p] | None => [0; 0] end ++ ht_obs t1)
  | [2; k; h] =>
    (s, match lookup (tab s) h k with Some it => [1; ival it] | None => [0; 0] end)
  | [3; k; h] =>
    let '(t1, found, cur) := probe (tab s) h k in
    ({| tab := t1; hcur := cur; hslot := match found with Some (sl, _) => sl | None => O end;
        lastobj := lastobj s; nextid := nextid s |},
     match found with Some (_, it) => [1; ival it] | None => [0; 0] end)
  | [4; k; h; v] =>
    let it := mk s k h v in
    let t1 := swap_at (tab s) (hslot s) it in
    (upd_state s t1 (Some it), ht_obs t1)
  | [5; k; h; v] =>
    let it := mk s k h v in
    let t1 := publish (tab s) it (hcur s) in
    (upd_state s t1 (Some it), ht_obs t1)
  | [6] => let t1 := unpin (tab s) in (upd_state s t1 None, ht_obs t1)
  | [7; k; h] =>
    match lookup (tab s) h k with
    | Some it => let '(t1, ok) := remove_exact (tab s) it in (upd_state s t1 None, [b2z ok] ++ ht_obs t1)
    | None => (s, [0] ++ ht_obs (tab s))
    end
  | [8; k] =>
    match assoc_get (lastobj s) k with
    | Some it => let '(t1, ok) := remove_exact (tab s) it in (upd_state s t1 None, [b2z ok; 1] ++ ht_obs t1)
    | None => (s, [0; 0] ++ ht_obs (tab s))
    end
  | [9] =>
    let t1 := clear (tab s) in
    ({| tab := t1; hcur := hcur s; hslot := hslot s; lastobj := []; nextid := nextid s |}, ht_obs t1)
  | _ => (s, [-1])
  end.

Definition ht_init (cfg : list Z) : htstate :=
  {| tab := new_table (match cfg with [c] => c | _ => 0 end);
     hcur := {| cgen := -1; cslot := 0; ctomb := false |}; hslot := O; lastobj := []; nextid := 0 |}.
