(* ConfigProofs.v — theorems about ConfigModel (property C16). *)
Require Import KV.Base KV.Gen.Consts KV.ConfigModel.
(* from here on, and in every file that imports this one, lia also handles / and mod *)
Ltac Zify.zify_post_hook ::= Z.div_mod_to_equations.

Definition is_pow2 (z : Z) : Prop := exists k, 0 <= k /\ z = 2 ^ k.

(* Side conditions on the generated constants, re-checked whenever they change.  The theorems below use
   them and never the values: the exponent is computed, so any other power of two up to 2^62 would do. *)
Lemma maxShard_pow2 : exists k, 0 <= k <= 62 /\ maxShardCount = 2 ^ k.
Proof. exists (Z.log2 maxShardCount). vm_compute. intuition congruence. Qed.

Lemma shardMultiplier_pos : 1 <= shardMultiplier. Proof. vm_compute; congruence. Qed.
Lemma defaults_positive :
  1 <= defaultWriteBufferSize <= 2 ^ 62 /\ 1 <= defaultWriteBatchSize /\
  1 <= defaultProbationRatio <= 100 /\ 1 <= defaultGhostRatio <= 100 /\
  policyDefault <= defaultPolicy <= policySieve /\ defaultPolicy <> policyDefault.
Proof. vm_compute. intuition congruence. Qed.

Lemma bits_len_pos n : 0 < n -> bits_len n = Z.log2 n + 1.
Proof. intros H; unfold bits_len. destruct (n <=? 0) eqn:E; [lia|reflexivity]. Qed.

Lemma prev_pow2_spec n : 1 <= n ->
  is_pow2 (prev_pow2 n) /\ 1 <= prev_pow2 n <= n.
Proof.
  intros H. unfold prev_pow2. rewrite bits_len_pos by lia.
  replace (Z.log2 n + 1 - 1) with (Z.log2 n) by lia.
  pose proof (Z.log2_nonneg n) as Hl.
  pose proof (Z.log2_spec n ltac:(lia)) as [Hlo _].
  split; [exists (Z.log2 n); split; [lia|reflexivity]|].
  split; [|lia].
  pose proof (Z.pow_pos_nonneg 2 (Z.log2 n) ltac:(lia) Hl). lia.
Qed.

Lemma pow2_le_mono a b : 0 <= a <= b -> 2 ^ a <= 2 ^ b.
Proof. intros H; apply Z.pow_le_mono_r; lia. Qed.

(* k = 62 gives the range on which the 64-bit shift does not wrap *)
Lemma next_pow2_spec n k : 0 <= k <= 62 -> 1 <= n <= 2 ^ k ->
  is_pow2 (next_pow2 n) /\ n <= next_pow2 n <= 2 ^ k.
Proof.
  intros Hk [H1 H2]. unfold next_pow2.
  assert (Hk62 : 2 ^ k <= 2 ^ 62) by (apply pow2_le_mono; lia).
  destruct (n <=? 1) eqn:E.
  - split; [exists 0; split; [lia|reflexivity]|].
    pose proof (Z.pow_pos_nonneg 2 k ltac:(lia) ltac:(lia)). lia.
  - rewrite bits_len_pos by lia.
    pose proof (Z.log2_nonneg (n - 1)) as Hl.
    pose proof (Z.log2_spec (n - 1) ltac:(lia)) as [_ Hhi].
    assert (Hlt : Z.log2 (n - 1) < k) by (apply Z.log2_lt_pow2; lia).
    assert (Hb : 2 ^ (Z.log2 (n - 1) + 1) <= 2 ^ k) by (apply pow2_le_mono; lia).
    rewrite wrap64_small.
    + split; [exists (Z.log2 (n - 1) + 1); split; [lia|reflexivity]|]. lia.
    + change (2 ^ 62) with 4611686018427387904 in Hk62. unfold two63. lia.
Qed.

Definition ranges_ok (c : config) : Prop :=
  0 <= MaxSize c /\ 0 <= MaxCost c /\ 0 <= ShardCount c /\ 0 <= CleanupInterval c /\
  (0 <= DefaultTTL c \/ DefaultTTL c = noExpiration) /\
  policyDefault <= Policy c <= policySieve /\
  ~ (effective_policy c = policySieve /\ MaxSize c <= 0 /\ 0 < MaxCost c) /\
  0 <= CostAdmission c <= 2 /\ ProbationRatio c <= 100 /\ GhostRatio c <= 100 /\
  0 <= WriteBufferSize c /\ 0 <= WriteBatchSize c.

Lemma validate_exact c : validate c = None <-> ranges_ok c.
Proof.
  unfold validate, ranges_ok.
  (* a guard that fires rejects, and contradicts its own conjunct of ranges_ok *)
  repeat match goal with
  | |- (if ?g then Some _ else _) = None <-> _ => destruct g eqn:?; [split; [discriminate|lia]|]
  end.
  split; [intros _; lia | reflexivity].
Qed.

Lemma maxShard_bounds : 1 <= maxShardCount <= 2 ^ 62.
Proof.
  destruct maxShard_pow2 as [k [Hk Hm]]. rewrite Hm. split.
  - pose proof (Z.pow_pos_nonneg 2 k ltac:(lia) ltac:(lia)). lia.
  - apply pow2_le_mono; lia.
Qed.

Section ShardCount.
  Variables (c : config) (ncpu : Z).
  Hypothesis Hok : validate c = None.
  Hypothesis Hcpu : 1 <= ncpu.
  Hypothesis Hsc : ShardCount c <= 2 ^ 62.

  (* the three stages of shard_count (shard_count_eq): the requested or automatic count, then capped by
     the size budget, then by the cost budget; shard_count rounds sc2 up to a power of two *)
  Let sc0 := if ShardCount c <=? 0 then Z.min (ncpu * shardMultiplier) maxShardCount else ShardCount c.
  Let sc1 := if 0 <? MaxSize c then Z.min sc0 (prev_pow2 (Z.min (MaxSize c) maxShardCount)) else sc0.
  Let sc2 := if 0 <? MaxCost c then Z.min sc1 (prev_pow2 (Z.min (MaxCost c) maxShardCount)) else sc1.

  Lemma sc0_range : 1 <= sc0 <= 2 ^ 62.
  Proof.
    pose proof maxShard_bounds. pose proof shardMultiplier_pos.
    apply validate_exact in Hok. unfold ranges_ok in Hok. subst sc0.
    destruct (ShardCount c <=? 0) eqn:E; [|lia].
    assert (1 <= ncpu * shardMultiplier) by nia. lia.
  Qed.

  Lemma sc1_range : 1 <= sc1 <= sc0.
  Proof.
    pose proof sc0_range. pose proof maxShard_bounds. subst sc1.
    destruct (0 <? MaxSize c) eqn:E; [|lia].
    pose proof (prev_pow2_spec (Z.min (MaxSize c) maxShardCount) ltac:(lia)). lia.
  Qed.

  Lemma sc2_range : 1 <= sc2 <= sc1.
  Proof.
    pose proof sc1_range. pose proof maxShard_bounds. subst sc2.
    destruct (0 <? MaxCost c) eqn:E; [|lia].
    pose proof (prev_pow2_spec (Z.min (MaxCost c) maxShardCount) ltac:(lia)). lia.
  Qed.

  Lemma shard_count_eq : shard_count c ncpu = next_pow2 sc2.
  Proof. reflexivity. Qed.

  Theorem shard_count_pow2 : is_pow2 (shard_count c ncpu) /\ 1 <= shard_count c ncpu.
  Proof.
    rewrite shard_count_eq. pose proof sc2_range. pose proof sc1_range. pose proof sc0_range.
    pose proof (next_pow2_spec sc2 62 ltac:(lia) ltac:(lia)). intuition lia.
  Qed.

  (* rounding a value that is at most a power of two never exceeds that power *)
  Lemma round_le_prev b : 1 <= b -> sc2 <= prev_pow2 (Z.min b maxShardCount) ->
    shard_count c ncpu <= Z.min b maxShardCount.
  Proof.
    intros Hb Hle. rewrite shard_count_eq.
    pose proof maxShard_bounds.
    destruct (prev_pow2_spec (Z.min b maxShardCount) ltac:(lia)) as [[k [Hk Hp]] Hr].
    assert (k <= 62) by (apply (Z.pow_le_mono_r_iff 2); lia).
    pose proof sc2_range.
    pose proof (next_pow2_spec sc2 k ltac:(lia) ltac:(lia)). lia.
  Qed.

  Theorem shard_count_le_maxsize : 0 < MaxSize c ->
    shard_count c ncpu <= MaxSize c /\ shard_count c ncpu <= maxShardCount.
  Proof.
    intros H. pose proof sc2_range.
    assert (sc1 <= prev_pow2 (Z.min (MaxSize c) maxShardCount)).
    { subst sc1. destruct (0 <? MaxSize c) eqn:E; lia. }
    pose proof (round_le_prev (MaxSize c) ltac:(lia) ltac:(lia)). lia.
  Qed.

  Theorem shard_count_le_maxcost : 0 < MaxCost c ->
    shard_count c ncpu <= MaxCost c /\ shard_count c ncpu <= maxShardCount.
  Proof.
    intros H.
    assert (sc2 <= prev_pow2 (Z.min (MaxCost c) maxShardCount)).
    { subst sc2. destruct (0 <? MaxCost c) eqn:E; lia. }
    pose proof (round_le_prev (MaxCost c) ltac:(lia) ltac:(lia)). lia.
  Qed.

  Theorem shard_count_auto_le_max : ShardCount c = 0 -> shard_count c ncpu <= maxShardCount.
  Proof.
    intros H. rewrite shard_count_eq.
    destruct maxShard_pow2 as [k [Hk Hm]].
    pose proof sc2_range. pose proof sc1_range.
    assert (sc0 <= maxShardCount).
    { subst sc0. rewrite H. cbn. lia. }
    rewrite Hm in *. apply next_pow2_spec; lia.
  Qed.
End ShardCount.

Lemma zseq_length s n : length (zseq s n) = n.
Proof. revert s; induction n as [|n IH]; intros s; cbn; [reflexivity|now rewrite IH]. Qed.

Lemma zseq_In s n x : In x (zseq s n) <-> s <= x < s + Z.of_nat n.
Proof.
  revert s; induction n as [|n IH]; intros s; cbn [zseq In].
  - lia.
  - rewrite IH. lia.
Qed.

Lemma sum_indicator r s n : 0 <= r ->
  sumZ (map (fun i => if i <? r then 1 else 0) (zseq s n)) =
  Z.max 0 (Z.min (s + Z.of_nat n) r - Z.min s r).
Proof.
  intros Hr. revert s; induction n as [|n IH]; intros s; cbn [zseq map sumZ].
  - lia.
  - rewrite IH. destruct (s <? r) eqn:E; lia.
Qed.

Lemma sum_const k s n : sumZ (map (fun _ => k) (zseq s n)) = k * Z.of_nat n.
Proof. revert s; induction n as [|n IH]; intros s; cbn [zseq map sumZ]; [lia|rewrite IH; lia]. Qed.

Lemma sumZ_map_add (f g : Z -> Z) l :
  sumZ (map (fun i => f i + g i) l) = sumZ (map f l) + sumZ (map g l).
Proof. induction l as [|x l IH]; cbn [map sumZ]; lia. Qed.

Theorem share_sum budget n : 0 < budget -> 1 <= n ->
  sumZ (map (share budget n) (zseq 0 (Z.to_nat n))) = budget.
Proof.
  intros Hb Hn. unfold share.
  replace (0 <? budget) with true by lia.
  rewrite (sumZ_map_add (fun _ => budget / n) (fun i => if i <? budget mod n then 1 else 0)).
  rewrite sum_const, sum_indicator by (apply Z.mod_pos_bound; lia).
  rewrite Z2Nat.id by lia.
  pose proof (Z.mod_pos_bound budget n ltac:(lia)).
  pose proof (Z.div_mod budget n ltac:(lia)). lia.
Qed.

Theorem share_ge_1 budget n i : 1 <= n <= budget -> 1 <= share budget n i.
Proof.
  intros H. unfold share. replace (0 <? budget) with true by lia.
  assert (1 <= budget / n) by (apply Z.div_le_lower_bound; lia).
  destruct (i <? budget mod n); lia.
Qed.

Theorem share_zero_when_unset n i : share 0 n i = 0.
Proof. reflexivity. Qed.

(* of the quotients only their ranges matter *)
Lemma div100_lt x cap : 0 <= x < 100 * cap -> 0 <= x / 100 < cap.
Proof. intros H. split; [apply Z.div_pos|apply Z.div_lt_upper_bound]; lia. Qed.

(* the probation size is clamped between lo and hi, and the ghost size is raised to 1 whenever the main
   segment is not empty *)
Lemma sieve_segs_bounds cap pr gr : 1 <= cap ->
  let s := sieve_segs cap pr gr in
  1 <= lo s <= pc s /\ pc s <= hi s /\ hi s <= cap /\ mc s = cap - pc s /\
  (2 <= cap -> 1 <= mc s) /\ (0 < mc s -> 1 <= gc s) /\ 0 <= gc s /\ 1 <= astep s.
Proof.
  intros Hc. unfold sieve_segs. cbn [lo hi pc mc gc astep].
  pose proof (div100_lt cap cap ltac:(lia)) as H1.
  pose proof (div100_lt (cap * 60) cap ltac:(lia)) as H60.
  revert H1 H60. generalize (cap / 100) (cap * 60 / 100). intros q1 q60 H1 H60.
  generalize (cap * (if pr =? 0 then defaultProbationRatio else pr) / 100). intros qp.
  set (l := Z.max 1 q1). set (h0 := Z.max l q60).
  set (h := if (cap <=? h0) && (1 <? cap) then cap - 1 else h0).
  set (p := Z.min (Z.max qp l) h).
  assert (Hseg : 1 <= l <= p /\ p <= h /\ h <= cap /\ (2 <= cap -> 1 <= cap - p)).
  { subst p h h0 l. destruct ((cap <=? _) && (1 <? cap)) eqn:E; lia. }
  assert (Hgc : cap - p = 0 -> (cap - p) * (if gr =? 0 then defaultGhostRatio else gr) / 100 = 0)
    by (intros ->; reflexivity).
  revert Hgc. generalize ((cap - p) * (if gr =? 0 then defaultGhostRatio else gr) / 100). intros g0 Hgc.
  destruct ((0 <? cap - p) && (g0 <? 1)) eqn:E; lia.
Qed.

Theorem sieve_segs_wf cap pr gr :
  1 <= cap -> 0 <= pr <= 100 -> 0 <= gr <= 100 ->
  let s := sieve_segs cap pr gr in
  1 <= lo s <= pc s /\ pc s <= hi s /\ hi s <= cap /\ mc s = cap - pc s /\
  (2 <= cap -> 1 <= mc s) /\ (0 < mc s -> 1 <= gc s) /\ 0 <= gc s /\ 1 <= astep s.
Proof. intros Hc _ _. exact (sieve_segs_bounds cap pr gr Hc). Qed.

Definition with_defaults (c : config) : config :=
  {| MaxSize := MaxSize c; MaxCost := MaxCost c; ShardCount := ShardCount c;
     CleanupInterval := CleanupInterval c; DefaultTTL := DefaultTTL c;
     Policy := effective_policy c; StatsEnabled := StatsEnabled c;
     ProbationRatio := if ProbationRatio c =? 0 then defaultProbationRatio else ProbationRatio c;
     GhostRatio := if GhostRatio c =? 0 then defaultGhostRatio else GhostRatio c;
     CostAdmission := CostAdmission c;
     WriteBufferSize := if WriteBufferSize c =? 0 then defaultWriteBufferSize else WriteBufferSize c;
     WriteBatchSize := if WriteBatchSize c =? 0 then defaultWriteBatchSize else WriteBatchSize c |}.

Lemma effective_policy_idem c : effective_policy (with_defaults c) = effective_policy c.
Proof.
  pose proof defaults_positive as [_ [_ [_ [_ [_ Hne]]]]].
  unfold effective_policy at 1. cbn [Policy with_defaults].
  destruct (effective_policy c =? policyDefault) eqn:E; [|reflexivity].
  unfold effective_policy in *. destruct (Policy c =? policyDefault) eqn:E2; lia.
Qed.

Lemma or_default_idem x d : d <> 0 ->
  (if (if x =? 0 then d else x) =? 0 then d else if x =? 0 then d else x) = if x =? 0 then d else x.
Proof.
  intros Hd. destruct (x =? 0) eqn:E; [replace (d =? 0) with false by lia|rewrite E]; reflexivity.
Qed.

Lemma sieve_segs_defaults cap pr gr :
  sieve_segs cap (if pr =? 0 then defaultProbationRatio else pr)
                 (if gr =? 0 then defaultGhostRatio else gr) = sieve_segs cap pr gr.
Proof.
  pose proof defaults_positive as [_ [_ [Hdp [Hdg _]]]].
  unfold sieve_segs. rewrite !or_default_idem by lia. reflexivity.
Qed.

Theorem defaults_equivalent c ncpu :
  validate c = None -> new_obs (with_defaults c) ncpu = new_obs c ncpu.
Proof.
  intros Hok.
  pose proof defaults_positive as [Hwb [Hwbt [Hdp [Hdg [Hpol Hne]]]]].
  assert (Hok' : validate (with_defaults c) = None).
  { apply validate_exact. apply validate_exact in Hok. unfold ranges_ok in *.
    rewrite effective_policy_idem. cbn [MaxSize MaxCost ShardCount CleanupInterval DefaultTTL Policy
      ProbationRatio GhostRatio CostAdmission WriteBufferSize WriteBatchSize with_defaults].
    assert (policyDefault <= effective_policy c <= policySieve).
    { unfold effective_policy. destruct (Policy c =? policyDefault); lia. }
    assert ((if ProbationRatio c =? 0 then defaultProbationRatio else ProbationRatio c) <= 100)
      by (destruct (ProbationRatio c =? 0); lia).
    assert ((if GhostRatio c =? 0 then defaultGhostRatio else GhostRatio c) <= 100)
      by (destruct (GhostRatio c =? 0); lia).
    assert (0 <= if WriteBufferSize c =? 0 then defaultWriteBufferSize else WriteBufferSize c)
      by (destruct (WriteBufferSize c =? 0); lia).
    assert (0 <= if WriteBatchSize c =? 0 then defaultWriteBatchSize else WriteBatchSize c)
      by (destruct (WriteBatchSize c =? 0); lia).
    lia. }
  unfold new_obs. rewrite Hok, Hok'.
  assert (Hq : queue_cap (with_defaults c) = queue_cap c).
  { unfold queue_cap. cbn [WriteBufferSize with_defaults]. rewrite or_default_idem by lia. reflexivity. }
  assert (Hb : batch_cap (with_defaults c) = batch_cap c).
  { unfold batch_cap. cbn [WriteBatchSize with_defaults]. apply or_default_idem. lia. }
  assert (Hs : shard_count (with_defaults c) ncpu = shard_count c ncpu) by reflexivity.
  rewrite Hq, Hb, Hs. f_equal.
  apply flat_map_ext. intros i. unfold shard_obs.
  rewrite effective_policy_idem.
  change (shard_cap (with_defaults c)) with (shard_cap c).
  change (shard_cost_cap (with_defaults c)) with (shard_cost_cap c).
  cbn [ProbationRatio GhostRatio with_defaults]. rewrite sieve_segs_defaults. reflexivity.
Qed.

(* the wrap in NextPowerOf2 (finding F9) *)

Definition f9_config : config :=
  {| MaxSize := 0; MaxCost := 0; ShardCount := 2 ^ 62 + 1; CleanupInterval := 0; DefaultTTL := 0;
     Policy := 0; StatsEnabled := 0; ProbationRatio := 0; GhostRatio := 0; CostAdmission := 0;
     WriteBufferSize := 0; WriteBatchSize := 0 |}.

Lemma shard_count_wrap_witness :
  validate f9_config = None /\ shard_count f9_config 1 < 0.
Proof. vm_compute. split; reflexivity. Qed.

(* non-vacuity: a concrete accepted configuration with remainders in both budgets *)
Definition ex_config : config :=
  {| MaxSize := 1003; MaxCost := 77; ShardCount := 12; CleanupInterval := 0; DefaultTTL := (-1);
     Policy := 0; StatsEnabled := 1; ProbationRatio := 0; GhostRatio := 0; CostAdmission := 1;
     WriteBufferSize := 3; WriteBatchSize := 0 |}.

Example ex_config_ok :
  validate ex_config = None /\ shard_count ex_config 4 = 16 /\
  shard_cap ex_config 16 0 = 63 /\ shard_cap ex_config 16 15 = 62 /\
  shard_cost_cap ex_config 16 12 = 5 /\ shard_cost_cap ex_config 16 13 = 4 /\ queue_cap ex_config = 4.
Proof. vm_compute. repeat split; reflexivity. Qed.
