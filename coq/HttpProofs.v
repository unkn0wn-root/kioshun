(* HttpProofs.v — theorems about HttpModel (httpcache middleware; properties C13, C14): the capturing
   response writer over every handler script, Cache-Control parsing against an RFC 9111 reading,
   the default policy's decision table, strconv.Atoi / extractMaxAge, and replay of a stored response. *)
Require Import KV.Base KV.HttpModel.
Open Scope Z_scope.

Lemma is_info_101 : is_info 101 = false. Proof. reflexivity. Qed.

(* the actions that leave the capturing writer with `wrote` set *)
Definition commits (a : action) : bool :=
  match a with
  | AWriteHeader code => negb (is_info code)
  | AWrite _ _ | AFlush | AHijack => true
  | _ => false
  end.

(* the actions that set `streamed`: Flush, Hijack, and 101 as the committing status *)
Definition streams_now (wrote : bool) (a : action) : bool :=
  match a with
  | AFlush | AHijack => true
  | AWriteHeader code => negb (is_info code) && negb wrote && (code =? 101)
  | _ => false
  end.

Lemma cap_finish_act cu : cap_finish cu = act cu (AWriteHeader 200).
Proof.
  destruct cu as [c u]. cbn [cap_finish act]. unfold cap_write_header. change (is_info 200) with false.
  destruct (c_wrote c); reflexivity.
Qed.

(* cw_set c status buf buflen headers wrote toolarge streamed *)
Lemma act_fst cu a : let c := fst cu in exists st hd,
  let c' := cw_set c st (c_buf c) (c_buflen c) hd (c_wrote c || commits a) (c_toolarge c)
                   (c_streamed c || streams_now (c_wrote c) a) in
  fst (act cu a) = match a with AWrite n t => cap_capture c' n t | _ => c' end.
Proof.
  destruct cu as [[st buf bl hd wr tl sm mi mb li] u], a; cbn -[is_info cap_capture].
  - rewrite !orb_false_r. now exists st, hd.
  - rewrite !orb_false_r. now exists st, hd.
  - rewrite !orb_false_r. now exists st, hd.
  -
    unfold cap_write_header. destruct (is_info code), wr; cbn; rewrite ?orb_false_r; eexists _, _; reflexivity.
  -
    unfold cap_write, cap_write_header. destruct wr; cbn -[cap_capture]; rewrite ?orb_false_r; eexists _, _; reflexivity.
  -
    unfold cap_flush, cap_write_header. destruct wr; cbn; rewrite ?orb_true_r; eexists _, _; reflexivity.
  - rewrite !orb_true_r. now exists st, hd.
Qed.

Lemma cap_capture_frame c n t : exists buf bl tl,
  cap_capture c n t = cw_set c (c_status c) buf bl (c_headers c) (c_wrote c) tl (c_streamed c) /\
  (c_streamed c || tl = false ->
   c_toolarge c = false /\ buf = if n =? 0 then c_buf c else c_buf c ++ [(n, t)]).
Proof.
  assert (I : c = cw_set c (c_status c) (c_buf c) (c_buflen c) (c_headers c) (c_wrote c) (c_toolarge c) (c_streamed c))
    by now destruct c.
  unfold cap_capture. destruct (c_streamed c) eqn:S, (c_toolarge c) eqn:TL; cbn [orb].
  1-3: do 3 eexists; (split; [exact I|discriminate]).
  destruct (n =? 0); [do 3 eexists; split; [exact I|now split]|].
  destruct (negb (c_limit c)); [do 3 eexists; split; [reflexivity|now split]|].
  destruct (c_maxbody c - c_buflen c <=? 0); [do 3 eexists; split; [reflexivity|discriminate]|].
  destruct (c_maxbody c - c_buflen c <? n); do 3 eexists; (split; [reflexivity|]); [discriminate|now split].
Qed.

Lemma act_ctl cu a : exists st buf bl hd tl,
  fst (act cu a) = cw_set (fst cu) st buf bl hd (c_wrote (fst cu) || commits a) tl
                          (c_streamed (fst cu) || streams_now (c_wrote (fst cu)) a).
Proof.
  destruct (act_fst cu a) as (st & hd & ->). destruct a; try (do 5 eexists; reflexivity).
  edestruct cap_capture_frame as (buf & bl & tl & -> & _).
  do 5 eexists; reflexivity.
Qed.

Fixpoint streams_from (wrote : bool) (acts : list action) : bool :=
  match acts with
  | [] => false
  | a :: r => streams_now wrote a || streams_from (wrote || commits a) r
  end.

Lemma fold_act_ctl acts : forall cu,
  let c := fst cu in let c1 := fst (fold_left act acts cu) in
  c_wrote c1 = c_wrote c || existsb commits acts /\
  c_streamed c1 = c_streamed c || streams_from (c_wrote c) acts /\
  c_miss c1 = c_miss c /\ c_maxbody c1 = c_maxbody c /\ c_limit c1 = c_limit c.
Proof.
  induction acts as [|a r IH]; intros cu; cbn [fold_left existsb streams_from].
  - now rewrite !orb_false_r.
  - destruct (IH (act cu a)) as (W & S & M & X & L). destruct (act_ctl cu a) as (st & buf & bl & hd & tl & E).
    rewrite W, S, M, X, L, E, !orb_assoc. cbn. auto.
Qed.

Lemma fold_act_wrote acts : forall c u,
  c_wrote (fst (fold_left act acts (c, u))) = c_wrote c || existsb commits acts.
Proof. intros c u. apply (fold_act_ctl acts (c, u)). Qed.

Lemma run_handler_eq miss maxbody limit acts :
  run_handler miss maxbody limit acts =
  act (fold_left act acts (new_capw miss maxbody limit, new_under)) (AWriteHeader 200).
Proof. apply cap_finish_act. Qed.

Lemma run_handler_ctl miss maxbody limit acts :
  let c := fst (run_handler miss maxbody limit acts) in
  c_wrote c = true /\ c_streamed c = streams_from false acts /\
  c_miss c = miss /\ c_maxbody c = maxbody /\ c_limit c = limit.
Proof.
  rewrite run_handler_eq.
  destruct (act_ctl (fold_left act acts (new_capw miss maxbody limit, new_under)) (AWriteHeader 200))
    as (st & buf & bl & hd & tl & ->).
  destruct (fold_act_ctl acts (new_capw miss maxbody limit, new_under)) as (_ & S & M & X & L).
  cbn -[fold_left]. rewrite S, M, X, L, andb_false_r, orb_true_r, orb_false_r. auto.
Qed.

Theorem run_handler_streamed miss maxbody limit acts :
  c_streamed (fst (run_handler miss maxbody limit acts)) = streams_from false acts.
Proof. apply run_handler_ctl. Qed.

Theorem streams_from_iff w acts :
  streams_from w acts = true <->
  In AFlush acts \/ In AHijack acts \/
  exists pre post, acts = pre ++ AWriteHeader 101 :: post /\ w || existsb commits pre = false.
Proof.
  revert w. induction acts as [|a r IH]; intros w; cbn [streams_from In].
  - split; [discriminate|]. intros [[]|[[]|(pre & post & H & _)]]. destruct pre; discriminate.
  - rewrite orb_true_iff, IH. split.
    + intros [H|[H|[H|(pre & post & -> & P)]]]; [|now auto|now auto|].
      * destruct a; try discriminate H; auto. right; right. exists [], r.
        apply andb_true_iff in H as [H C]. apply Z.eqb_eq in C. subst code.
        destruct w; [now rewrite andb_false_r in H|auto].
      * right; right. exists (a :: pre), post. cbn [existsb]. now rewrite orb_assoc.
    + intros [[->|H]|[[->|H]|(pre & post & E & P)]]; [now auto..|].
      destruct pre as [|b pre]; injection E as -> ->.
      * left. rewrite orb_false_r in P. now rewrite P.
      * right; right; right. exists pre, post. cbn [existsb] in P. now rewrite <- orb_assoc.
Qed.

Theorem run_handler_streamed_iff miss maxbody limit acts :
  c_streamed (fst (run_handler miss maxbody limit acts)) = true <->
  In AFlush acts \/ In AHijack acts \/
  exists pre post, acts = pre ++ AWriteHeader 101 :: post /\ existsb commits pre = false.
Proof. rewrite run_handler_streamed. apply (streams_from_iff false). Qed.

Fixpoint wsum (acts : list action) : Z :=
  match acts with
  | [] => 0
  | AWrite n _ :: r => n + wsum r
  | _ :: r => wsum r
  end.
Definition writes_nonneg (acts : list action) : Prop := forall n t, In (AWrite n t) acts -> 0 <= n.

(* T is the sum of the lengths passed to Write so far, on a capture that has not streamed: the two clauses are the
   closed forms of tooLarge and of buf.Len().  tooLarge never goes back to false, which is why the lemmas below ask for
   non-negative lengths when the limit is on. *)
Definition budget (c : capw) (T : Z) : Prop :=
  c_toolarge c = c_limit c && (c_maxbody c <? T) /\
  c_buflen c = if c_limit c then Z.min T (c_maxbody c) else T.

Lemma cap_capture_budget c n t T :
  c_streamed c = false -> (c_limit c = true -> 0 <= n /\ 0 <= c_maxbody c) ->
  budget c T -> budget (cap_capture c n t) (T + n).
Proof.
  unfold budget, cap_capture. intros -> N [TL BL]. cbn [orb].
  destruct (c_toolarge c) eqn:TLc; cbn [orb].
  - rewrite TLc. destruct (c_limit c); [destruct N; lia|discriminate].
  - destruct (n =? 0) eqn:N0; [rewrite TLc; destruct (c_limit c); lia|].
    destruct (c_limit c) eqn:L; cbn [negb].
    + destruct N as [N M]; [reflexivity|].
      destruct (c_maxbody c - c_buflen c <=? 0) eqn:R0; [cbn; rewrite L; lia|].
      destruct (c_maxbody c - c_buflen c <? n) eqn:R1; cbn; rewrite L; lia.
    + cbn. rewrite L. lia.
Qed.

Lemma fold_act_budget acts : forall cu T,
  let c := fst cu in
  c_streamed c = false -> streams_from (c_wrote c) acts = false ->
  (c_limit c = true -> writes_nonneg acts /\ 0 <= c_maxbody c) ->
  budget c T -> budget (fst (fold_left act acts cu)) (T + wsum acts).
Proof.
  induction acts as [|a r IH]; intros cu T c S SF N B; cbn [fold_left].
  - cbn [wsum]. now rewrite Z.add_0_r.
  - cbn [streams_from] in SF. apply orb_false_iff in SF as [SN SF].
    destruct (act_ctl cu a) as (st' & buf' & bl' & hd' & tl' & E).
    replace (T + wsum (a :: r)) with (T + wsum [a] + wsum r) by (destruct a; cbn [wsum]; ring).
    fold c in E. rewrite S, SN in E. apply IH.
    + now rewrite E.
    + now rewrite E.
    + rewrite E. intros L. destruct (N L) as [NN M]. split; [|exact M]. intros n t H. apply (NN n t). now right.
    + clear E. destruct (act_fst cu a) as (st & hd & ->). fold c. rewrite S, SN.
      destruct a; try (cbn [wsum]; rewrite Z.add_0_r; exact B).
      cbn [wsum]. rewrite Z.add_0_r. apply cap_capture_budget; [reflexivity| |exact B].
      intros L. destruct (N L) as [NN M]. split; [|exact M]. apply (NN n tag). now left.
Qed.

Lemma run_handler_budget miss maxbody limit acts :
  streams_from false acts = false -> (limit = true -> writes_nonneg acts /\ 0 <= maxbody) ->
  budget (fst (run_handler miss maxbody limit acts)) (wsum acts).
Proof.
  intros SF N. rewrite run_handler_eq.
  destruct (act_fst (fold_left act acts (new_capw miss maxbody limit, new_under)) (AWriteHeader 200)) as (st & hd & ->).
  apply (fold_act_budget acts (_, _) 0); [reflexivity|exact SF|exact N|].
  unfold budget. cbn. destruct limit; [destruct N; [reflexivity|]; lia|auto].
Qed.

Theorem run_handler_limit miss maxbody acts :
  0 <= maxbody -> writes_nonneg acts -> streams_from false acts = false ->
  let c := fst (run_handler miss maxbody true acts) in
  (c_toolarge c = true <-> wsum acts > maxbody) /\ c_buflen c = Z.min (wsum acts) maxbody.
Proof.
  intros M NN SF c. destruct (run_handler_ctl miss maxbody true acts) as (_ & _ & _ & X & L).
  destruct (run_handler_budget miss maxbody true acts SF) as [TL BL]; [auto|].
  fold c in X, L, TL, BL. rewrite TL, BL, X, L. split; [lia|reflexivity].
Qed.

Theorem run_handler_nolimit miss maxbody acts :
  streams_from false acts = false ->
  let c := fst (run_handler miss maxbody false acts) in
  c_toolarge c = false /\ c_buflen c = wsum acts.
Proof.
  intros SF c. destruct (run_handler_ctl miss maxbody false acts) as (_ & _ & _ & _ & L).
  destruct (run_handler_budget miss maxbody false acts SF) as [TL BL]; [discriminate|].
  fold c in L, TL, BL. now rewrite TL, BL, L.
Qed.

(* the hypothesis 0 <= maxbody is necessary: with a negative limit and only empty writes the
   writer is not "too large" although 0 > maxbody *)
Example run_handler_limit_negative_refuted :
  let c := fst (run_handler [] (-1) true [AWrite 0 7]) in
  c_toolarge c = false /\ wsum [AWrite 0 7] > -1 /\ c_buflen c = 0.
Proof. vm_compute. intuition congruence. Qed.

Theorem wrap_miss_streamed_none p ignore miss method acts exp :
  streams_from false acts = true -> fst (wrap_miss p ignore miss method acts exp) = None.
Proof.
  intros SF. unfold wrap_miss. destruct (negb (memZ (p_methods p) method)); [reflexivity|].
  pose proof (run_handler_streamed miss (p_maxbody p) (p_limit p) acts) as S.
  destruct (run_handler miss (p_maxbody p) (p_limit p) acts) as [c u].
  unfold cacheable. cbn [fst] in S. now rewrite S, SF.
Qed.

Corollary wrap_miss_flush_hijack_upgrade_none p ignore miss method acts exp :
  (In AFlush acts \/ In AHijack acts \/
   exists pre post, acts = pre ++ AWriteHeader 101 :: post /\ existsb commits pre = false) ->
  fst (wrap_miss p ignore miss method acts exp) = None.
Proof. intros H. apply wrap_miss_streamed_none. now apply (streams_from_iff false). Qed.

Theorem wrap_miss_toolarge_none p ignore miss method acts exp :
  p_limit p = true -> 0 <= p_maxbody p -> writes_nonneg acts -> wsum acts > p_maxbody p ->
  fst (wrap_miss p ignore miss method acts exp) = None.
Proof.
  intros L M NN W. destruct (streams_from false acts) eqn:SF; [now apply wrap_miss_streamed_none|].
  unfold wrap_miss. destruct (negb (memZ (p_methods p) method)); [reflexivity|].
  pose proof (run_handler_limit miss (p_maxbody p) acts M NN SF) as [[_ R] _]. rewrite L.
  destruct (run_handler miss (p_maxbody p) true acts) as [c u]. cbn [fst] in R.
  unfold cacheable. rewrite (R W). now rewrite andb_false_r.
Qed.

Theorem wrap_miss_method_gate p ignore miss method acts exp :
  memZ (p_methods p) method = false ->
  wrap_miss p ignore miss method acts exp = (None, run_raw acts).
Proof. intros H. unfold wrap_miss. now rewrite H. Qed.

Definition marked (miss : str) (h : header) : header :=
  match miss with [] => h | _ => hset h miss [s_MISS] end.

(* The coupling invariant between the capturing writer c and the server-side writer u below it (no Hijack so far):
   both agree on whether the response is committed; before the commit neither holds body bytes; after it the client
   was sent the captured status and the captured header snapshot plus the MISS marker (the marker is set after the
   snapshot, so it is on the wire and not in c_headers), and, as long as the capture is still cacheable and the status
   allows a body, the same body chunks. *)
Definition coupled (c : capw) (u : under) : Prop :=
  u_hijacked u = false /\ u_committed u = c_wrote c /\
  (c_wrote c = false -> c_buf c = [] /\ u_body u = []) /\
  (c_wrote c = true ->
     u_status u = c_status c /\ u_sent_hdr u = marked (c_miss c) (c_headers c) /\
     (cacheable c = true -> body_allowed (c_status c) = true -> u_body u = c_buf c)).

Lemma cap_write_header_coupled c u code :
  coupled c u -> coupled (fst (cap_write_header c u code)) (snd (cap_write_header c u code)).
Proof.
  intros (HJ & CM & NW & WR). unfold cap_write_header, u_write_header.
  destruct (is_info code) eqn:NI; [|destruct (c_wrote c) eqn:W].
  - rewrite HJ. unfold coupled. cbn. auto.
  - unfold coupled. cbn [fst snd]. rewrite W. auto.
  - (* the commit: status, header snapshot and marker are taken together; both bodies are still empty *)
    destruct (NW eq_refl) as [B1 B2]. unfold coupled, marked.
    destruct (c_miss c) eqn:MI; cbn; rewrite HJ, CM, MI; cbn; repeat split; try discriminate; congruence.
Qed.

Lemma cap_write_eq c u n t :
  cap_write c u n t = (cap_capture (fst (cap_write_header c u 200)) n t, u_write (snd (cap_write_header c u 200)) n t).
Proof.
  unfold cap_write. destruct (c_wrote c) eqn:W; [unfold cap_write_header; now rewrite W|].
  now destruct (cap_write_header c u 200).
Qed.

Lemma capture_coupled c u n t :
  coupled c u -> c_wrote c = true -> coupled (cap_capture c n t) (u_write u n t).
Proof.
  intros (HJ & CM & _ & WR) W. destruct (WR W) as (ST & SH & BD). rewrite W in CM.
  unfold u_write. rewrite HJ, CM. unfold coupled. cbn [u_hijacked u_committed u_status u_sent_hdr u_body].
  destruct (cap_capture_frame c n t) as (buf & bl & tl & E & FR). rewrite E. clear E.
  unfold cacheable. cbn [cw_set c_wrote c_status c_miss c_headers c_buf c_streamed c_toolarge]. rewrite W.
  repeat split; try discriminate; try assumption.
  intros CA BA. apply andb_true_iff in CA as [S T]. apply negb_true_iff in S, T. rewrite S, T in FR.
  destruct (FR eq_refl) as [TL ->]. rewrite ST, BA, BD by (assumption || (unfold cacheable; now rewrite S, TL)).
  cbn [negb]. now rewrite orb_false_r.
Qed.

(* after Hijack the capturing writer believes it wrote while the server committed nothing *)
Lemma act_coupled cu a : a <> AHijack -> coupled (fst cu) (snd cu) -> coupled (fst (act cu a)) (snd (act cu a)).
Proof.
  destruct cu as [c u]. intros NH I. destruct a; cbn [act fst snd] in *; try exact I.
  - now apply cap_write_header_coupled.
  - rewrite cap_write_eq. apply capture_coupled; [now apply cap_write_header_coupled|].
    destruct (act_ctl (c, u) (AWriteHeader 200)) as (? & ? & ? & ? & ? & E). cbn [act] in E. rewrite E. apply orb_true_r.
  - assert (S : coupled (cw_set c (c_status c) (c_buf c) (c_buflen c) (c_headers c) (c_wrote c) (c_toolarge c) true) u).
    { destruct I as (HJ & CM & NW & WR).
      repeat split; try assumption; try (now apply NW); try (now apply WR). discriminate. }
    unfold cap_flush. cbn [cw_set c_wrote]. destruct (c_wrote c) eqn:W.
    + destruct I as (_ & CM & _). rewrite CM, W. exact S.
    + pose proof (cap_write_header_coupled _ u 200 S) as H. now destruct (cap_write_header _ u 200).
  - congruence.
Qed.

Lemma fold_act_coupled acts : forall cu,
  ~ In AHijack acts -> coupled (fst cu) (snd cu) ->
  coupled (fst (fold_left act acts cu)) (snd (fold_left act acts cu)).
Proof.
  induction acts as [|a r IH]; intros cu NH I; [exact I|]. cbn [fold_left]. apply IH.
  - intros H. apply NH. now right.
  - apply act_coupled; [|exact I]. intros ->. apply NH. now left.
Qed.

Theorem capture_faithful miss maxbody limit acts :
  ~ In AHijack acts ->
  let c := fst (run_handler miss maxbody limit acts) in
  let u := snd (run_handler miss maxbody limit acts) in
  c_wrote c = true /\ u_committed u = true /\ u_hijacked u = false /\ u_status u = c_status c /\
  u_sent_hdr u = (match miss with [] => c_headers c | _ => hset (c_headers c) miss [s_MISS] end) /\
  (cacheable c = true -> body_allowed (c_status c) = true -> u_body u = c_buf c).
Proof.
  intros NH c u. destruct (run_handler_ctl miss maxbody limit acts) as (W & _ & M & _). fold c in W, M.
  assert (I : coupled c u).
  { subst c u. rewrite run_handler_eq. apply act_coupled; [discriminate|].
    apply fold_act_coupled; [exact NH|]. repeat split; auto; discriminate. }
  destruct I as (HJ & CM & _ & WR). destruct (WR W) as (ST & SH & BD).
  rewrite M in SH. rewrite W in CM. auto 10.
Qed.

Lemma str_eqb_eq a : forall b, str_eqb a b = true <-> a = b.
Proof.
  induction a as [|x a IH]; intros [|y b]; cbn [str_eqb]; try (split; [discriminate|congruence]).
  - tauto.
  - rewrite andb_true_iff, IH, Z.eqb_eq. split; [intros [-> ->]; reflexivity|intros H; injection H; auto].
Qed.
Lemma str_eqb_refl a : str_eqb a a = true. Proof. now apply str_eqb_eq. Qed.

Lemma equal_fold_iff a b : equal_fold a b = true <-> map lower a = map lower b.
Proof. apply str_eqb_eq. Qed.
Lemma equal_fold_refl a : equal_fold a a = true. Proof. now apply equal_fold_iff. Qed.
Lemma equal_fold_sym a b : equal_fold a b = equal_fold b a.
Proof. apply eq_true_iff_eq. rewrite !equal_fold_iff. split; congruence. Qed.
Lemma equal_fold_trans a b c : equal_fold a b = true -> equal_fold b c = true -> equal_fold a c = true.
Proof. rewrite !equal_fold_iff. congruence. Qed.

Lemma notin_app (x : Z) a b : ~ In x a -> ~ In x b -> ~ In x (a ++ b).
Proof. intros A B H. apply in_app_or in H. tauto. Qed.
Lemma notin_cons (x c : Z) r : ~ In x (c :: r) -> (c =? x) = false /\ ~ In x r.
Proof. intros N. split; [apply Z.eqb_neq; intros ->; apply N; now left|intros H; apply N; now right]. Qed.

Fixpoint upto (sep : Z) (s : str) : str :=
  match s with [] => [] | c :: r => if c =? sep then [] else c :: upto sep r end.

Lemma upto_app_notin sep a b : ~ In sep a -> upto sep (a ++ b) = a ++ upto sep b.
Proof.
  induction a as [|c r IH]; intros N; [reflexivity|]. apply notin_cons in N as [E N].
  cbn [app upto]. now rewrite E, IH.
Qed.
Lemma upto_notin sep a : ~ In sep a -> upto sep a = a.
Proof. intros N. rewrite <- (app_nil_r a) at 1. rewrite upto_app_notin by exact N. apply app_nil_r. Qed.
Lemma upto_hit sep a b : ~ In sep a -> upto sep (a ++ sep :: b) = a.
Proof. intros N. rewrite upto_app_notin by exact N. cbn [upto]. rewrite Z.eqb_refl. apply app_nil_r. Qed.

Lemma split_on_acc sep s : forall cur,
  split_on sep s cur = match split_on sep s [] with p :: ps => (rev cur ++ p) :: ps | [] => [] end.
Proof.
  induction s as [|c r IH]; intros cur; cbn [split_on].
  - cbn [rev]. now rewrite app_nil_r.
  - destruct (c =? sep).
    + cbn [rev]. now rewrite app_nil_r.
    + rewrite (IH (c :: cur)), (IH [c]). destruct (split_on sep r []) as [|p ps]; [reflexivity|].
      cbn [rev app]. now rewrite <- app_assoc.
Qed.

Lemma split_comma_nil : split_comma [] = [[]]. Proof. reflexivity. Qed.
Lemma split_comma_cons c r :
  split_comma (c :: r) =
  if c =? 44 then [] :: split_comma r
  else match split_comma r with p :: ps => (c :: p) :: ps | [] => [] end.
Proof.
  unfold split_comma. cbn [split_on]. destruct (c =? 44); [reflexivity|].
  rewrite split_on_acc. destruct (split_on 44 r []); reflexivity.
Qed.
Lemma split_comma_head s : exists ps, split_comma s = upto 44 s :: ps.
Proof.
  induction s as [|c r [ps IH]]; [now exists []|]. rewrite split_comma_cons. cbn [upto].
  destruct (c =? 44); [eauto|]. rewrite IH. eauto.
Qed.
Lemma split_comma_app a b : split_comma (a ++ 44 :: b) = split_comma a ++ split_comma b.
Proof.
  induction a as [|c a IH]; cbn [app]; [now rewrite split_comma_cons|].
  rewrite !split_comma_cons, IH. destruct (c =? 44); [reflexivity|].
  now destruct (split_comma_head a) as [ps ->].
Qed.

Lemma cut_on_fst sep s : forall acc, fst (fst (cut_on sep s acc)) = rev acc ++ upto sep s.
Proof.
  induction s as [|c r IH]; intros acc; cbn [cut_on upto].
  - cbn [fst]. now rewrite app_nil_r.
  - destruct (c =? sep); cbn [fst]; [now rewrite app_nil_r|]. rewrite IH. cbn [rev]. now rewrite <- app_assoc.
Qed.
Lemma cut_on_skip sep a s : ~ In sep a -> forall acc, cut_on sep (a ++ s) acc = cut_on sep s (rev a ++ acc).
Proof.
  induction a as [|c r IH]; intros N acc; [reflexivity|]. apply notin_cons in N as [E N].
  cbn [app cut_on rev]. now rewrite E, IH, <- app_assoc.
Qed.

Lemma directive_name_eq p : directive_name p = trim_space (upto 61 (trim_space p)).
Proof.
  unfold directive_name, cut_eq. pose proof (cut_on_fst 61 (trim_space p) []) as H.
  destruct (cut_on 61 (trim_space p) []) as [[nm af] ok]. cbn [fst rev app] in H. now subst nm.
Qed.

Theorem has_directive_iff v ds :
  has_directive v ds = true <->
  v <> [] /\ exists p d, In p (split_comma v) /\ In d ds /\
                         equal_fold (trim_space (upto 61 (trim_space p))) d = true.
Proof.
  unfold has_directive. destruct v as [|c r]; [split; [discriminate|now intros [[] _]]|].
  rewrite existsb_exists. split.
  - intros (p & Hp & H). apply existsb_exists in H as (d & Hd & H). rewrite directive_name_eq in H.
    split; [discriminate|]. eauto.
  - intros (_ & p & d & Hp & Hd & H). exists p. split; [exact Hp|]. apply existsb_exists. exists d.
    rewrite directive_name_eq. auto.
Qed.

Lemma trim_space_nil : trim_space [] = []. Proof. reflexivity. Qed.

Corollary has_directive_iff' v ds :
  ~ In [] ds ->
  (has_directive v ds = true <->
   exists p d, In p (split_comma v) /\ In d ds /\ equal_fold (trim_space (upto 61 (trim_space p))) d = true).
Proof.
  intros NE. rewrite has_directive_iff. split; [tauto|]. intros (p & d & Hp & Hd & H). split; [|eauto].
  intros ->. cbn in Hp. destruct Hp as [<-|[]]. cbn in H. destruct d; [contradiction|discriminate].
Qed.

Lemma join_comma_cons2 v w r : join_comma (v :: w :: r) = v ++ 44 :: join_comma (w :: r).
Proof. reflexivity. Qed.

Lemma split_join_piece vs : forall v p, In v vs -> In p (split_comma v) -> In p (split_comma (join_comma vs)).
Proof.
  induction vs as [|v0 r IH]; intros v p Hv Hp; [contradiction|].
  destruct r as [|w r].
  - destruct Hv as [->|[]]. exact Hp.
  - rewrite join_comma_cons2, split_comma_app. apply in_or_app. destruct Hv as [->|Hv]; [now left|].
    right. eapply IH; eauto.
Qed.

Lemma join_comma_nil vs : join_comma vs = [] -> forall v, In v vs -> v = [].
Proof.
  destruct vs as [|v0 [|w r]]; intros H v Hv; [contradiction| |].
  - destruct Hv as [->|[]]. exact H.
  - rewrite join_comma_cons2 in H. destruct v0; discriminate.
Qed.

Lemma insert_key_in kv k l : In kv (insert_key k l) <-> kv = k \/ In kv l.
Proof.
  induction l as [|h r IH]; cbn [insert_key In].
  - split; intros [H|H]; auto.
  - destruct (str_leb (fst k) (fst h)); cbn [In]; [split; intros [H|H]; auto|].
    rewrite IH. tauto.
Qed.
Lemma sort_header_in kv h : In kv (sort_header h) <-> In kv h.
Proof.
  induction h as [|x r IH]; cbn [sort_header fold_right In]; [tauto|].
  rewrite insert_key_in. fold (sort_header r). rewrite IH. split; intros [H|H]; auto.
Qed.

Lemma field_line_joined h name k vs v :
  In (k, vs) h -> equal_fold k name = true -> In v vs ->
  In v (flat_map snd (filter (fun kv => equal_fold (fst kv) name) (sort_header h))).
Proof.
  intros Hk EF Hv. apply in_flat_map. exists (k, vs). split; [|exact Hv].
  apply filter_In. split; [now apply sort_header_in|exact EF].
Qed.

Lemma header_field_values_nil h name k vs v :
  header_field_values h name = [] -> In (k, vs) h -> equal_fold k name = true -> In v vs -> v = [].
Proof. intros H Hk EF Hv. apply (join_comma_nil _ H). now apply (field_line_joined h name k vs v). Qed.

Theorem has_directive_field_line h name k vs v ds :
  ~ In [] ds ->
  In (k, vs) h -> equal_fold k name = true -> In v vs -> has_directive v ds = true ->
  has_directive (header_field_values h name) ds = true.
Proof.
  intros NE Hk EF Hv H. apply (has_directive_iff' _ _ NE) in H as (p & d & Hp & Hd & H).
  apply (has_directive_iff' _ _ NE). exists p, d. split; [|auto].
  apply (split_join_piece _ v p); [|exact Hp]. now apply (field_line_joined h name k vs v).
Qed.

Definition digits (ds : str) : Prop := Forall (fun c => is_digit c = true) ds.
Definition dec_step (a c : Z) : Z := a * 10 + (c - 48).
Definition dec (ds : str) : Z := fold_left dec_step ds 0.

Lemma digits_val_eq ds : forall acc,
  digits_val ds acc = if forallb is_digit ds then Some (fold_left dec_step ds acc) else None.
Proof.
  induction ds as [|c r IH]; intros acc; cbn [digits_val forallb fold_left]; [reflexivity|].
  destruct (is_digit c); [apply IH|reflexivity].
Qed.
Lemma digits_forallb ds : digits ds <-> forallb is_digit ds = true.
Proof. unfold digits. now rewrite Forall_forall, forallb_forall. Qed.
Lemma dec_fold_mono ds : forall acc, digits ds -> 0 <= acc -> acc <= fold_left dec_step ds acc.
Proof.
  induction ds as [|c r IH]; intros acc D A; cbn [fold_left]; [lia|].
  inversion D as [|? ? Hc Hr]; subst. unfold is_digit in Hc.
  specialize (IH (dec_step acc c) Hr). unfold dec_step in *. lia.
Qed.

Definition atoi_body (neg : bool) (ds : str) : option Z :=
  match ds with
  | [] => None
  | _ => match digits_val ds 0 with
         | Some v => let x := if neg then - v else v in
                     if (- two63 <=? x) && (x <? two63) then Some x else None
         | None => None
         end
  end.

(* the model matches on the literals '+' and '-'; the last case walks the binary numeral of c far
   enough to tell it from both *)
Lemma atoi_eq s :
  atoi s = match s with
           | [] => None
           | c :: r => if c =? 43 then atoi_body false r else if c =? 45 then atoi_body true r
                       else atoi_body false s
           end.
Proof.
  destruct s as [|c r]; [reflexivity|].
  destruct (c =? 43) eqn:E1; [apply Z.eqb_eq in E1; subst c; reflexivity|].
  destruct (c =? 45) eqn:E2; [apply Z.eqb_eq in E2; subst c; reflexivity|].
  unfold atoi, atoi_body.
  destruct c as [|q|q]; try reflexivity.
  do 6 (destruct q as [q|q|]; try reflexivity; try (cbn in E1; discriminate); try (cbn in E2; discriminate)).
Qed.

Lemma atoi_body_digits neg ds :
  ds <> [] -> digits ds ->
  atoi_body neg ds = (if neg then (if dec ds <=? two63 then Some (- dec ds) else None)
                      else (if dec ds <? two63 then Some (dec ds) else None)).
Proof.
  intros NE D. unfold atoi_body. destruct ds as [|c r]; [congruence|].
  rewrite digits_val_eq, (proj1 (digits_forallb _) D). fold (dec (c :: r)).
  pose proof (dec_fold_mono _ 0 D (Z.le_refl 0)) as P. fold (dec (c :: r)) in P.
  cbv zeta. generalize dependent (dec (c :: r)). intros v P. unfold two63. destruct neg.
  - destruct (v <=? _) eqn:E; [replace (_ && _) with true by lia|replace (_ && _) with false by lia]; reflexivity.
  - destruct (v <? _) eqn:E; [replace (_ && _) with true by lia|replace (_ && _) with false by lia]; reflexivity.
Qed.

Theorem atoi_digits ds :
  ds <> [] -> digits ds -> atoi ds = if dec ds <? two63 then Some (dec ds) else None.
Proof.
  intros NE D. rewrite atoi_eq. destruct ds as [|c r]; [congruence|].
  assert (S : (c =? 43) = false /\ (c =? 45) = false)
    by (inversion D as [|? ? Hc Hr]; unfold is_digit in Hc; lia).
  destruct S as [-> ->]. now rewrite atoi_body_digits.
Qed.
Theorem atoi_plus ds :
  ds <> [] -> digits ds -> atoi (43 :: ds) = if dec ds <? two63 then Some (dec ds) else None.
Proof. intros NE D. rewrite atoi_eq. cbn [Z.eqb Pos.eqb]. now rewrite atoi_body_digits. Qed.
Theorem atoi_minus ds :
  ds <> [] -> digits ds -> atoi (45 :: ds) = if dec ds <=? two63 then Some (- dec ds) else None.
Proof. intros NE D. rewrite atoi_eq. cbn [Z.eqb Pos.eqb]. now rewrite atoi_body_digits. Qed.

Lemma atoi_body_some neg ds x :
  atoi_body neg ds = Some x ->
  ds <> [] /\ digits ds /\ 0 <= dec ds /\
  if neg then x = - dec ds /\ dec ds <= two63 else x = dec ds /\ dec ds < two63.
Proof.
  intros H. assert (D : ds <> [] /\ digits ds).
  { unfold atoi_body in H. destruct ds as [|c r]; [discriminate|]. split; [discriminate|].
    apply digits_forallb. rewrite digits_val_eq in H. now destruct (forallb is_digit (c :: r)). }
  destruct D as [NE D]. rewrite atoi_body_digits in H by assumption.
  pose proof (dec_fold_mono _ 0 D (Z.le_refl 0)) as P. fold (dec ds) in P. repeat split; try assumption.
  destruct neg.
  - destruct (dec ds <=? two63) eqn:L; [|discriminate]. injection H as <-. split; [reflexivity|lia].
  - destruct (dec ds <? two63) eqn:L; [|discriminate]. injection H as <-. split; [reflexivity|lia].
Qed.

Theorem atoi_some_inv s x :
  atoi s = Some x ->
  exists ds, ds <> [] /\ digits ds /\
    (((s = ds \/ s = 43 :: ds) /\ x = dec ds /\ 0 <= x < two63) \/
     (s = 45 :: ds /\ x = - dec ds /\ - two63 <= x <= 0)).
Proof.
  rewrite atoi_eq. destruct s as [|c r]; [discriminate|].
  destruct (c =? 43) eqn:E1; [|destruct (c =? 45) eqn:E2]; intros H;
    apply atoi_body_some in H as (NE & D & P & [-> L]).
  - apply Z.eqb_eq in E1. subst c. exists r. repeat split; try assumption. left. auto.
  - apply Z.eqb_eq in E2. subst c. exists r. repeat split; try assumption. right. repeat split; lia.
  - exists (c :: r). repeat split; try assumption. left. auto.
Qed.
Corollary atoi_nil : atoi [] = None. Proof. reflexivity. Qed.
Corollary atoi_range s x : atoi s = Some x -> - two63 <= x < two63.
Proof.
  intros H. destruct (atoi_some_inv s x H) as (ds & _ & _ & [(_ & _ & R)|(_ & _ & R)]); unfold two63 in *; lia.
Qed.

Definition s_max_age : str := [109; 97; 120; 45; 97; 103; 101].
(* what extractMaxAge reads from one comma piece *)
Definition piece_secs (p : str) : option Z :=
  let '(name, value, ok) := cut_eq (trim_space p) in
  if ok && equal_fold (trim_space name) s_max_age then atoi (trim_space value) else None.
Definition clamp_ns (secs : Z) : Z :=
  if max_int64 / second_ns <? secs then max_int64 else secs * second_ns.

Lemma max_age_parts_cons p r :
  max_age_parts (p :: r) =
  match piece_secs p with
  | Some s => if 0 <? s then clamp_ns s else max_age_parts r
  | None => max_age_parts r
  end.
Proof.
  cbn [max_age_parts]. unfold piece_secs, clamp_ns. fold s_max_age.
  destruct (cut_eq (trim_space p)) as [[name value] ok].
  destruct (ok && equal_fold (trim_space name) s_max_age); reflexivity.
Qed.

Definition skipped (p : str) : Prop :=
  match piece_secs p with Some s => s <= 0 | None => True end.

Theorem max_age_parts_skip skip r : Forall skipped skip -> max_age_parts (skip ++ r) = max_age_parts r.
Proof.
  induction 1 as [|p l Hp Hl IH]; [reflexivity|]. cbn [app]. rewrite max_age_parts_cons.
  unfold skipped in Hp. destruct (piece_secs p) as [s|]; [|exact IH].
  apply Z.ltb_ge in Hp. now rewrite Hp.
Qed.
Theorem max_age_parts_hit p r s :
  piece_secs p = Some s -> 0 < s -> max_age_parts (p :: r) = clamp_ns s.
Proof. intros H P. rewrite max_age_parts_cons, H. apply Z.ltb_lt in P. now rewrite P. Qed.

(* 9223372036 = MaxInt64 / 10^9 *)
Lemma clamp_ns_cases s :
  0 < s -> if s <=? 9223372036 then clamp_ns s = s * 1000000000 else clamp_ns s = max_int64.
Proof.
  intros H. unfold clamp_ns. change (max_int64 / second_ns) with 9223372036.
  destruct (s <=? 9223372036) eqn:E; [replace (_ <? s) with false by lia|replace (_ <? s) with true by lia]; reflexivity.
Qed.

Theorem max_age_parts_range ps : max_age_parts ps = 0 \/ second_ns <= max_age_parts ps <= max_int64.
Proof.
  induction ps as [|p r IH]; [now left|]. rewrite max_age_parts_cons.
  destruct (piece_secs p) as [s|]; [|exact IH]. destruct (0 <? s) eqn:E; [|exact IH].
  right. pose proof (clamp_ns_cases s) as C. unfold max_int64, two63, second_ns in *.
  destruct (s <=? 9223372036) eqn:L; lia.
Qed.
Theorem extract_max_age_range cc : extract_max_age cc = 0 \/ second_ns <= extract_max_age cc <= max_int64.
Proof. unfold extract_max_age. destruct cc; [now left|]. apply max_age_parts_range. Qed.
Corollary extract_max_age_nonneg cc : 0 <= extract_max_age cc.
Proof. destruct (extract_max_age_range cc) as [->|H]; [lia|]. unfold second_ns in H. lia. Qed.

Definition blanks (ws : str) : Prop := Forall (fun c => is_space c = true) ws.
Definition nospace (s : str) : Prop := Forall (fun c => is_space c = false) s.
Definition tight (x : str) : Prop := drop_space x = x /\ drop_space (rev x) = rev x.

Lemma blanks_nil : blanks []. Proof. constructor. Qed.
Lemma blanks_app a b : blanks a -> blanks b -> blanks (a ++ b).
Proof. intros A B. apply Forall_app; auto. Qed.
Lemma nospace_app a b : nospace a -> nospace b -> nospace (a ++ b).
Proof. intros A B. apply Forall_app; auto. Qed.
Lemma blank_not c x : is_space c = true -> is_space x = false -> c <> x.
Proof. congruence. Qed.
Lemma blanks_notin ws x : blanks ws -> is_space x = false -> ~ In x ws.
Proof. intros B N H. unfold blanks in B. rewrite Forall_forall in B. specialize (B x H). congruence. Qed.

Lemma drop_space_blanks ws x : blanks ws -> drop_space (ws ++ x) = drop_space x.
Proof. induction 1 as [|c r Hc Hr IH]; [reflexivity|]. cbn [app drop_space]. now rewrite Hc. Qed.
Lemma drop_space_head a m : is_space a = false -> drop_space (a :: m) = a :: m.
Proof. intros H. cbn [drop_space]. now rewrite H. Qed.
Lemma drop_space_nospace_app a y : nospace a -> a <> [] -> drop_space (a ++ y) = a ++ y.
Proof.
  intros N NE. destruct a as [|c r]; [congruence|]. inversion N; subst. now apply drop_space_head.
Qed.
Lemma drop_space_nospace a : nospace a -> drop_space a = a.
Proof. intros N. destruct a as [|c r]; [reflexivity|]. inversion N; subst. now apply drop_space_head. Qed.

Lemma tight_nil : tight []. Proof. split; reflexivity. Qed.
Lemma tight_ends a m b : nospace a -> a <> [] -> nospace b -> b <> [] -> tight (a ++ m ++ b).
Proof.
  intros Na NEa Nb NEb. split; [now apply drop_space_nospace_app|].
  rewrite app_assoc, rev_app_distr. apply drop_space_nospace_app; [now apply Forall_rev|].
  intros H. apply NEb. now rewrite <- (rev_involutive b), H.
Qed.
Lemma tight_nospace a : nospace a -> tight a.
Proof. intros N. split; apply drop_space_nospace; [exact N|now apply Forall_rev]. Qed.

Theorem trim_space_core ws0 x ws3 :
  blanks ws0 -> blanks ws3 -> tight x -> trim_space (ws0 ++ x ++ ws3) = x.
Proof.
  intros B0 B3 [T1 T2]. unfold trim_space. rewrite drop_space_blanks by exact B0.
  destruct x as [|c r].
  - cbn [app]. rewrite <- (app_nil_r ws3), drop_space_blanks by exact B3. reflexivity.
  - assert (S : is_space c = false).
    { cbn [drop_space] in T1. destruct (is_space c) eqn:E; [|reflexivity]. exfalso.
      assert (L : (length (drop_space r) <= length r)%nat).
      { clear. induction r as [|d r IH]; cbn [drop_space]; [lia|]. destruct (is_space d); cbn [length]; lia. }
      rewrite T1 in L. cbn [length] in L. lia. }
    cbn [app]. rewrite drop_space_head by exact S. change (c :: r ++ ws3) with ((c :: r) ++ ws3).
    rewrite rev_app_distr, drop_space_blanks by (now apply Forall_rev). rewrite T2. apply rev_involutive.
Qed.
Corollary trim_space_left ws0 x : blanks ws0 -> tight x -> trim_space (ws0 ++ x) = x.
Proof. intros B T. rewrite <- (app_nil_r x) at 1. apply trim_space_core; [exact B|constructor|exact T]. Qed.
Corollary trim_space_right x ws3 : blanks ws3 -> tight x -> trim_space (x ++ ws3) = x.
Proof. intros B T. apply (trim_space_core [] x ws3); [constructor|exact B|exact T]. Qed.

Lemma drop_space_keep l b m : is_space b = false -> exists l2, drop_space (l ++ b :: m) = l2 ++ b :: m.
Proof.
  intros NB. induction l as [|c r [l2 IH]]; cbn [app drop_space].
  - rewrite NB. now exists [].
  - destruct (is_space c); [eauto|]. now exists (c :: r).
Qed.
Lemma trim_space_mark ws0 a b t :
  blanks ws0 -> drop_space (a ++ b :: t) = a ++ b :: t -> is_space b = false ->
  exists t', trim_space (ws0 ++ a ++ b :: t) = a ++ b :: t'.
Proof.
  intros B0 D NB. unfold trim_space. rewrite drop_space_blanks, D by exact B0.
  rewrite rev_app_distr. cbn [rev]. rewrite <- app_assoc. cbn [app].
  destruct (drop_space_keep (rev t) b (rev a) NB) as [l2 ->].
  exists (rev l2). rewrite rev_app_distr. cbn [rev]. rewrite rev_involutive, <- app_assoc. reflexivity.
Qed.
Lemma trim_space_keep ws0 a b t :
  blanks ws0 -> nospace a -> a <> [] -> is_space b = false ->
  exists t', trim_space (ws0 ++ a ++ b :: t) = a ++ b :: t'.
Proof. intros B0 NA NE NB. apply trim_space_mark; [assumption|now apply drop_space_nospace_app|assumption]. Qed.

Lemma plain_name (P : Z -> Prop) name :
  (forall c, P c -> is_space c = false /\ c <> 61 /\ c <> 44) -> Forall P name ->
  nospace name /\ ~ In 61 name /\ ~ In 44 name.
Proof.
  intros HP F. rewrite Forall_forall in F. repeat split.
  - apply Forall_forall. intros c Hc. now apply HP, F.
  - intros H. destruct (HP 61 (F 61 H)) as (_ & E & _). congruence.
  - intros H. destruct (HP 44 (F 44 H)) as (_ & _ & E). congruence.
Qed.
Lemma fold_max_age name :
  equal_fold name s_max_age = true -> name <> [] /\ nospace name /\ ~ In 61 name /\ ~ In 44 name.
Proof.
  intros H. apply equal_fold_iff in H. split; [intros ->; discriminate|].
  apply (plain_name (fun c => In (lower c) s_max_age)).
  - unfold lower, is_space. intros c Hc. destruct ((65 <=? c) && (c <=? 90)) eqn:E; cbn in Hc; lia.
  - apply Forall_forall. intros c Hc. change (In (lower c) (map lower s_max_age)). rewrite <- H. now apply in_map.
Qed.

Lemma digits_nospace ds : digits ds -> nospace ds.
Proof. apply Forall_impl. intros c. unfold is_digit, is_space. lia. Qed.

Theorem piece_secs_max_age ws0 name ws1 ws2 val ws3 :
  blanks ws0 -> blanks ws1 -> blanks ws2 -> blanks ws3 ->
  equal_fold name s_max_age = true -> nospace val -> val <> [] ->
  piece_secs (ws0 ++ name ++ ws1 ++ [61] ++ ws2 ++ val ++ ws3) = atoi val.
Proof.
  intros B0 B1 B2 B3 EF NV NEV. destruct (fold_max_age name EF) as (NEN & NN & N61 & _).
  unfold piece_secs.
  replace (ws0 ++ name ++ ws1 ++ [61] ++ ws2 ++ val ++ ws3)
    with (ws0 ++ (name ++ (ws1 ++ [61] ++ ws2) ++ val) ++ ws3) by (now rewrite <- !app_assoc).
  rewrite trim_space_core; [|assumption|assumption|now apply tight_ends].
  unfold cut_eq.
  replace (name ++ (ws1 ++ [61] ++ ws2) ++ val) with ((name ++ ws1) ++ 61 :: (ws2 ++ val))
    by (cbn [app]; now rewrite <- !app_assoc).
  rewrite cut_on_skip by (apply notin_app; [exact N61|now apply blanks_notin]).
  cbn [cut_on Z.eqb Pos.eqb]. rewrite app_nil_r, rev_involutive.
  rewrite trim_space_right by (assumption || now apply tight_nospace).
  rewrite EF. cbn [andb]. now rewrite trim_space_left by (assumption || now apply tight_nospace).
Qed.

Theorem piece_secs_other p :
  (~ In 61 p \/ equal_fold (trim_space (upto 61 (trim_space p))) s_max_age = false) -> piece_secs p = None.
Proof.
  intros H. unfold piece_secs, cut_eq. pose proof (cut_on_fst 61 (trim_space p) []) as F.
  destruct (cut_on 61 (trim_space p) []) as [[nm af] ok] eqn:E. cbn [fst rev app] in F. subst nm.
  destruct H as [H|H]; [|rewrite H; now rewrite andb_false_r].
  assert (N : ~ In 61 (trim_space p)).
  { intros I. apply H. unfold trim_space in I. apply in_rev in I.
    assert (D : forall s x, In x (drop_space s) -> In x s).
    { clear. induction s as [|c r IH]; intros x; cbn [drop_space]; [auto|]. destruct (is_space c); [right; auto|auto]. }
    apply D in I. apply in_rev in I. now apply D in I. }
  rewrite <- (app_nil_r (trim_space p)), cut_on_skip in E by exact N. now injection E as _ _ <-.
Qed.

Corollary skipped_other p :
  (~ In 61 p \/ equal_fold (trim_space (upto 61 (trim_space p))) s_max_age = false) -> skipped p.
Proof. intros H. unfold skipped. now rewrite piece_secs_other. Qed.
Corollary skipped_max_age_bad ws0 name ws1 ws2 val ws3 :
  blanks ws0 -> blanks ws1 -> blanks ws2 -> blanks ws3 ->
  equal_fold name s_max_age = true -> nospace val -> val <> [] ->
  (atoi val = None \/ exists s, atoi val = Some s /\ s <= 0) ->
  skipped (ws0 ++ name ++ ws1 ++ [61] ++ ws2 ++ val ++ ws3).
Proof.
  intros B0 B1 B2 B3 EF NV NE H. unfold skipped. rewrite piece_secs_max_age by assumption.
  destruct H as [->|(s & -> & H)]; [exact I|exact H].
Qed.

Lemma extract_max_age_eq cc : extract_max_age cc = max_age_parts (split_comma cc).
Proof. destruct cc; reflexivity. Qed.

Definition nocomma (p : str) : Prop := ~ In 44 p.
Lemma split_comma_nocomma p : nocomma p -> split_comma p = [p].
Proof.
  induction p as [|c r IH]; intros N; [reflexivity|]. apply notin_cons in N as [E N].
  now rewrite split_comma_cons, E, IH.
Qed.
Lemma split_join_nocomma ps : ps <> [] -> Forall nocomma ps -> split_comma (join_comma ps) = ps.
Proof.
  induction ps as [|p r IH]; intros NE F; [congruence|]. inversion F as [|? ? Hp Hr]; subst.
  destruct r as [|q r]; [now apply split_comma_nocomma|].
  rewrite join_comma_cons2, split_comma_app, split_comma_nocomma by exact Hp.
  rewrite IH; [reflexivity|discriminate|exact Hr].
Qed.

(* end to end: the first max-age piece with a positive in-range argument decides *)
Theorem extract_max_age_spec skip rest ws0 name ws1 ws2 ds ws3 :
  let p := ws0 ++ name ++ ws1 ++ [61] ++ ws2 ++ ds ++ ws3 in
  Forall nocomma (skip ++ p :: rest) -> Forall skipped skip ->
  blanks ws0 -> blanks ws1 -> blanks ws2 -> blanks ws3 ->
  equal_fold name s_max_age = true -> ds <> [] -> digits ds ->
  let r := extract_max_age (join_comma (skip ++ p :: rest)) in
  (1 <= dec ds <= 9223372036 -> r = dec ds * 1000000000) /\
  (9223372036 < dec ds < two63 -> r = max_int64) /\
  (dec ds = 0 \/ two63 <= dec ds -> r = max_age_parts rest).
Proof.
  intros p NC SK B0 B1 B2 B3 EF NE D r.
  assert (R : r = match atoi ds with Some s => if 0 <? s then clamp_ns s else max_age_parts rest
                                | None => max_age_parts rest end).
  { subst r. rewrite extract_max_age_eq, split_join_nocomma; [|now destruct skip|exact NC].
    rewrite max_age_parts_skip by exact SK. rewrite max_age_parts_cons. subst p.
    rewrite piece_secs_max_age; auto. now apply digits_nospace. }
  rewrite atoi_digits in R by assumption. clearbody r. pose proof (clamp_ns_cases (dec ds)) as C.
  clear - R C. unfold two63 in *. repeat split; intros H.
  - replace (dec ds <? 9223372036854775808) with true in R by lia. replace (0 <? dec ds) with true in R by lia.
    replace (dec ds <=? 9223372036) with true in C by lia. rewrite R. apply C. lia.
  - replace (dec ds <? 9223372036854775808) with true in R by lia. replace (0 <? dec ds) with true in R by lia.
    replace (dec ds <=? 9223372036) with false in C by lia. rewrite R. apply C. lia.
  - destruct (dec ds <? 9223372036854775808) eqn:E; [|exact R].
    replace (0 <? dec ds) with false in R by lia. exact R.
Qed.

Example extract_max_age_demo :
  (* "no-transform, MAX-Age = 0, max-age=60 , max-age=5" *)
  extract_max_age [110;111;45;116;114;97;110;115;102;111;114;109;44;32;77;65;88;45;65;103;101;32;61;32;48;44;32;
                   109;97;120;45;97;103;101;61;54;48;32;44;32;109;97;120;45;97;103;101;61;53] = 60 * 1000000000
  /\ (* "max-age=9223372037" is clamped *)
  extract_max_age [109;97;120;45;97;103;101;61;57;50;50;51;51;55;50;48;51;55] = max_int64
  /\ (* "max-age=9223372036854775808" overflows Atoi and is skipped *)
  extract_max_age [109;97;120;45;97;103;101;61;57;50;50;51;51;55;50;48;51;54;56;53;52;55;55;53;56;48;56] = 0.
Proof. vm_compute. auto. Qed.

(* RFC 9110 tchar *)
Definition is_tchar (c : Z) : bool :=
  ((48 <=? c) && (c <=? 57)) || ((65 <=? c) && (c <=? 90)) || ((97 <=? c) && (c <=? 122)) ||
  existsb (Z.eqb c) [33; 35; 36; 37; 38; 39; 42; 43; 45; 46; 94; 95; 96; 124; 126].
Definition token (s : str) : Prop := s <> [] /\ Forall (fun c => is_tchar c = true) s.

(* quoted-string = DQUOTE *( qdtext / quoted-pair ) DQUOTE : inside, a DQUOTE only occurs escaped by a backslash *)
Fixpoint qbody (s : str) (esc : bool) : bool :=
  match s with
  | [] => negb esc
  | c :: r => if esc then qbody r false else if c =? 92 then qbody r true else if c =? 34 then false else qbody r false
  end.
Definition quoted (s : str) : Prop := exists body, s = 34 :: body ++ [34] /\ qbody body false = true.

(* quote-aware list splitting: commas separate elements only outside double-quoted strings;
   inq = inside a quoted string, esc = the previous byte was an unescaped backslash inside quotes *)
Fixpoint qsplit (s : str) (inq esc : bool) : list str :=
  match s with
  | [] => [[]]
  | c :: r =>
    if negb inq && (c =? 44) then [] :: qsplit r false false
    else
      let inq' := if inq then (if esc then true else negb (c =? 34)) else (c =? 34) in
      let esc' := inq && negb esc && (c =? 92) in
      match qsplit r inq' esc' with
      | p :: ps => (c :: p) :: ps
      | [] => [[c]]
      end
  end.
Definition elements (v : str) : list str := qsplit v false false.

Definition same_fold (a b : str) : Prop := map lower a = map lower b.

(* the element e, up to optional white space, is  name  or  name = argument *)
Definition element_is (d e : str) : Prop :=
  exists ws0 name rest,
    e = ws0 ++ name ++ rest /\ blanks ws0 /\ token name /\ same_fold name d /\
    (blanks rest \/
     exists ws1 ws2 arg ws3,
       rest = ws1 ++ [61] ++ ws2 ++ arg ++ ws3 /\ blanks ws1 /\ blanks ws2 /\ blanks ws3 /\ (token arg \/ quoted arg)).

Definition carries (d v : str) : Prop := exists e, In e (elements v) /\ element_is d e.

(* every element starts with a comma piece: the code splits at every comma, the grammar at some *)
Lemma qsplit_pieces s : forall inq esc,
  match qsplit s inq esc, split_comma s with
  | p :: ps, p0 :: ps0 => upto 44 p = p0 /\ forall e, In e ps -> In (upto 44 e) ps0
  | _, _ => False
  end.
Proof.
  induction s as [|c r IH]; intros inq esc.
  - cbn [qsplit]. rewrite split_comma_nil. split; [reflexivity|intros e H; destruct H].
  - cbn [qsplit]. rewrite split_comma_cons.
    destruct (negb inq && (c =? 44)) eqn:SP.
    + apply andb_true_iff in SP as [_ C]. rewrite C. specialize (IH false false).
      destruct (qsplit r false false) as [|p ps]; [contradiction|].
      destruct (split_comma r) as [|p0 ps0]; [contradiction|]. destruct IH as [H1 H2].
      split; [reflexivity|]. intros e [<-|He]; [now left|right; auto].
    + cbv zeta.
      specialize (IH (if inq then if esc then true else negb (c =? 34) else c =? 34) (inq && negb esc && (c =? 92))).
      destruct (qsplit r _ _) as [|p ps]; [contradiction|].
      destruct (split_comma r) as [|p0 ps0]; [contradiction|]. destruct IH as [H1 H2].
      cbn [upto]. destruct (c =? 44) eqn:C; (split; [now rewrite ?H1|]); intros e He; [right|]; auto.
Qed.

Lemma element_first_piece v e : In e (elements v) -> In (upto 44 e) (split_comma v).
Proof.
  intros H. unfold elements in H. pose proof (qsplit_pieces v false false) as Q.
  destruct (qsplit v false false) as [|p ps]; [contradiction|].
  destruct (split_comma v) as [|p0 ps0]; [contradiction|]. destruct Q as [Q1 Q2].
  destruct H as [<-|H]; [now left|right; auto].
Qed.

Lemma token_facts name : token name -> name <> [] /\ nospace name /\ ~ In 61 name /\ ~ In 44 name.
Proof.
  intros [NE F]. split; [exact NE|]. apply (plain_name _ name) in F; [exact F|].
  unfold is_tchar, is_space. cbn [existsb]. intros c H. lia.
Qed.

Lemma element_directive_name d e :
  element_is d e -> equal_fold (trim_space (upto 61 (trim_space (upto 44 e)))) d = true.
Proof.
  intros (ws0 & name & rest & -> & B0 & TK & SF & R).
  destruct (token_facts name TK) as (NE & NN & N61 & N44).
  assert (N44' : ~ In 44 (ws0 ++ name)) by (apply notin_app; [now apply blanks_notin|exact N44]).
  apply equal_fold_iff.
  replace (trim_space (upto 61 (trim_space (upto 44 (ws0 ++ name ++ rest))))) with name; [exact SF|].
  destruct R as [BR|(ws1 & ws2 & arg & ws3 & -> & B1 & B2 & B3 & _)].
  - rewrite (upto_notin 44) by (rewrite app_assoc; apply notin_app; [exact N44'|now apply blanks_notin]).
    rewrite trim_space_core by (assumption || now apply tight_nospace).
    rewrite upto_notin by exact N61. symmetry. apply (trim_space_left [] name); [constructor|now apply tight_nospace].
  - (* the piece is  ws0 name ws1 "=" t : trimming keeps everything up to the "=" *)
    replace (ws0 ++ name ++ ws1 ++ [61] ++ ws2 ++ arg ++ ws3)
      with ((ws0 ++ name ++ ws1) ++ 61 :: (ws2 ++ arg ++ ws3)) by (cbn [app]; now rewrite <- !app_assoc).
    rewrite (upto_app_notin 44) by (rewrite app_assoc; apply notin_app; [exact N44'|now apply blanks_notin]).
    cbn [upto]. change (61 =? 44) with false. cbv iota. rewrite <- !app_assoc.
    destruct (trim_space_mark ws0 (name ++ ws1) 61 (upto 44 (ws2 ++ arg ++ ws3)) B0) as [t' K];
      [rewrite <- app_assoc; now apply drop_space_nospace_app|reflexivity|].
    rewrite <- app_assoc in K. rewrite K, upto_hit by (apply notin_app; [exact N61|now apply blanks_notin]).
    symmetry. apply trim_space_right; [assumption|now apply tight_nospace].
Qed.

(* soundness: the code finds every directive the value carries (it may find more) *)
Theorem carries_sound_list d ds v : In d ds -> carries d v -> has_directive v ds = true.
Proof.
  intros Hd (e & He & EI). apply has_directive_iff. split.
  - intros ->. cbn in He. destruct He as [<-|[]].
    destruct EI as (ws0 & name & rest & E & _ & [NE _] & _). destruct ws0; [destruct name; [congruence|discriminate]|discriminate].
  - exists (upto 44 e), d. split; [now apply element_first_piece|]. split; [exact Hd|].
    now apply element_directive_name.
Qed.

Corollary carries_field_line h name k vs v d ds :
  ~ In [] ds -> In (k, vs) h -> equal_fold k name = true -> In v vs -> In d ds -> carries d v ->
  has_directive (header_field_values h name) ds = true.
Proof.
  intros NE Hk EF Hv Hd C. apply (has_directive_field_line h name k vs v ds NE Hk EF Hv). now apply (carries_sound_list d).
Qed.

Lemma token_of s : s <> [] -> forallb is_tchar s = true -> token s.
Proof. intros NE H. split; [exact NE|]. apply Forall_forall. intros c Hc. rewrite forallb_forall in H. auto. Qed.

Lemma carries_bare ws0 name d v :
  In (ws0 ++ name) (elements v) -> blanks ws0 -> token name -> same_fold name d -> carries d v.
Proof.
  intros He B0 TK SF. exists (ws0 ++ name). split; [exact He|]. exists ws0, name, [].
  rewrite app_nil_r. repeat split; try assumption; try apply TK. left. constructor.
Qed.

(* "max-age=5, No-Store" carries no-store *)
Example carries_demo_plain :
  carries s_no_store [109;97;120;45;97;103;101;61;53;44;32;78;111;45;83;116;111;114;101].
Proof.
  apply (carries_bare [32] [78;111;45;83;116;111;114;101]);
    [vm_compute; auto|repeat constructor|now apply token_of|reflexivity].
Qed.

(* private="a,b" , x  carries private: the comma inside the quoted string does not separate *)
Example carries_demo_quoted :
  carries s_private [112;114;105;118;97;116;101;61;34;97;44;98;34;32;44;32;120].
Proof.
  exists [112;114;105;118;97;116;101;61;34;97;44;98;34;32]. split; [vm_compute; auto|].
  exists [], s_private, [61;34;97;44;98;34;32].
  split; [reflexivity|]. split; [constructor|]. split; [now apply token_of|]. split; [reflexivity|].
  right. exists [], [], [34;97;44;98;34], [32].
  split; [reflexivity|]. split; [constructor|]. split; [constructor|]. split; [repeat constructor|].
  right. exists [97;44;98]. split; reflexivity.
Qed.

Lemma not_carries_single x d' v c e' :
  elements v = [c :: e'] -> is_space c = false -> lower c <> lower x -> ~ carries (x :: d') v.
Proof.
  intros EL NS ND (e & He & ws0 & name & rest & E & B0 & [NN _] & SF & _).
  rewrite EL in He. destruct He as [<-|[]].
  destruct ws0 as [|w ws0]; cbn [app] in E.
  - destruct name as [|a name]; [congruence|]. injection E as -> _. now injection SF.
  - injection E as -> _. inversion B0; subst. congruence.
Qed.

(* the implementation is strictly more conservative than the specification:
   a="x,no-store,y"  does not carry no-store, yet has_directive reports it (the response is just not cached) *)
Example conservative_inside_quotes :
  let v := [97;61;34;120;44;110;111;45;115;116;111;114;101;44;121;34] in
  ~ carries s_no_store v /\ has_directive v [s_no_store] = true.
Proof.
  cbv zeta. split; [|reflexivity].
  eapply not_carries_single; [vm_compute; reflexivity|reflexivity|vm_compute; discriminate].
Qed.

(* REFUTED: "a directive carried by one line's value is carried by the joined value" is false for the
   specification when an earlier line has an unbalanced quote:  lines  a="x  and  no-store  join to
   a="x,no-store  which is one (malformed) element.  The code is unaffected: it works on comma pieces,
   and [carries_field_line] above shows the joined value is still rejected. *)
Example carries_join_refuted :
  let vs := [[97;61;34;120]; s_no_store] in
  carries s_no_store s_no_store /\ In s_no_store vs /\ ~ carries s_no_store (join_comma vs) /\
  has_directive (join_comma vs) [s_no_store] = true.
Proof.
  cbv zeta. repeat split.
  - apply (carries_bare [] s_no_store); [vm_compute; auto|constructor|now apply token_of|reflexivity].
  - right. now left.
  - eapply not_carries_single; [vm_compute; reflexivity|reflexivity|vm_compute; discriminate].
Qed.

Definition forbidden : list str := [s_no_cache; s_no_store; s_private].

Definition gates_pass (p : pconf) (method status bodylen : Z) (h : header) : Prop :=
  memZ (p_methods p) method = true /\ memZ (p_status p) status = true /\
  (p_limit p = true -> bodylen <= p_maxbody p) /\
  has_directive (header_field_values h s_cache_control) forbidden = false.

Lemma default_policy_eq p method status bodylen h exp :
  default_policy p method status bodylen h exp =
  if memZ (p_methods p) method && memZ (p_status p) status && negb (p_limit p && (p_maxbody p <? bodylen))
     && negb (has_directive (header_field_values h s_cache_control) forbidden)
  then let ma := extract_max_age (header_field_values h s_cache_control) in
       if 0 <? ma then (true, 1, ma)
       else match exp with
            | Some ttl => if 0 <? ttl then (true, 2, ttl) else (true, 3, p_defttl p)
            | None => (true, 3, p_defttl p)
            end
  else (false, 0, 0).
Proof.
  unfold default_policy, forbidden.
  destruct (memZ (p_methods p) method), (memZ (p_status p) status), (p_limit p && (p_maxbody p <? bodylen)),
    (has_directive _ _); reflexivity.
Qed.

Lemma gates_pass_iff p method status bodylen h :
  gates_pass p method status bodylen h <->
  memZ (p_methods p) method && memZ (p_status p) status && negb (p_limit p && (p_maxbody p <? bodylen))
  && negb (has_directive (header_field_values h s_cache_control) forbidden) = true.
Proof.
  unfold gates_pass. rewrite !andb_true_iff, !negb_true_iff, andb_false_iff, Z.ltb_ge.
  destruct (p_limit p); intuition discriminate.
Qed.

Theorem policy_method_gate p method status bodylen h exp :
  memZ (p_methods p) method = false -> default_policy p method status bodylen h exp = (false, 0, 0).
Proof. intros H. now rewrite default_policy_eq, H. Qed.

Theorem policy_status_gate p method status bodylen h exp :
  memZ (p_status p) status = false -> default_policy p method status bodylen h exp = (false, 0, 0).
Proof. intros H. now rewrite default_policy_eq, H, andb_false_r. Qed.

Theorem policy_body_gate p method status bodylen h exp :
  p_limit p = true -> p_maxbody p < bodylen -> default_policy p method status bodylen h exp = (false, 0, 0).
Proof. intros L H. apply Z.ltb_lt in H. now rewrite default_policy_eq, L, H, andb_false_r. Qed.

Theorem policy_directive_gate p method status bodylen h exp :
  has_directive (header_field_values h s_cache_control) forbidden = true ->
  default_policy p method status bodylen h exp = (false, 0, 0).
Proof. intros H. now rewrite default_policy_eq, H, andb_false_r. Qed.

(* any field line of any spelling of Cache-Control that carries no-cache / no-store / private prevents storing *)
Theorem policy_carries_any_line p method status bodylen h exp k vs v d :
  In (k, vs) h -> equal_fold k s_cache_control = true -> In v vs ->
  In d forbidden -> carries d v ->
  default_policy p method status bodylen h exp = (false, 0, 0).
Proof.
  intros Hk EF Hv Hd C. apply policy_directive_gate. apply (carries_field_line h _ k vs v d); auto.
  unfold forbidden, s_no_cache, s_no_store, s_private. cbn [In]. intros [H|[H|[H|[]]]]; discriminate.
Qed.

Lemma policy_pass_eq p method status bodylen h exp :
  gates_pass p method status bodylen h ->
  default_policy p method status bodylen h exp =
  let ma := extract_max_age (header_field_values h s_cache_control) in
  if 0 <? ma then (true, 1, ma)
  else match exp with
       | Some ttl => if 0 <? ttl then (true, 2, ttl) else (true, 3, p_defttl p)
       | None => (true, 3, p_defttl p)
       end.
Proof. intros G. apply gates_pass_iff in G. now rewrite default_policy_eq, G. Qed.

Theorem policy_max_age p method status bodylen h exp :
  gates_pass p method status bodylen h ->
  0 < extract_max_age (header_field_values h s_cache_control) ->
  default_policy p method status bodylen h exp =
  (true, 1, extract_max_age (header_field_values h s_cache_control)).
Proof. intros G H. rewrite policy_pass_eq by exact G. cbv zeta. apply Z.ltb_lt in H. now rewrite H. Qed.

Theorem policy_expires p method status bodylen h ttl :
  gates_pass p method status bodylen h ->
  extract_max_age (header_field_values h s_cache_control) <= 0 -> 0 < ttl ->
  default_policy p method status bodylen h (Some ttl) = (true, 2, ttl).
Proof.
  intros G H T. rewrite policy_pass_eq by exact G. cbv zeta. apply Z.ltb_ge in H. rewrite H.
  apply Z.ltb_lt in T. now rewrite T.
Qed.

Theorem policy_default_ttl p method status bodylen h exp :
  gates_pass p method status bodylen h ->
  extract_max_age (header_field_values h s_cache_control) <= 0 ->
  (exp = None \/ exists ttl, exp = Some ttl /\ ttl <= 0) ->
  default_policy p method status bodylen h exp = (true, 3, p_defttl p).
Proof.
  intros G H E. rewrite policy_pass_eq by exact G. cbv zeta. apply Z.ltb_ge in H. rewrite H.
  destruct E as [->|(ttl & -> & T)]; [reflexivity|]. apply Z.ltb_ge in T. now rewrite T.
Qed.

Theorem policy_stored_iff p method status bodylen h exp :
  fst (fst (default_policy p method status bodylen h exp)) = true <-> gates_pass p method status bodylen h.
Proof.
  rewrite gates_pass_iff, default_policy_eq. destruct (_ && _); [|easy]. cbv zeta.
  destruct (0 <? _); [easy|]. destruct exp as [ttl|]; [|easy]. destruct (0 <? ttl); easy.
Qed.

Theorem policy_not_stored_shape p method status bodylen h exp :
  fst (fst (default_policy p method status bodylen h exp)) = false ->
  default_policy p method status bodylen h exp = (false, 0, 0).
Proof.
  intros H. rewrite default_policy_eq. destruct (_ && _) eqn:G; [|reflexivity].
  apply gates_pass_iff, (policy_stored_iff p method status bodylen h exp) in G. congruence.
Qed.

Lemma canon_from_lower s : forall up, map lower (canon_from s up) = map lower s.
Proof.
  induction s as [|c r IH]; intros up; [reflexivity|]. cbn [canon_from map]. rewrite IH. f_equal.
  unfold lower, is_lower, is_upper. destruct up.
  - destruct ((97 <=? c) && (c <=? 122)) eqn:E1; [|reflexivity].
    destruct ((65 <=? c - 32) && (c - 32 <=? 90)) eqn:E2; destruct ((65 <=? c) && (c <=? 90)) eqn:E3; lia.
  - destruct ((65 <=? c) && (c <=? 90)) eqn:E1; [|now rewrite E1].
    destruct ((65 <=? c + 32) && (c + 32 <=? 90)) eqn:E2; lia.
Qed.
Lemma canon_lower k : map lower (canon k) = map lower k.
Proof. apply canon_from_lower. Qed.
Lemma canon_eq_fold k k' : canon k = canon k' -> equal_fold k k' = true.
Proof. intros H. apply equal_fold_iff. rewrite <- (canon_lower k), <- (canon_lower k'). now rewrite H. Qed.

Lemma str_leb_total a : forall b, str_leb a b = false -> str_leb b a = true.
Proof.
  induction a as [|x a IH]; intros [|y b]; cbn [str_leb]; try discriminate; try reflexivity.
  destruct (x <? y) eqn:E1; [discriminate|]. destruct (y <? x) eqn:E2; [reflexivity|]. apply IH.
Qed.
Lemma str_leb_trans a : forall b c, str_leb a b = true -> str_leb b c = true -> str_leb a c = true.
Proof.
  induction a as [|x a IH]; intros [|y b] [|z c]; cbn [str_leb]; try discriminate; try reflexivity.
  destruct (x <? y) eqn:E1; [|destruct (y <? x) eqn:E2; [discriminate|]];
    (destruct (y <? z) eqn:E3; [|destruct (z <? y) eqn:E4; [discriminate|]]).
  (* left: x < y or x = y; then y < z or y = z.  In the first three cases x < z decides; in the last the heads are
     equal and the tails compare *)
  1-3: replace (x <? z) with true by lia; easy.
  replace (x <? z) with false by lia. replace (z <? x) with false by lia. apply IH.
Qed.

Fixpoint hsorted (l : header) : Prop :=
  match l with
  | [] => True
  | x :: r => Forall (fun y => str_leb (fst x) (fst y) = true) r /\ hsorted r
  end.

Lemma insert_key_sorted k l : hsorted l -> hsorted (insert_key k l).
Proof.
  induction l as [|h r IH]; intros S; cbn [insert_key].
  - cbn. auto.
  - destruct S as [F S]. destruct (str_leb (fst k) (fst h)) eqn:E.
    + cbn [hsorted]. repeat split; try assumption. constructor; [exact E|].
      eapply Forall_impl; [|exact F]. intros y Hy. eapply str_leb_trans; eauto.
    + cbn [hsorted]. split; [|auto]. apply Forall_forall. intros y Hy. apply insert_key_in in Hy as [->|Hy].
      * now apply str_leb_total.
      * rewrite Forall_forall in F. auto.
Qed.
Lemma sort_header_sorted h : hsorted (sort_header h).
Proof. induction h as [|x r IH]; [exact I|]. cbn [sort_header fold_right]. now apply insert_key_sorted. Qed.

Lemma insert_key_front k l :
  (forall y, In y l -> str_leb (fst k) (fst y) = true) -> insert_key k l = k :: l.
Proof. destruct l as [|h r]; intros H; [reflexivity|]. cbn [insert_key]. rewrite H; [reflexivity|now left]. Qed.

Lemma insert_key_filter (f : str * list str -> bool) k l :
  hsorted l -> filter f (insert_key k l) = if f k then insert_key k (filter f l) else filter f l.
Proof.
  induction l as [|h r IH]; intros S; cbn [insert_key filter].
  - destruct (f k); reflexivity.
  - destruct S as [F S]. destruct (str_leb (fst k) (fst h)) eqn:E.
    + cbn [filter]. destruct (f k) eqn:Fk; [|reflexivity].
      rewrite insert_key_front; [reflexivity|].
      intros y Hy. assert (Hy' : In y (h :: r)).
      { destruct (f h); [destruct Hy as [<-|Hy]; [now left|right]|right]; apply filter_In in Hy; tauto. }
      destruct Hy' as [<-|Hy']; [exact E|]. rewrite Forall_forall in F. eapply str_leb_trans; eauto.
    + cbn [filter]. rewrite (IH S). destruct (f h) eqn:Fh; destruct (f k) eqn:Fk; try reflexivity.
      cbn [insert_key]. now rewrite E.
Qed.
Lemma sort_header_filter (f : str * list str -> bool) h :
  sort_header (filter f h) = filter f (sort_header h).
Proof.
  induction h as [|x r IH]; [reflexivity|]. cbn [filter sort_header fold_right]. fold (sort_header r).
  rewrite insert_key_filter by apply sort_header_sorted. destruct (f x); [|exact IH].
  cbn [sort_header fold_right]. fold (sort_header (filter f r)). now rewrite IH.
Qed.

Section KeyFilter.
  Variable P : str -> bool.
  Let keyP := fun kv : str * list str => P (fst kv).

  Lemma filter_hdel acc k : filter keyP (hdel acc k) = hdel (filter keyP acc) k.
  Proof.
    unfold hdel. induction acc as [|x r IH]; [reflexivity|]. cbn [filter].
    destruct (negb (str_eqb (fst x) k)) eqn:A; destruct (keyP x) eqn:B; cbn [filter]; rewrite ?A, ?B, IH; reflexivity.
  Qed.
  Lemma filter_hdel_out acc k : P k = false -> filter keyP (hdel acc k) = filter keyP acc.
  Proof.
    intros N. unfold hdel. induction acc as [|x r IH]; [reflexivity|]. cbn [filter].
    destruct (str_eqb (fst x) k) eqn:A; cbn [negb filter].
    - apply str_eqb_eq in A. unfold keyP at 2. rewrite A, N. exact IH.
    - now rewrite IH.
  Qed.
  Lemma hget_filter acc k : P k = true -> hget (filter keyP acc) k = hget acc k.
  Proof.
    intros T. unfold hget. induction acc as [|x r IH]; [reflexivity|]. cbn [filter find].
    destruct (str_eqb (fst x) k) eqn:A.
    - assert (B : keyP x = true) by (apply str_eqb_eq in A; unfold keyP; now rewrite A).
      rewrite B. cbn [find]. now rewrite A.
    - destruct (keyP x); [cbn [find]; now rewrite A|]; exact IH.
  Qed.
  Lemma filter_hset acc k X :
    filter keyP (hset acc k X) = if P k then hset (filter keyP acc) k X else filter keyP acc.
  Proof.
    unfold hset. rewrite filter_app. cbn [filter]. unfold keyP at 2. cbn [fst].
    destruct (P k) eqn:T.
    - now rewrite filter_hdel.
    - rewrite app_nil_r. now apply filter_hdel_out.
  Qed.

  Hypothesis P_canon : forall k, P (canon k) = P k.

  Lemma filter_merge_canon l : forall acc,
    filter keyP (merge_canon l acc) = merge_canon (filter keyP l) (filter keyP acc).
  Proof.
    induction l as [|[k vs] r IH]; intros acc; [reflexivity|]. cbn [merge_canon filter].
    rewrite IH, filter_hset, P_canon. change (keyP (k, vs)) with (P k).
    destruct (P k) eqn:T; [|reflexivity]. cbn [merge_canon].
    rewrite hget_filter; [reflexivity|]. now rewrite P_canon.
  Qed.

  Lemma filter_client_header h : filter keyP (client_header h) = client_header (filter keyP h).
  Proof. unfold client_header. now rewrite filter_merge_canon, sort_header_filter. Qed.
End KeyFilter.

Lemma hget_hset acc k X k' : hget (hset acc k X) k' = if str_eqb k k' then X else hget acc k'.
Proof.
  unfold hset, hdel, hget. induction acc as [|x r IH]; cbn [filter app find fst snd].
  - destruct (str_eqb k k'); reflexivity.
  - destruct (str_eqb (fst x) k) eqn:A; cbn [negb app find].
    + rewrite IH. apply str_eqb_eq in A. rewrite A. destruct (str_eqb k k'); reflexivity.
    + destruct (str_eqb (fst x) k') eqn:B.
      * destruct (str_eqb k k') eqn:C; [|reflexivity].
        apply str_eqb_eq in B, C. subst k'. rewrite <- B, str_eqb_refl in A. discriminate.
      * exact IH.
Qed.

Lemma hget_merge_canon l ck : forall acc,
  hget (merge_canon l acc) ck =
  hget acc ck ++ flat_map (fun kv => map wire_value (snd kv)) (filter (fun kv => str_eqb (canon (fst kv)) ck) l).
Proof.
  induction l as [|[k vs] r IH]; intros acc; cbn [merge_canon filter flat_map fst].
  - now rewrite app_nil_r.
  - rewrite IH, hget_hset. destruct (str_eqb (canon k) ck) eqn:E.
    + apply str_eqb_eq in E. subst ck. cbn [flat_map snd]. now rewrite <- !app_assoc.
    + reflexivity.
Qed.

Lemma filter_none {A} (f : A -> bool) l : (forall x, In x l -> f x = false) -> filter f l = [].
Proof.
  induction l as [|x r IH]; intros H; [reflexivity|]. cbn [filter]. rewrite (H x) by now left.
  apply IH. intros y Hy. apply H. now right.
Qed.

Definition ci_ignored (ignore : list str) (k : str) : bool := existsb (fun ig => equal_fold k ig) ignore.
Lemma cached_headers_eq ignore h : cached_headers ignore h = filter (fun kv => negb (ci_ignored ignore (fst kv))) h.
Proof. reflexivity. Qed.
Lemma ci_ignored_fold ignore k k' : equal_fold k k' = true -> ci_ignored ignore k = ci_ignored ignore k'.
Proof.
  intros E. unfold ci_ignored. induction ignore as [|ig r IH]; [reflexivity|]. cbn [existsb]. rewrite IH. f_equal.
  apply equal_fold_iff in E. unfold equal_fold. now rewrite E.
Qed.
Lemma ci_ignored_canon ignore k : ci_ignored ignore (canon k) = ci_ignored ignore k.
Proof. apply ci_ignored_fold, equal_fold_iff, canon_lower. Qed.

Theorem cached_headers_client ignore h :
  cached_headers ignore (client_header h) = client_header (cached_headers ignore h).
Proof.
  rewrite !cached_headers_eq.
  apply (filter_client_header (fun k => negb (ci_ignored ignore k))). intros k. now rewrite ci_ignored_canon.
Qed.

Lemma cached_headers_idem ignore h : cached_headers ignore (cached_headers ignore h) = cached_headers ignore h.
Proof.
  rewrite !cached_headers_eq. induction h as [|x r IH]; [reflexivity|]. cbn [filter].
  destruct (negb (ci_ignored ignore (fst x))) eqn:E; [cbn [filter]; now rewrite E, IH|exact IH].
Qed.
Lemma cached_headers_marked ignore miss h :
  (miss = [] \/ ci_ignored ignore miss = true) -> cached_headers ignore (marked miss h) = cached_headers ignore h.
Proof.
  intros [->|H]; [reflexivity|]. unfold marked. destruct miss as [|m mk]; [reflexivity|].
  rewrite !cached_headers_eq, (filter_hset (fun k => negb (ci_ignored ignore k))). now rewrite H.
Qed.

(* a cacheable run has no Hijack, so capture_faithful applies *)
Lemma wrap_miss_some_inv p ignore miss method acts exp s u :
  wrap_miss p ignore miss method acts exp = (Some s, u) ->
  exists c,
    (memZ (p_methods p) method = true /\ cacheable c = true /\
     default_policy p method (c_status c) (c_buflen c) (c_headers c) exp = (true, st_kind s, st_ttl s)) /\
    (st_status s = c_status c /\ st_hdr s = cached_headers ignore (c_headers c) /\ st_body s = c_buf c) /\
    u_status u = c_status c /\ u_sent_hdr u = marked miss (c_headers c) /\
    (body_allowed (c_status c) = true -> u_body u = c_buf c).
Proof.
  unfold wrap_miss. destruct (memZ (p_methods p) method) eqn:M; cbn [negb]; [|discriminate].
  pose proof (capture_faithful miss (p_maxbody p) (p_limit p) acts) as F.
  pose proof (run_handler_streamed miss (p_maxbody p) (p_limit p) acts) as S.
  destruct (run_handler miss (p_maxbody p) (p_limit p) acts) as [c u0]. cbn [fst snd] in F, S.
  destruct (cacheable c) eqn:CA; cbn [negb]; [|discriminate].
  destruct (default_policy p method (c_status c) (c_buflen c) (c_headers c) exp) as [[ok kind] ttl] eqn:DP.
  destruct ok; [|discriminate]. intros H. injection H as <- <-.
  destruct F as (_ & _ & _ & ST & SH & BD).
  { intros HJ. unfold cacheable in CA. rewrite S in CA.
    assert (T : streams_from false acts = true) by (apply (streams_from_iff false); auto).
    rewrite T in CA. discriminate. }
  exists c. repeat split; auto.
Qed.

(* what an HTTP client reads of a (status, header map, body) the server wrote *)
Definition client_of (r : Z * header * list (Z * Z)) : Z * header * list (Z * Z) :=
  let '(status, hdr, body) := r in (status, client_header hdr, if body_allowed status then body else []).

(* status and body are identical; the header maps the client reads agree once the ignored
   names (which include both markers) are dropped from both *)
Theorem replay_faithful p ignore miss hit method acts exp s u :
  wrap_miss p ignore miss method acts exp = (Some s, u) ->
  (miss = [] \/ ci_ignored ignore miss = true) -> ci_ignored ignore hit = true ->
  let '(st1, h1, b1) := client_of (replay s hit) in
  let '(st2, h2, b2) := client_of (u_status u, u_sent_hdr u, u_body u) in
  st1 = st2 /\ b1 = b2 /\ cached_headers ignore h1 = cached_headers ignore h2.
Proof.
  intros W IM IH. destruct (wrap_miss_some_inv _ _ _ _ _ _ _ _ W) as (c & _ & (S1 & S2 & S3) & ST & SH & BD).
  unfold client_of, replay. rewrite S1, S2, S3, ST. split; [reflexivity|]. split.
  - destruct (body_allowed (c_status c)) eqn:BA; [|reflexivity]. symmetry. now apply BD.
  - rewrite !cached_headers_client. f_equal.
    rewrite SH, cached_headers_marked by exact IM.
    rewrite cached_headers_eq, filter_app, <- !cached_headers_eq, cached_headers_idem.
    rewrite (cached_headers_eq ignore [(hit, [s_HIT])]). cbn [filter fst]. rewrite IH. cbn [negb]. apply app_nil_r.
Qed.

Theorem hit_marker ignore hd hit :
  ci_ignored ignore hit = true ->
  hget (client_header (cached_headers ignore hd ++ [(hit, [s_HIT])])) (canon hit) = [s_HIT].
Proof.
  intros IH. unfold client_header. rewrite hget_merge_canon. cbn [hget find app].
  rewrite <- sort_header_filter, filter_app. cbn [filter fst]. rewrite str_eqb_refl.
  rewrite filter_none; [reflexivity|].
  intros [k vs] Hk. cbn [fst]. destruct (str_eqb (canon k) (canon hit)) eqn:E; [|reflexivity]. exfalso.
  apply str_eqb_eq in E. apply canon_eq_fold in E.
  rewrite cached_headers_eq in Hk. apply filter_In in Hk as [_ Hk]. cbn [fst] in Hk.
  rewrite (ci_ignored_fold ignore k hit E), IH in Hk. discriminate.
Qed.

(* In, not =: the handler may itself have set values under another spelling of the name *)
Theorem miss_marker hd miss :
  In s_MISS (hget (client_header (hset hd miss [s_MISS])) (canon miss)).
Proof.
  unfold client_header. rewrite hget_merge_canon. cbn [hget find app].
  apply in_flat_map. exists (miss, [s_MISS]). split; [|now left].
  apply filter_In. split; [|cbn [fst]; apply str_eqb_refl].
  apply sort_header_in. unfold hset. apply in_or_app. right. now left.
Qed.

Corollary replay_markers p ignore miss hit method acts exp s u :
  wrap_miss p ignore miss method acts exp = (Some s, u) -> ci_ignored ignore hit = true ->
  hget (client_header (snd (fst (replay s hit)))) (canon hit) = [s_HIT] /\
  (miss <> [] -> In s_MISS (hget (client_header (u_sent_hdr u)) (canon miss))).
Proof.
  intros W IH. destruct (wrap_miss_some_inv _ _ _ _ _ _ _ _ W) as (c & _ & (_ & S2 & _) & _ & SH & _). split.
  - unfold replay. cbn [fst snd]. rewrite S2. now apply hit_marker.
  - intros NE. rewrite SH. destruct miss as [|m mk]; [congruence|]. apply miss_marker.
Qed.

Definition ex_p : pconf :=
  {| p_methods := [1]; p_status := [200]; p_limit := true; p_maxbody := 8; p_defttl := 60 |}.
Definition ex_miss : str := [88; 45; 77].   (* X-M *)
Definition ex_hit : str := [88; 45; 72].    (* X-H *)
Definition ex_ignore : list str := [ex_miss; ex_hit].

(* 103 Early Hints, a header edit, implicit 200 through Write (8 bytes = exactly the limit),
   a late header edit after the commit, and an empty Write *)
Definition ex_at_limit : list action :=
  [AWriteHeader 103; HSet [65] [49]; AWrite 8 1; HSet [66] [50]; AWrite 0 2].
Definition ex_over_limit : list action :=
  [AWriteHeader 103; HSet [65] [49]; AWrite 8 1; HSet [66] [50]; AWrite 1 2].

Example ex_at_limit_stored :
  let '(st, u) := wrap_miss ex_p ex_ignore ex_miss 1 ex_at_limit None in
  st = Some {| st_status := 200; st_hdr := [([65], [[49]])]; st_body := [(8, 1)]; st_kind := 3; st_ttl := 60 |} /\
  u_committed u = true /\ u_status u = 200 /\
  u_sent_hdr u = [([65], [[49]]); (ex_miss, [s_MISS])] /\      (* the late edit of B is on neither side *)
  u_body u = [(8, 1)] /\ u_info u = [(103, [])].
Proof. vm_compute. repeat split; reflexivity. Qed.

Example ex_at_limit_capture :
  let c := fst (run_handler ex_miss 8 true ex_at_limit) in
  c_toolarge c = false /\ c_streamed c = false /\ c_buflen c = 8 /\ wsum ex_at_limit = 8 /\ cacheable c = true.
Proof. vm_compute. repeat split; reflexivity. Qed.

Example ex_over_limit_not_stored :
  let '(st, u) := wrap_miss ex_p ex_ignore ex_miss 1 ex_over_limit None in
  st = None /\ u_status u = 200 /\ u_body u = [(8, 1); (1, 2)] /\
  u_sent_hdr u = [([65], [[49]]); (ex_miss, [s_MISS])].
Proof. vm_compute. repeat split; reflexivity. Qed.

Example ex_over_limit_capture :
  let c := fst (run_handler ex_miss 8 true ex_over_limit) in
  c_toolarge c = true /\ c_buflen c = 8 /\ wsum ex_over_limit = 9 /\ cacheable c = false.
Proof. vm_compute. repeat split; reflexivity. Qed.

Example ex_replay :
  let '(st, u) := wrap_miss ex_p ex_ignore ex_miss 1 ex_at_limit None in
  match st with
  | Some s =>
      client_of (replay s ex_hit) = (200, [([65], [[49]]); (ex_hit, [s_HIT])], [(8, 1)]) /\
      client_of (u_status u, u_sent_hdr u, u_body u) = (200, [([65], [[49]]); (ex_miss, [s_MISS])], [(8, 1)])
  | None => False
  end.
Proof. vm_compute. split; reflexivity. Qed.

(* the hypotheses of replay_faithful and replay_markers are satisfiable: they hold of the example (the last conjunct
   is capture_faithful's hypothesis) *)
Example ex_replay_theorem_applies :
  exists s u, wrap_miss ex_p ex_ignore ex_miss 1 ex_at_limit None = (Some s, u) /\
              ci_ignored ex_ignore ex_miss = true /\ ci_ignored ex_ignore ex_hit = true /\
              ~ In AHijack ex_at_limit.
Proof.
  eexists; eexists. split; [vm_compute; reflexivity|]. split; [reflexivity|]. split; [reflexivity|].
  unfold ex_at_limit. cbn [In]. intros [H|[H|[H|[H|[H|[]]]]]]; discriminate.
Qed.

(* switching protocols: 101 as the committing status streams; a superfluous 101 after 200 does not *)
Example ex_upgrade :
  fst (wrap_miss ex_p ex_ignore ex_miss 1 [AWriteHeader 101] None) = None /\
  c_streamed (fst (run_handler ex_miss 8 true [AWriteHeader 101])) = true /\
  c_streamed (fst (run_handler ex_miss 8 true [AWriteHeader 200; AWriteHeader 101])) = false /\
  c_streamed (fst (run_handler ex_miss 8 true [AWriteHeader 103; AWriteHeader 101])) = true.
Proof. vm_compute. repeat split; reflexivity. Qed.

Example capture_faithful_hijack_refuted :
  let '(c, u) := run_handler ex_miss 8 true [AHijack] in
  c_wrote c = true /\ u_committed u = false /\ u_hijacked u = true /\ cacheable c = false.
Proof. vm_compute. repeat split; reflexivity. Qed.

(* a 204 response: the client gets no body although the handler wrote one; the stored body is
   the captured one, and replay only agrees at the client level (client_of drops it) *)
Example ex_no_body_status :
  let '(c, u) := run_handler [] 8 true [AWriteHeader 204; AWrite 3 1] in
  cacheable c = true /\ c_buf c = [(3, 1)] /\ u_body u = [] /\ body_allowed 204 = false.
Proof. vm_compute. repeat split; reflexivity. Qed.
