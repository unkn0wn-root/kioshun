(* ReadBuffer.v — one stripe of the lossy multi-producer / single-consumer read-sample ring
   (readbuffer.go [readStripe], [sample]; shard.go [drainStripe]).  Only the stripe is
   modelled: how [sample] picks a stripe from the caller's id and the [dirty] mask that tells
   the drainer which stripes to visit (readbuffer.go:67,71-73; shard.go [drainReadSamples])
   are left out.

   Model (an LTS with per-thread program counters, any number of producers):
     buf   : 64 cells (0 = empty)        tail : producers' ticket counter
     head  : consumer-only cursor
   producer  sample h :  (1) i := tail.Add(1)-1      (fetch-add)
                         (2) buf[i mod 64].Store(h') with h' = (h = 0 ? 1 : h)
                         (3) needDrain := (i+1) - head.Load() >= 64
   consumer  drainStripe: (a) t := tail.Load()   (b) h := head.Load(); t = h -> return;
                          t-h > 64 -> h := t-64  (c) for h < t: v := buf[h mod 64].Swap(0);
                          v <> 0 -> deliver v; h++   (d) head.Store(t)
   Every numbered/lettered line is ONE atomic scheduler step, line (c) one step per loop
   iteration.  Thread id 0 is the single consumer: whoever holds drainMu, be it the drainer of
   the shard's write queue (writes.go [drainShardQueue]) or a reader that got needDrain and
   drains the stripe inline (shard.go [sampleRead]).  Thread id j+1 is producer j.
   Counters are natural numbers: the uint64 wrap after 2^64 samples is not modelled, and the
   subtraction in line (3) is truncated where Go's wraps, so for a stalled producer whose
   ticket is already behind head (head > i+1) the model logs needDrain = false where Go
   returns true (an extra drain).  The ghost fields are described at [state]. *)
From KV Require Import Base.
Close Scope Z_scope.
Open Scope nat_scope.

Set Implicit Arguments.
Arguments Nat.modulo : simpl never.
Arguments Nat.div : simpl never.

Section ListHelpers.
  Variable A : Type.

  Fixpoint upd (l : list A) (i : nat) (x : A) : list A :=
    match l, i with
    | [], _ => []
    | _ :: r, O => x :: r
    | a :: r, S j => a :: upd r j x
    end.

  Definition b2n (b : bool) : nat := if b then 1 else 0.

  Fixpoint count (p : A -> bool) (l : list A) : nat :=
    match l with [] => 0 | a :: r => b2n (p a) + count p r end.

  Lemma count_app p a b : count p (a ++ b) = count p a + count p b.
  Proof. induction a; cbn; auto. rewrite IHa. lia. Qed.

  Lemma upd_length l i x : length (upd l i x) = length l.
  Proof. revert i; induction l; intros [|i]; cbn; auto. Qed.

  Lemma nth_error_upd_eq l i x a : nth_error l i = Some a -> nth_error (upd l i x) i = Some x.
  Proof. revert i; induction l; intros [|i] H; cbn in *; try discriminate; auto. Qed.

  Lemma nth_error_upd_ne l i j x : i <> j -> nth_error (upd l i x) j = nth_error l j.
  Proof. revert i j; induction l; intros [|i] [|j] H; cbn; auto; congruence. Qed.

  Lemma nth_upd_eq l i x d : i < length l -> nth i (upd l i x) d = x.
  Proof. revert i; induction l; intros [|i] H; cbn in *; try lia; auto. apply IHl; lia. Qed.

  Lemma nth_upd_ne l i j x d : i <> j -> nth j (upd l i x) d = nth j l d.
  Proof. revert i j; induction l; intros [|i] [|j] H; cbn; auto; congruence. Qed.

  Lemma upd_all (Q : A -> Prop) l i x :
    (forall j y, nth_error l j = Some y -> Q y) -> Q x ->
    forall j y, nth_error (upd l i x) j = Some y -> Q y.
  Proof.
    revert i; induction l as [|a l IH]; intros [|i] H Hx [|j] y E; cbn in E; try discriminate.
    - injection E as <-. exact Hx.
    - exact (H (S j) y E).
    - exact (H 0 y E).
    - exact (IH i (fun j y => H (S j) y) Hx j y E).
  Qed.

  Lemma count_upd p l i x a : nth_error l i = Some a ->
    count p (upd l i x) + b2n (p a) = count p l + b2n (p x).
  Proof.
    revert i; induction l as [|b l IH]; intros [|i] H; cbn in *; try discriminate.
    - inversion H; subst. lia.
    - specialize (IH _ H). lia.
  Qed.

  Lemma skipn_nth_cons (l : list A) h d : h < length l -> skipn h l = nth h l d :: skipn (S h) l.
  Proof.
    revert h; induction l as [|a l IH]; intros [|h] H; cbn in *; try lia; auto.
    apply IH; lia.
  Qed.
End ListHelpers.

Definition NSLOT : nat := 64.

Definition fix0 (h : Z) : Z := if Z.eqb h 0 then 1%Z else h.

Inductive ppc :=
| PIdle                        (* between samples *)
| PGot (v : Z) (i : nat)       (* fetch-add done: owns ticket i, store pending *)
| PStored (i : nat).           (* store done, head load pending *)

Record prod := { p_todo : list Z; p_pc : ppc }.

Inductive cpc :=
| CIdle
| CT (t : nat)                 (* tail loaded *)
| CLoop (h t : nat).           (* in the swap loop / about to store head *)

Record state := {
  buf : list Z; tail : nat; head : nat;
  prods : list prod; cons : cpc;
  tick : list Z;               (* ghost: value of ticket i (what was sampled), i < tail *)
  stored : list Z;             (* ghost: values stored so far *)
  lost : list Z;               (* ghost: unread values overwritten by a store *)
  delivered : list Z;          (* ghost: values handed to the sketch, in order *)
  acc : list (nat * nat);      (* ghost: cell accesses (position, index used) *)
  rets : list (nat * bool)     (* ghost: (ticket, needDrain) results *)
}.

Definition step (st : state) (tid : nat) : option state :=
  match tid with
  | O =>
    match cons st with
    | CIdle =>
        Some {| buf := buf st; tail := tail st; head := head st; prods := prods st;
                cons := CT (tail st);
                tick := tick st; stored := stored st; lost := lost st;
                delivered := delivered st; acc := acc st; rets := rets st |}
    | CT t =>
        Some {| buf := buf st; tail := tail st; head := head st; prods := prods st;
                cons := if t =? head st then CIdle
                        else CLoop (if NSLOT <? t - head st then t - NSLOT else head st) t;
                tick := tick st; stored := stored st; lost := lost st;
                delivered := delivered st; acc := acc st; rets := rets st |}
    | CLoop h t =>
        if h <? t then
          let k := h mod NSLOT in
          let v := nth k (buf st) 0%Z in
          Some {| buf := upd (buf st) k 0%Z; tail := tail st; head := head st;
                  prods := prods st; cons := CLoop (S h) t;
                  tick := tick st; stored := stored st; lost := lost st;
                  delivered := if Z.eqb v 0 then delivered st else delivered st ++ [v];
                  acc := acc st ++ [(h, k)]; rets := rets st |}
        else
          Some {| buf := buf st; tail := tail st; head := t; prods := prods st;
                  cons := CIdle;
                  tick := tick st; stored := stored st; lost := lost st;
                  delivered := delivered st; acc := acc st; rets := rets st |}
    end
  | S j =>
    match nth_error (prods st) j with
    | None => None
    | Some pr =>
      match p_pc pr with
      | PIdle =>
        match p_todo pr with
        | [] => None
        | x :: r =>
            Some {| buf := buf st; tail := S (tail st); head := head st;
                    prods := upd (prods st) j {| p_todo := r; p_pc := PGot (fix0 x) (tail st) |};
                    cons := cons st;
                    tick := tick st ++ [fix0 x]; stored := stored st; lost := lost st;
                    delivered := delivered st; acc := acc st; rets := rets st |}
        end
      | PGot v i =>
          let k := i mod NSLOT in
          let o := nth k (buf st) 0%Z in
          Some {| buf := upd (buf st) k v; tail := tail st; head := head st;
                  prods := upd (prods st) j {| p_todo := p_todo pr; p_pc := PStored i |};
                  cons := cons st;
                  tick := tick st; stored := stored st ++ [v];
                  lost := if Z.eqb o 0 then lost st else lost st ++ [o];
                  delivered := delivered st; acc := acc st ++ [(i, k)]; rets := rets st |}
      | PStored i =>
          Some {| buf := buf st; tail := tail st; head := head st;
                  prods := upd (prods st) j {| p_todo := p_todo pr; p_pc := PIdle |};
                  cons := cons st;
                  tick := tick st; stored := stored st; lost := lost st;
                  delivered := delivered st; acc := acc st;
                  rets := rets st ++ [(i, NSLOT <=? (S i) - head st)] |}
      end
    end
  end.

Definition init (scripts : list (list Z)) : state :=
  {| buf := repeat 0%Z NSLOT; tail := 0; head := 0;
     prods := map (fun s => {| p_todo := s; p_pc := PIdle |}) scripts; cons := CIdle;
     tick := []; stored := []; lost := []; delivered := []; acc := []; rets := [] |}.

Section Reach.
  Variable scripts : list (list Z).

  Inductive reachable : state -> Prop :=
  | R_init : reachable (init scripts)
  | R_step st t st' : reachable st -> step st t = Some st' -> reachable st'.

  Fixpoint exec (sched : list nat) (st : state) : state :=
    match sched with
    | [] => st
    | t :: r => exec r (match step st t with Some st' => st' | None => st end)
    end.

  Lemma exec_reachable sched st : reachable st -> reachable (exec sched st).
  Proof.
    revert st; induction sched as [|t r IH]; intros st H; cbn [exec]; auto.
    apply IH. destruct (step st t) eqn:E; auto. eapply R_step; eauto.
  Qed.

  Lemma exec_step t r st st' : step st t = Some st' -> exec (t :: r) st = exec r st'.
  Proof. intros H. cbn [exec]. rewrite H. reflexivity. Qed.

  Lemma exec_app a b st : exec (a ++ b) st = exec b (exec a st).
  Proof. revert st; induction a; intros; cbn [exec app]; auto. Qed.
End Reach.
Arguments exec_step [t] r [st st'] _.

(* steps (a), (b) and (d) of the consumer only move its program counter and head *)
Definition set_consumer (st : state) (h : nat) (c : cpc) : state :=
  {| buf := buf st; tail := tail st; head := h; prods := prods st; cons := c;
     tick := tick st; stored := stored st; lost := lost st;
     delivered := delivered st; acc := acc st; rets := rets st |}.

(* The seven kinds of atomic step, each with the state it leads to: [step st tid = Some st']
   iff [trans st tid st'].  This is [step] read backwards: its guards become hypotheses and
   its result states are repeated here on purpose, so that a case analysis yields them
   without unfolding [step].  Every proof about a step goes by cases on [trans]; the binder
   names below ([Hc], [Hlt], [Hpr], [h], [e], ...) are the names [destruct] gives to what
   each case knows, and the proofs refer to them. *)
Inductive trans (st : state) : nat -> state -> Prop :=
| T_load_tail (Hc : cons st = CIdle) : trans st 0 (set_consumer st (head st) (CT (tail st)))
| T_load_head e (Hc : cons st = CT e) :
    trans st 0 (set_consumer st (head st)
                  (if e =? head st then CIdle
                   else CLoop (if NSLOT <? e - head st then e - NSLOT else head st) e))
| T_swap h e (Hc : cons st = CLoop h e) (Hlt : h < e) :
    trans st 0
          (let k := h mod NSLOT in
           let v := nth k (buf st) 0%Z in
           {| buf := upd (buf st) k 0%Z; tail := tail st; head := head st;
              prods := prods st; cons := CLoop (S h) e;
              tick := tick st; stored := stored st; lost := lost st;
              delivered := if Z.eqb v 0 then delivered st else delivered st ++ [v];
              acc := acc st ++ [(h, k)]; rets := rets st |})
| T_store_head h e (Hc : cons st = CLoop h e) (Hge : e <= h) : trans st 0 (set_consumer st e CIdle)
| T_fetch j pr x r (Hpr : nth_error (prods st) j = Some pr) (Hpc : p_pc pr = PIdle)
          (Htd : p_todo pr = x :: r) :
    trans st (S j)
          {| buf := buf st; tail := S (tail st); head := head st;
             prods := upd (prods st) j {| p_todo := r; p_pc := PGot (fix0 x) (tail st) |};
             cons := cons st;
             tick := tick st ++ [fix0 x]; stored := stored st; lost := lost st;
             delivered := delivered st; acc := acc st; rets := rets st |}
| T_store j pr v i (Hpr : nth_error (prods st) j = Some pr) (Hpc : p_pc pr = PGot v i) :
    trans st (S j)
          (let k := i mod NSLOT in
           let o := nth k (buf st) 0%Z in
           {| buf := upd (buf st) k v; tail := tail st; head := head st;
              prods := upd (prods st) j {| p_todo := p_todo pr; p_pc := PStored i |};
              cons := cons st;
              tick := tick st; stored := stored st ++ [v];
              lost := if Z.eqb o 0 then lost st else lost st ++ [o];
              delivered := delivered st; acc := acc st ++ [(i, k)]; rets := rets st |})
| T_ret j pr i (Hpr : nth_error (prods st) j = Some pr) (Hpc : p_pc pr = PStored i) :
    trans st (S j)
          {| buf := buf st; tail := tail st; head := head st;
             prods := upd (prods st) j {| p_todo := p_todo pr; p_pc := PIdle |};
             cons := cons st;
             tick := tick st; stored := stored st; lost := lost st;
             delivered := delivered st; acc := acc st;
             rets := rets st ++ [(i, NSLOT <=? (S i) - head st)] |}.

Lemma step_trans st tid st' : step st tid = Some st' -> trans st tid st'.
Proof.
  intros E.
  enough (T : match step st tid with Some s => trans st tid s | None => True end)
    by (rewrite E in T; exact T).
  unfold step. destruct tid as [|j].
  - destruct (cons st) as [|e|h e] eqn:Hc; [| |destruct (Nat.ltb_spec h e)];
      cbv zeta; eauto using trans.
  - destruct (nth_error (prods st) j) as [pr|] eqn:Hpr; [|exact I].
    destruct (p_pc pr) as [|v i|i] eqn:Hpc; [destruct (p_todo pr) as [|x r] eqn:Htd| |];
      cbv zeta; eauto using trans.
Qed.

Lemma trans_step st tid st' : trans st tid st' -> step st tid = Some st'.
Proof.
  unfold step. intros []; rewrite ?Hc, ?Hpr, ?Hpc, ?Htd; auto.
  - apply Nat.ltb_lt in Hlt. rewrite Hlt. reflexivity.
  - apply Nat.ltb_ge in Hge. rewrite Hge. reflexivity.
Qed.

Definition nz (v : Z) : Prop := v <> 0%Z.

Lemma fix0_nz h : nz (fix0 h).
Proof. unfold nz, fix0. destruct (Z.eqb_spec h 0); lia. Qed.

Lemma mod_lt_slot i : i mod NSLOT < NSLOT.
Proof. apply Nat.mod_upper_bound. unfold NSLOT; lia. Qed.

(* the low end of a drain's window, as computed in step (b) *)
Lemma lo_max h t : (if NSLOT <? t - h then t - NSLOT else h) = Nat.max h (t - NSLOT).
Proof. destruct (Nat.ltb_spec NSLOT (t - h)); lia. Qed.

Lemma slot_in_buf st i : length (buf st) = NSLOT -> i mod NSLOT < length (buf st).
Proof. intros ->. apply mod_lt_slot. Qed.

Section Proofs.
  Variable scripts : list (list Z).
  Notation reachable := (reachable scripts).

  Definition cons_ok (st : state) : Prop :=
    match cons st with
    | CIdle => True
    | CT t => head st <= t /\ t <= tail st
    | CLoop h t => head st <= h /\ h <= t /\ t <= tail st /\ t - h <= NSLOT
    end.

  Definition basic_inv (st : state) : Prop :=
    length (buf st) = NSLOT /\
    length (tick st) = tail st /\
    head st <= tail st /\
    cons_ok st /\
    Forall nz (tick st).

  Lemma basic_inv_reachable st : reachable st -> basic_inv st.
  Proof.
    induction 1 as [|st tid st' _ (HL & HT & HH & HC & HN) H]; unfold basic_inv, cons_ok in *.
    { cbn. repeat split; auto. }
    apply step_trans in H.
    destruct H; cbn [buf tail head cons tick set_consumer]; rewrite ?Hc in HC;
      rewrite ?upd_length, ?app_length; cbn [length]; repeat split; auto; try lia.
    - (* load head: [cons_ok] of the loop bounds just computed *)
      destruct (Nat.eqb_spec e (head st)); auto. rewrite lo_max. lia.
    - (* fetch: [cons_ok] survives a larger tail *) destruct (cons st); auto; lia.
    - (* fetch: the new ticket's value is nonzero *)
      apply Forall_app; split; auto. constructor; auto. apply fix0_nz.
  Qed.

  Theorem head_le_tail st : reachable st -> head st <= tail st.
  Proof. intros H. apply (basic_inv_reachable H). Qed.

  Theorem head_monotone st t st' : reachable st -> step st t = Some st' ->
    head st <= head st' /\ tail st <= tail st'.
  Proof.
    intros Hr H. destruct (basic_inv_reachable Hr) as (_ & _ & _ & HC & _).
    unfold cons_ok in HC. apply step_trans in H.
    destruct H; cbn [head tail set_consumer]; rewrite ?Hc in HC; lia.
  Qed.

  Lemma exec_monotone sched : forall st, reachable st ->
    head st <= head (exec sched st) /\ tail st <= tail (exec sched st).
  Proof.
    induction sched as [|t r IH]; intros st Hr; cbn [exec]; [lia|].
    destruct (step st t) as [st'|] eqn:E; [|apply IH; auto].
    pose proof (head_monotone _ Hr E). specialize (IH st' (R_step _ Hr E)). lia.
  Qed.

  (* producers' pending tickets are real tickets and carry the ticket's value *)
  Definition pc_ok (st : state) (pc : ppc) : Prop :=
    match pc with
    | PIdle => True
    | PGot v i => i < tail st /\ nth i (tick st) 0%Z = v
    | PStored i => i < tail st
    end.

  Definition prod_inv (st : state) : Prop :=
    forall j pr, nth_error (prods st) j = Some pr -> pc_ok st (p_pc pr).

  Lemma prod_inv_reachable st : reachable st -> prod_inv st.
  Proof.
    induction 1 as [|st tid st' Hr HP H]; unfold prod_inv in *.
    { intros j pr Hn. cbn in Hn. apply nth_error_In, in_map_iff in Hn as (q & <- & _).
      exact I. }
    destruct (basic_inv_reachable Hr) as (_ & HT & _).
    apply step_trans in H. destruct H; cbn [prods set_consumer]; auto; apply upd_all; try exact HP.
    - (* fetch: tickets pending elsewhere stay below the new tail *)
      intros j' pr' Hn. specialize (HP _ _ Hn). unfold pc_ok in *. cbn [tail tick].
      destruct (p_pc pr'); [exact I| |lia].
      destruct HP. split; [lia|]. rewrite app_nth1 by lia. auto.
    - (* ... and the new ticket is the last entry of [tick] *)
      cbn. split; [lia|]. rewrite app_nth2 by lia. rewrite HT, Nat.sub_diag. reflexivity.
    - specialize (HP _ _ Hpr). rewrite Hpc in HP. apply HP.
    - exact I.
  Qed.

  Theorem indices_in_range st : reachable st ->
    length (buf st) = NSLOT /\
    Forall (fun a => snd a = fst a mod NSLOT /\ snd a < length (buf st) /\ fst a < tail st)
           (acc st).
  Proof.
    intros Hr. split; [apply (basic_inv_reachable Hr)|].
    induction Hr as [|st tid st' Hr IH H]; [constructor|].
    destruct (basic_inv_reachable Hr) as (HL & _ & _ & HC & _). unfold cons_ok in HC.
    rewrite HL in IH. apply step_trans in H.
    destruct H; cbn [buf tail acc set_consumer]; rewrite ?upd_length, ?HL; auto.
    2: {
      eapply Forall_impl; [|exact IH]. cbn. intros a Ha. repeat split; try apply Ha. lia. }
    (* swap and store log an access at position mod NSLOT; the position is a ticket *)
    all: apply Forall_app; split; auto; constructor; auto; cbn;
      repeat split; auto using mod_lt_slot.
    - rewrite Hc in HC. lia.
    - pose proof (prod_inv_reachable Hr _ Hpr) as Hp. rewrite Hpc in Hp. apply Hp.
  Qed.

  Definition cnt (x : Z) (l : list Z) : nat := count (Z.eqb x) l.
  Definition pendp (x : Z) (pr : prod) : bool :=
    match p_pc pr with PGot v _ => Z.eqb x v | _ => false end.

  Lemma cnt_snoc x l v : cnt x (l ++ [v]) = cnt x l + b2n (Z.eqb x v).
  Proof. unfold cnt. rewrite count_app. cbn. lia. Qed.

  (* a value taken out of a cell is logged unless the cell was empty *)
  Lemma cnt_log x l o : x <> 0%Z ->
    cnt x (if Z.eqb o 0 then l else l ++ [o]) = cnt x l + b2n (Z.eqb x o).
  Proof.
    intros Hx. destruct (Z.eqb_spec o 0) as [->|_]; [|apply cnt_snoc].
    apply Z.eqb_neq in Hx. rewrite Hx. cbn. lia.
  Qed.

  Lemma cnt_upd x l k v : k < length l ->
    cnt x (upd l k v) + b2n (Z.eqb x (nth k l 0%Z)) = cnt x l + b2n (Z.eqb x v).
  Proof. intros H. apply count_upd, nth_error_nth', H. Qed.

  (* exact accounting, as multisets: stored = delivered + overwritten + still in a cell
     (of nonzero values); sampled (tick) = stored + pending stores *)
  Theorem sample_accounting st : reachable st ->
    (forall x, x <> 0%Z ->
       cnt x (stored st) = cnt x (delivered st) + cnt x (lost st) + cnt x (buf st)) /\
    (forall x, cnt x (tick st) = cnt x (stored st) + count (pendp x) (prods st)).
  Proof.
    induction 1 as [|st tid st' Hr [IA IP] H].
    { split; intros x; unfold cnt; cbn.
      - intros Hx. apply Z.eqb_neq in Hx. rewrite Hx. reflexivity.
      - induction scripts; cbn; auto. }
    destruct (basic_inv_reachable Hr) as (HL & _).
    apply step_trans in H.
    split.
    - intros y Hy. specialize (IA y Hy).
      destruct H; cbn [buf stored lost delivered set_consumer]; auto.
      + rewrite cnt_log by auto.
        pose proof (cnt_upd y (buf st) 0%Z (slot_in_buf _ h HL)) as CU.
        apply Z.eqb_neq in Hy. rewrite Hy in CU. cbn [b2n] in CU. lia.
      + rewrite cnt_snoc, cnt_log by auto.
        pose proof (cnt_upd y (buf st) v (slot_in_buf _ i HL)). lia.
    - (* a producer step changes its own entry of [prods]; [pendp] reads only the pc *)
      intros y. specialize (IP y). destruct H; cbn [prods stored tick set_consumer]; auto;
        match goal with |- context [upd _ _ ?n] =>
          pose proof (count_upd (pendp y) _ _ n Hpr) as CU end;
        unfold pendp in *; rewrite Hpc in CU; cbn [p_pc b2n] in CU; rewrite ?cnt_snoc; lia.
  Qed.

  Lemma delivered_nz st : reachable st -> Forall nz (delivered st).
  Proof.
    induction 1 as [|st tid st' _ IH H]; [constructor|].
    apply step_trans in H. destruct H; cbn [delivered set_consumer]; auto.
    (* swap: the value is delivered only if nonzero *)
    destruct (Z.eqb_spec (nth (h mod NSLOT) (buf st) 0%Z) 0); auto.
    apply Forall_app; split; auto.
  Qed.

  Lemma cnt_nz_zero l : Forall nz l -> cnt 0%Z l = 0.
  Proof.
    unfold cnt. induction 1 as [|a l Ha _ IH]; cbn [count]; auto. rewrite IH.
    unfold nz in Ha. destruct (Z.eqb_spec 0 a); cbn [b2n]; lia.
  Qed.

  (* every sampled value comes from a producer's script (0 reported as 1) *)
  Definition src_inv (st : state) : Prop :=
    (forall x, In x (tick st) -> In x (map fix0 (concat scripts))) /\
    (forall j pr, nth_error (prods st) j = Some pr -> incl (p_todo pr) (concat scripts)).

  Lemma src_inv_reachable st : reachable st -> src_inv st.
  Proof.
    induction 1 as [|st tid st' _ [IT IP] H]; unfold src_inv in *.
    { split; [intros x []|]. intros j pr Hn. cbn in Hn.
      apply nth_error_In, in_map_iff in Hn as (q & <- & Hq).
      intros z Hz. apply in_concat. exists q. auto. }
    apply step_trans in H. destruct H; cbn [tick prods set_consumer]; auto; split; auto.
    1,2: pose proof (IP _ _ Hpr) as Hi; rewrite Htd in Hi.
    - (* fetch: the new ticket's value is the head of the producer's script *)
      intros y Hy. apply in_app_or in Hy as [Hy|[<-|[]]]; auto.
      apply in_map, Hi. left; auto.
    - (* fetch: the rest of its script *)
      apply upd_all; auto. cbn. intros z Hz. apply Hi. right; auto.
    - apply upd_all; auto. exact (IP _ _ Hpr).
    - apply upd_all; auto. exact (IP _ _ Hpr).
  Qed.

  (* no fabrication: delivered is a sub-multiset of the sampled values [tick]; nothing
     delivered is 0; every sampled value is fix0 of a fingerprint in some script *)
  Theorem no_fabrication st : reachable st ->
    (forall x, cnt x (delivered st) <= cnt x (tick st)) /\
    Forall nz (delivered st) /\
    (forall x, In x (tick st) -> exists h, In h (concat scripts) /\ x = fix0 h).
  Proof.
    intros Hr. destruct (sample_accounting Hr) as [A P]. repeat split.
    - intros x. destruct (Z.eq_dec x 0) as [->|Hx].
      + rewrite (cnt_nz_zero (delivered_nz Hr)). lia.
      + specialize (A x Hx). specialize (P x). lia.
    - apply delivered_nz; auto.
    - intros x Hx. apply (proj1 (src_inv_reachable Hr)) in Hx.
      apply in_map_iff in Hx. destruct Hx as (h & <- & Hh). exists h; auto.
  Qed.

  (* The window: a drain without concurrent producers.
     The statement needs a hypothesis on the state in which the drain starts ([window_ok]:
     the cells of the current window hold their tickets' values).  Quiescence of the
     producers during the drain alone is NOT sufficient — see Examples.window_needs_coherence
     for the counterexample (an earlier out-of-order store leaves a stale value behind). *)
  Definition lastn (n : nat) (l : list Z) : list Z := skipn (length l - n) l.

  Definition win_lo (st : state) : nat :=
    if NSLOT <? tail st - head st then tail st - NSLOT else head st.

  Definition window_ok (st : state) : Prop :=
    forall pos, win_lo st <= pos < tail st ->
      nth (pos mod NSLOT) (buf st) 0%Z = nth pos (tick st) 0%Z.

  Lemma mod_ne a b : a < b < a + NSLOT -> b mod NSLOT <> a mod NSLOT.
  Proof.
    unfold NSLOT. intros H E.
    pose proof (Nat.div_mod a 64 ltac:(lia)). pose proof (Nat.div_mod b 64 ltac:(lia)). lia.
  Qed.

  Lemma consumer_frame k : forall st, let st' := exec (repeat 0 k) st in
    tail st' = tail st /\ tick st' = tick st /\ prods st' = prods st /\
    lost st' = lost st /\ stored st' = stored st.
  Proof.
    induction k as [|k IH]; intros st; cbn [repeat exec]; [auto|]. unfold step.
    destruct (cons st) as [| |h e]; [| |destruct (h <? e)]; exact (IH _).
  Qed.

  Lemma drain_start st : cons st = CIdle ->
    exec [0; 0] st =
    set_consumer st (head st) (if tail st =? head st then CIdle else CLoop (win_lo st) (tail st)).
  Proof.
    intros Hc. erewrite exec_step by (apply trans_step, T_load_tail, Hc).
    erewrite exec_step by (apply trans_step; eapply T_load_head; reflexivity).
    reflexivity.
  Qed.

  (* step (c): over cells that hold their tickets' values the loop delivers those tickets *)
  Lemma drain_loop k : forall st h t,
    cons st = CLoop h t -> t = h + k -> k <= NSLOT ->
    t <= length (tick st) -> length (buf st) = NSLOT -> Forall nz (tick st) ->
    (forall pos, h <= pos < t -> nth (pos mod NSLOT) (buf st) 0%Z = nth pos (tick st) 0%Z) ->
    let st' := exec (repeat 0 k) st in
    cons st' = CLoop t t /\
    delivered st' = delivered st ++ firstn k (skipn h (tick st)).
  Proof.
    induction k as [|k IH]; intros st h t Hc Ht Hk Hlen HL HN Hcells.
    - cbn. replace t with h in * by lia. rewrite app_nil_r. auto.
    - assert (Hlt : h < t) by lia.
      cbn [repeat]. rewrite (exec_step _ (trans_step (T_swap _ Hc Hlt))). cbv zeta.
      rewrite (Hcells h) by lia.
      assert (Hv : nth h (tick st) 0%Z <> 0%Z).
      { rewrite Forall_forall in HN. apply HN, nth_In. lia. }
      apply Z.eqb_neq in Hv. rewrite Hv.
      match goal with |- context [exec _ ?s] => destruct (IH s (S h) t) as [I1 I2] end;
        cbn [buf]; rewrite ?upd_length; auto; try lia.
      { intros pos Hp. cbn [buf tick]. rewrite nth_upd_ne; [apply Hcells; lia|].
        intros E. symmetry in E. revert E. apply mod_ne. lia. }
      split; auto. rewrite I2. cbn [delivered tick].
      rewrite <- app_assoc, (skipn_nth_cons (tick st) 0%Z (h := h)) by lia. reflexivity.
  Qed.

  (* quiescent drain: delivers exactly the last n = min(tail-head, 64) samples, in order.
     The drain takes n + 3 consumer steps: the two loads (a) and (b), n swaps (c) and the
     head store (d). *)
  Theorem window st : reachable st ->
    cons st = CIdle -> window_ok st -> tail st <> head st ->
    let n := Nat.min (tail st - head st) NSLOT in
    let st' := exec (repeat 0 (n + 3)) st in
    cons st' = CIdle /\ head st' = tail st /\ tail st' = tail st /\
    delivered st' = delivered st ++ lastn n (tick st) /\
    lost st' = lost st /\ stored st' = stored st /\ prods st' = prods st.
  Proof.
    intros Hr Hc Hw Hne n st'.
    destruct (basic_inv_reachable Hr) as (HL & HT & HH & _ & HN).
    destruct (consumer_frame (n + 3) st) as (F1 & _ & F3 & F4 & F5).
    fold st' in F1, F3, F4, F5.
    cut (cons st' = CIdle /\ head st' = tail st /\
         delivered st' = delivered st ++ lastn n (tick st)); [tauto|].
    assert (Hlo : win_lo st + n = tail st) by (unfold win_lo, n; rewrite lo_max; lia).
    subst st'. replace (n + 3) with (2 + (n + 1)) by lia.
    rewrite !repeat_app, !exec_app. cbn [repeat].
    rewrite (drain_start _ Hc). destruct (Nat.eqb_spec (tail st) (head st)); [contradiction|].
    match goal with |- context [exec (repeat 0 n) ?s] =>
      destruct (@drain_loop n s (win_lo st) (tail st)) as [D1 D2] end;
      cbn [tick buf set_consumer]; auto; try lia.
    rewrite (exec_step _ (trans_step (T_store_head _ D1 (le_n _)))).
    cbn [exec cons head delivered set_consumer]. repeat split; auto.
    rewrite D2. cbn [delivered tick]. f_equal. unfold lastn. rewrite HT.
    replace (tail st - n) with (win_lo st) by lia.
    apply firstn_all2. rewrite skipn_length. lia.
  Qed.

  (* empty stripe: the drain returns after its two loads *)
  Theorem window_empty st : cons st = CIdle -> tail st = head st ->
    let st' := exec (repeat 0 2) st in
    cons st' = CIdle /\ head st' = head st /\ delivered st' = delivered st /\ buf st' = buf st.
  Proof.
    intros Hc He st'. subst st'. cbn [repeat].
    rewrite (drain_start _ Hc), He, Nat.eqb_refl. cbn. auto.
  Qed.

  (* [window_ok] holds initially (window_ok_init) and after any completed drain
     (window_ok_drained), and it is preserved by every sample whose three steps run back to
     back, with no other producer's store in between (window_ok_atomic_sample): so it holds
     throughout every run made of whole samples and whole drains. *)
  Lemma window_ok_drained st : head st = tail st -> window_ok st.
  Proof.
    intros E pos. unfold win_lo, NSLOT. rewrite E, Nat.sub_diag. cbn. lia.
  Qed.

  Lemma window_ok_init : window_ok (init scripts).
  Proof. apply window_ok_drained. reflexivity. Qed.

  Lemma window_ok_atomic_sample st j pr x r : reachable st -> window_ok st ->
    nth_error (prods st) j = Some pr -> p_pc pr = PIdle -> p_todo pr = x :: r ->
    let st' := exec [S j; S j; S j] st in
    window_ok st' /\ tick st' = tick st ++ [fix0 x] /\ tail st' = S (tail st) /\
    head st' = head st /\ cons st' = cons st /\ delivered st' = delivered st.
  Proof.
    intros Hr Hw Hpr Hpc Htd.
    destruct (basic_inv_reachable Hr) as (HL & HT & HH & _).
    rewrite (exec_step _ (trans_step (T_fetch _ _ Hpr Hpc Htd))).
    erewrite exec_step
      by (eapply trans_step, T_store; [eapply nth_error_upd_eq, Hpr|reflexivity]).
    cbn [buf tail head prods cons tick stored lost delivered acc rets p_todo].
    erewrite exec_step
      by (eapply trans_step, T_ret;
          [eapply nth_error_upd_eq, nth_error_upd_eq, Hpr|reflexivity]).
    cbn [exec buf tail head cons tick delivered].
    repeat split; auto.
    intros pos. unfold win_lo. cbn [tail head buf tick]. rewrite lo_max. intros Hp.
    assert (Hp' : pos = tail st \/ (win_lo st <= pos < tail st /\ tail st < pos + NSLOT))
      by (unfold win_lo; rewrite lo_max; lia).
    destruct Hp' as [->|[Hp1 Hp2]].
    - (* the new ticket: its cell was just written *)
      rewrite nth_upd_eq by (apply slot_in_buf, HL).
      rewrite app_nth2 by lia. rewrite HT, Nat.sub_diag. reflexivity.
    - (* an older position of the window: another cell, less than NSLOT away *)
      rewrite nth_upd_ne by (apply mod_ne; lia).
      rewrite app_nth1 by lia. apply Hw; auto.
  Qed.

  (* Under concurrency: every nonzero cell holds the value of a real ticket of that cell's
     residue class *)
  Definition cell_inv (st : state) : Prop :=
    forall k, k < NSLOT -> nth k (buf st) 0%Z <> 0%Z ->
      exists p, p < tail st /\ p mod NSLOT = k /\ nth p (tick st) 0%Z = nth k (buf st) 0%Z.

  Theorem cell_provenance st : reachable st -> cell_inv st.
  Proof.
    induction 1 as [|st tid st' Hr HC H]; unfold cell_inv in *.
    { intros k Hk Hnz. exfalso. apply Hnz. cbn [init buf]. apply nth_repeat. }
    destruct (basic_inv_reachable Hr) as (HL & HT & _).
    apply step_trans in H. destruct H; cbn [buf tail tick set_consumer]; auto; intros k Hk Hnz.
    - (* swap: the cell is emptied *)
      destruct (Nat.eq_dec (h mod NSLOT) k) as [<-|Hne].
      + rewrite nth_upd_eq in Hnz by (apply slot_in_buf, HL). congruence.
      + rewrite nth_upd_ne in * by auto. auto.
    - (* fetch: old tickets keep their values *)
      destruct (HC k Hk Hnz) as (p & Hp & Hm & Hv).
      exists p. repeat split; auto. rewrite app_nth1 by lia. auto.
    - (* store: the cell gets the value of the producer's own ticket *)
      destruct (Nat.eq_dec (i mod NSLOT) k) as [<-|Hne].
      + rewrite nth_upd_eq by (apply slot_in_buf, HL).
        pose proof (prod_inv_reachable Hr _ Hpr) as Hp. rewrite Hpc in Hp. destruct Hp.
        exists i. auto.
      + rewrite nth_upd_ne in * by auto. auto.
  Qed.

  (* a pending store always lands in its own cell, whatever the consumer has done meanwhile
     (even if head has already moved past the ticket); the only loss it can cause is the
     unread value it overwrites *)
  Theorem store_lands st j pr v i st' : reachable st ->
    nth_error (prods st) j = Some pr -> p_pc pr = PGot v i -> step st (S j) = Some st' ->
    v = nth i (tick st) 0%Z /\ v <> 0%Z /\ i < tail st /\
    nth (i mod NSLOT) (buf st') 0%Z = v /\
    (forall k, k <> i mod NSLOT -> nth k (buf st') 0%Z = nth k (buf st) 0%Z) /\
    delivered st' = delivered st /\ head st' = head st /\
    lost st' = (if Z.eqb (nth (i mod NSLOT) (buf st) 0%Z) 0 then lost st
                else lost st ++ [nth (i mod NSLOT) (buf st) 0%Z]).
  Proof.
    intros Hr Hpr Hpc H. rewrite (trans_step (T_store _ _ Hpr Hpc)) in H. injection H as <-.
    cbn [buf delivered head lost].
    destruct (basic_inv_reachable Hr) as (HL & HT & _ & _ & HN).
    pose proof (prod_inv_reachable Hr _ Hpr) as Hp. rewrite Hpc in Hp. destruct Hp as [Hi Hv].
    repeat split; auto.
    - (* v is a ticket's value, hence nonzero *)
      rewrite <- Hv. rewrite Forall_forall in HN. apply HN. apply nth_In. lia.
    - apply nth_upd_eq, slot_in_buf, HL.
    - intros k Hk. apply nth_upd_ne. auto.
  Qed.

  (* samples are dropped ONLY by being overwritten in their cell by a later store,
     and delivered ONLY by the consumer's swap *)
  Theorem loss_only_by_overwrite st t st' : step st t = Some st' ->
    (lost st' = lost st \/
     exists j pr v i, t = S j /\ nth_error (prods st) j = Some pr /\ p_pc pr = PGot v i /\
       nth (i mod NSLOT) (buf st) 0%Z <> 0%Z /\
       lost st' = lost st ++ [nth (i mod NSLOT) (buf st) 0%Z]) /\
    (delivered st' = delivered st \/
     exists h t', t = 0 /\ cons st = CLoop h t' /\ h < t' /\
       nth (h mod NSLOT) (buf st) 0%Z <> 0%Z /\
       delivered st' = delivered st ++ [nth (h mod NSLOT) (buf st) 0%Z]).
  Proof.
    intros H. apply step_trans in H. destruct H; cbn [lost delivered set_consumer]; split; auto.
    - destruct (Z.eqb_spec (nth (h mod NSLOT) (buf st) 0%Z) 0); auto.
      right. exists h, e. auto.
    - destruct (Z.eqb_spec (nth (i mod NSLOT) (buf st) 0%Z) 0); auto.
      right. exists j, pr, v, i. auto.
  Qed.

  (* needDrain = false is never wrong about a full window: the ticket is less than 64
     ahead of head (and stays so, head being monotone) *)
  Theorem need_drain_false st : reachable st ->
    Forall (fun r => snd r = false -> S (fst r) < head st + NSLOT) (rets st).
  Proof.
    induction 1 as [|st tid st' Hr IH H]; [constructor|].
    destruct (basic_inv_reachable Hr) as (_ & _ & _ & HC & _). unfold cons_ok in HC.
    apply step_trans in H. destruct H; cbn [rets head set_consumer]; auto.
    - (* store head: head grows *)
      rewrite Hc in HC. eapply Forall_impl; [|exact IH]. cbn. intros a Ha Hf.
      specialize (Ha Hf). lia.
    - apply Forall_app; split; auto. constructor; auto. cbn [fst snd].
      intros Hf. apply Nat.leb_gt in Hf. lia.
  Qed.
End Proofs.

Module Examples.
  Open Scope Z_scope.
  Definition zs (a : Z) (n : nat) : list Z := zseq a n.
  Definition cells (st : state) : list (nat * Z) :=
    filter (fun kv => negb (Z.eqb (snd kv) 0)) (combine (seq 0 NSLOT) (buf st)).
  Definition view (st : state) :=
    (delivered st, lost st, (head st, tail st), cells st).
  Close Scope Z_scope.

  (* (a) a lapped stripe: one producer samples 1..70 (each sample's three steps back to back),
         then ONE drain: 3 + 64 consumer steps.  It delivers exactly 7..70, in order;
         1..6 were overwritten (lost). *)
  Definition lap_sched : list nat := repeat 1 (70 * 3) ++ repeat 0 (64 + 3).
  Definition lap_final := exec lap_sched (init [zs 1 70]).
  Example lapped_stripe :
    view lap_final = (zs 7 64, zs 1 6, (70, 70), []).
  Proof. vm_compute. reflexivity. Qed.

  (* needDrain was reported for exactly the samples with ticket >= 63 (backlog >= 64) *)
  Example lapped_need_drain :
    map snd (rets lap_final) = repeat false 63 ++ repeat true 7.
  Proof. vm_compute. reflexivity. Qed.

  Example lapped_reachable : reachable [zs 1 70] lap_final.
  Proof. apply exec_reachable. constructor. Qed.

  (* (b) a delayed store.  Producer A (thread 1) samples 100, producer B (thread 2) samples
         201, 202, ...  A takes ticket 0 but its store is delayed. *)
  Definition dly_scripts := [[100%Z]; zs 201 70].
  Definition dly_prefix : list nat :=
    [1]                      (* A: fetch-add, ticket 0; store pending *)
    ++ [2; 2; 2]             (* B: sample 201, ticket 1 *)
    ++ repeat 0 5            (* drain positions 0,1: cell 0 still EMPTY, delivers 201; head := 2 *)
    ++ [1; 1].               (* A: store lands in cell 0 although head = 2 > 0; A returns *)
  Definition dly_mid := exec dly_prefix (init dly_scripts).

  (* the consumer passed cell 0 before the store: nothing lost, 100 sits in cell 0 *)
  Example delayed_store_stays_in_cell :
    view dly_mid = ([201%Z], [], (2, 2), [(0, 100%Z)]).
  Proof. vm_compute. reflexivity. Qed.

  (* (b1) ... and is delivered by a LATER drain: B completes tickets 2..63, takes ticket 64
          (store pending), the drain covers positions 2..64 and position 64 is cell 0 again:
          it hands out 100, late and out of order.  B's own 264 then lands in cell 0. *)
  Definition dly_later : list nat :=
    repeat 2 (62 * 3) ++ [2] ++ repeat 0 (2 + 63 + 1) ++ [2; 2].
  Example delayed_store_delivered_later :
    view (exec dly_later dly_mid) =
    (201%Z :: zs 202 62 ++ [100%Z], [], (65, 65), [(0, 264%Z)]).
  Proof. vm_compute. reflexivity. Qed.

  (* (b2) ... or is overwritten: B completes tickets 2..64 before any drain; the store of
          ticket 64 overwrites the unread 100 in cell 0 (the one and only loss). *)
  Definition dly_over : list nat := repeat 2 (63 * 3) ++ repeat 0 (2 + 63 + 1).
  Example delayed_store_overwritten :
    view (exec dly_over dly_mid) =
    (201%Z :: zs 202 63, [100%Z], (65, 65), []).
  Proof. vm_compute. reflexivity. Qed.

  (* (c) REFUTATION of the naive window statement ("producers quiescent during the drain
         => the drain delivers the last min(t-h,64) samples"): quiescence DURING the drain is
         not enough, the window must also be coherent ([window_ok]) when the drain starts.
         A takes ticket 0 and stalls; B completes tickets 1..64 (264 goes to cell 0); A's
         stale store then overwrites the NEWER 264.  Now every producer is idle, the drain
         runs alone over positions 1..64 — and delivers 100 (ticket 0) where the last-64
         statement promises 264 (ticket 64). *)
  Definition stale_sched : list nat :=
    [1] ++ repeat 2 (64 * 3) ++ [1; 1] ++ repeat 0 (64 + 3).
  Example window_needs_coherence :
    let st := exec stale_sched (init dly_scripts) in
    view st = (zs 201 63 ++ [100%Z], [264%Z], (65, 65), []) /\
    lastn 64 (tick st) = zs 201 64.
  Proof. vm_compute. split; reflexivity. Qed.
End Examples.
