(* Invariants of the write-pipeline LTS (QueueLts.v), for every ring size
   n >= 2, batch B >= 1, any number of threads and every schedule (including every resolution
   of the two-way selects: the choice bit of lstepc). *)
Require Import KV.Base KV.QueueLts.
Open Scope Z_scope.
Set Default Goal Selector "!".

Lemma upd_length {A} (l : list A) i x : length (upd l i x) = length l.
Proof. revert i; induction l as [|y l IH]; intros [|i]; cbn; auto. Qed.

Lemma nth_error_upd_eq {A} (l : list A) i x : (i < length l)%nat -> nth_error (upd l i x) i = Some x.
Proof. revert i; induction l as [|y l IH]; intros [|i] H; cbn in *; try lia; auto. apply IH; lia. Qed.

Lemma nth_error_upd_ne {A} (l : list A) i j x : i <> j -> nth_error (upd l i x) j = nth_error l j.
Proof.
  revert i j; induction l as [|y l IH]; intros [|i] [|j] H; cbn; auto; try congruence.
Qed.

Lemma nth_upd_eq {A} (l : list A) i x d : (i < length l)%nat -> nth i (upd l i x) d = x.
Proof. revert i; induction l as [|y l IH]; intros [|i] H; cbn in *; try lia; auto. apply IH; lia. Qed.

Lemma nth_upd_ne {A} (l : list A) i j x d : i <> j -> nth j (upd l i x) d = nth j l d.
Proof.
  revert i j; induction l as [|y l IH]; intros [|i] [|j] H; cbn; auto; try congruence.
Qed.

Lemma nth_error_lt {A} (l : list A) i x : nth_error l i = Some x -> (i < length l)%nat.
Proof. intros H. apply nth_error_Some. congruence. Qed.

Definition thr (s : gstate) (tid : nat) (th : thread) : Prop := nth_error (threads s) tid = Some th.

Lemma lstepc_inv c s tid s' o :
  lstepc c s tid = Some (s', o) ->
  exists th s1 th1, thr s tid th /\ tstep c s tid th = Some (s1, th1, o)
                    /\ s' = set_threads s1 (upd (threads s1) tid th1).
Proof.
  unfold lstepc, thr. destruct (nth_error (threads s) tid) as [th|]; [|discriminate].
  destruct (tstep c s tid th) as [[[s1 th1] o1]|] eqn:E; [|discriminate].
  intros H; inversion H; subst. eauto 6.
Qed.

Definition holder (p : pcT) : bool :=
  match p with P121 | P122 | P123 | P124 | P125 | P126 | P312 | P313 | P323 | P332 | P333 => true | _ => false end.
Definition has_buf (p : pcT) : bool :=
  match p with P122 | P123 | P124 | P125 | P126 | P312 => true | _ => false end.

Definition cur_ok (p : pcT) (c : option op) : bool :=
  match p, c with
  | P0, None => true
  | (P101|P102|P103|P104|P105|P106|P108), Some (OSetAsync _ | OEnqueue _ | OSync _ | OClear _ | OClose _) => true
  | (P121|P122|P123|P124|P125|P126|P312|P313), Some (OWorker | OSet _ | OSync _ | OClear _ | OClose _ | OMiss) => true
  | (P301|P302|P303|P304|P305|P308|P311), Some OWorker => true
  | (P321|P322|P323), Some (OSetAsync _) => true
  | (P331|P332|P333), Some (OSet _) => true
  | P340, Some (OSync _ | OClear _ | OClose _) => true
  | (P339|P341|P343), Some (OClose _) => true
  | (P350|P351), Some OHoldMu => true
  | _, _ => false
  end.

(* cache-level operations: everything except the raw consumer operations, which drive the ring
   without the drain token and are only meant for the ring-level correspondence check *)
Definition wf_op (o : op) : bool :=
  match o with OTryDequeue _ | OTakeWake | OClearWS | OReady | ORearm | OCloseCh => false | _ => true end.

Definition fin (th : thread) : thread := set_dbuf (set_pc (set_cur th None) P0) [].

(* the producer's wake attempt at 106 *)
Inductive wake_sent (s : gstate) (th : thread) : gstate -> Prop :=
| ws_no : (tail s =? epos th) && (wakeState s =? 0) = false -> wake_sent s th s
| ws_yes : tail s = epos th -> wakeState s = 0 -> wake_sent s th (set_wakeTok (set_wakeState s 1) true).

Definition barrier_op (o : option op) : Prop := exists a, o = Some (OSync a) \/ o = Some (OClear a) \/ o = Some (OClose a).

(* steps that only move the program counter, with what they have observed *)
Inductive goto (s : gstate) (th : thread) : pcT -> pcT -> Prop :=
| g102_free : cseq (cell_at s (epos th)) = epos th -> goto s th P102 P103
| g102_full : cseq (cell_at s (epos th)) < epos th -> goto s th P102 P108
| g102_late : epos th < cseq (cell_at s (epos th)) -> goto s th P102 P101
| g103_lost : head s <> epos th -> goto s th P103 P101
| g108_closed ack : cur th = Some (OClose ack) -> closeCh s = true -> goto s th P108 P339
| g122_pub : cseq (cell_at s (dpos th)) = dpos th + 1 -> goto s th P122 P123
| g122_end : cseq (cell_at s (dpos th)) <> dpos th + 1 -> dbuf th <> [] -> goto s th P122 P126
| g301_closed : closeCh s = true -> goto s th P301 P308
| g302 : goto s th P302 P311
| g304_ready : cseq (cell_at s (tail s)) = tail s + 1 -> goto s th P304 P305
| g304_idle : cseq (cell_at s (tail s)) <> tail s + 1 -> goto s th P304 P301
| g305_armed : wakeState s <> 0 -> goto s th P305 P301
| g321_empty : head s = tail s -> goto s th P321 P322
| g340_closed ack : cur th = Some (OClose ack) -> closeCh s = true -> goto s th P340 P339
| g341 : workers_done s = true -> goto s th P341 P343.

(* start_op on the thread th that already has the operation as cur *)
Inductive start (s : gstate) (tid : nat) (th : thread) (o : op) : gstate -> thread -> Prop :=
| st_async id : o = OSetAsync id -> start s tid th o (set_trace s (trace s ++ [EInv id])) (set_pc th P321)
| st_enq id : o = OEnqueue id -> start s tid th o (set_trace s (trace s ++ [EInv id])) (set_pc th P101)
| st_worker : o = OWorker -> start s tid th o s (set_pc (set_wclosing th false) P301)
| st_set id : o = OSet id -> closedFlag s = false ->
    start s tid th o (set_trace s (trace s ++ [EInv id])) (set_pc th P331)
| st_set_closed id : o = OSet id -> closedFlag s = true ->
    start s tid th o (set_trace s (trace s ++ [EInv id])) (fin th)
| st_sync ack : o = OSync ack \/ o = OClear ack -> closedFlag s = false -> start s tid th o s (set_pc th P101)
| st_sync_closed ack : o = OSync ack \/ o = OClear ack -> closedFlag s = true -> start s tid th o s (fin th)
| st_close_done ack : o = OClose ack -> onceDone s = true -> start s tid th o s (fin th)
| st_close ack : o = OClose ack -> onceDone s = false -> onceHeld s = None ->
    start s tid th o (set_closedFlag (set_onceHeld s (Some tid)) true) (set_pc th P101)
| st_miss_skip : o = OMiss -> closedFlag s || (head s =? tail s) || negb (is_none (drainMu s)) = true ->
    start s tid th o s (fin th)
| st_miss : o = OMiss -> closedFlag s = false -> head s <> tail s -> drainMu s = None ->
    start s tid th o (set_drainMu s (Some tid)) (set_pc (set_dbuf th []) P121)
| st_hold : o = OHoldMu -> start s tid th o s (set_pc th P350).

(* drain_ret: the ring was found empty *)
Inductive drained (s : gstate) (th : thread) : gstate -> thread -> Prop :=
| dr_exit : cur th = Some OWorker -> wclosing th = true ->
    drained s th (set_drainMu s None) (set_pc (set_cur th None) P0)
| dr_idle : cur th = Some OWorker -> wclosing th = false -> drained s th (set_drainMu s None) (set_pc th P303)
| dr_wait id : cur th = Some (OSet id) -> gfixed s = true -> tail s < starget th -> drained s th s (set_pc th P333)
| dr_apply id : cur th = Some (OSet id) -> gfixed s && (tail s - starget th <? 0) = false -> drained s th s (set_pc th P332)
| dr_await : barrier_op (cur th) -> drained s th (set_drainMu s None) (set_pc th P340)
| dr_miss : cur th = Some OMiss -> drained s th (set_drainMu s None) (fin th).

Inductive step (c : bool) (s : gstate) (tid : nat) (th : thread) : gstate -> thread -> Prop :=
| s_start o r s1 th1 : pc th = P0 -> cur th = None -> script th = o :: r ->
    start s tid (set_cur (set_script th r) (Some o)) o s1 th1 -> step c s tid th s1 th1
| s_goto p0 p1 : pc th = p0 -> goto s th p0 p1 -> step c s tid th s (set_pc th p1)
| s101 : pc th = P101 -> step c s tid th s (set_pc (set_epos th (head s)) P102)
| s103 o : pc th = P103 -> cur th = Some o -> head s = epos th ->
    step c s tid th (set_resv (set_head s (epos th + 1)) (resv s ++ [cmd_of o])) (set_pc th P104)
| s104 o : pc th = P104 -> cur th = Some o ->
    step c s tid th
      (set_cell (if is_none (ccmd (cell_at s (epos th))) then s else set_overwrote s true) (epos th)
                (mkCell (cseq (cell_at s (epos th))) (Some (cmd_of o))))
      (set_pc th P105)
| s105 : pc th = P105 ->
    step c s tid th (set_cell s (epos th) (mkCell (epos th + 1) (ccmd (cell_at s (epos th))))) (set_pc th P106)
| s106_write id sw : pc th = P106 -> cur th = Some (OSetAsync id) \/ cur th = Some (OEnqueue id) ->
    wake_sent s th sw ->
    step c s tid th (set_trace (set_accd sw (accd s ++ [epos th])) (trace s ++ [ERet id])) (fin th)
| s106_drain sw : pc th = P106 -> barrier_op (cur th) -> wake_sent s th sw -> drainMu s = None ->
    step c s tid th (set_drainMu sw (Some tid)) (set_pc (set_dbuf th []) P121)
| s106_await sw : pc th = P106 -> barrier_op (cur th) -> wake_sent s th sw -> drainMu s <> None ->
    step c s tid th sw (set_pc th P340)
| s108_retry : pc th = P108 -> spaceTok s = true -> c && closeCh s = false ->
    step c s tid th (set_spaceTok s false) (set_pc th P101)
| s108_closed : pc th = P108 -> closeCh s = true -> (forall a, cur th <> Some (OClose a)) ->
    step c s tid th s (fin th)
| s121 : pc th = P121 -> 0 < max_of s th -> step c s tid th s (set_pc (set_dpos th (tail s)) P122)
| s121_none s1 th1 : pc th = P121 -> max_of s th <= 0 -> drained s (set_dpos th (tail s)) s1 th1 ->
    step c s tid th s1 th1
| s122_empty s1 th1 : pc th = P122 -> cseq (cell_at s (dpos th)) <> dpos th + 1 -> dbuf th = [] ->
    drained s th s1 th1 -> step c s tid th s1 th1
| s123 : pc th = P123 ->
    step c s tid th s
      (set_pc (set_dbuf th (dbuf th ++ [match ccmd (cell_at s (dpos th)) with Some cm => cm | None => Write 0 end])) P124)
| s124 : pc th = P124 ->
    step c s tid th (set_gtail (set_cell s (dpos th) (mkCell (dpos th + gn s) None)) (dpos th + 1))
         (set_pc (set_dpos th (dpos th + 1)) P125)
| s125 : pc th = P125 ->
    step c s tid th (set_tail s (dpos th))
         (set_pc th (if Z.of_nat (length (dbuf th)) <? max_of s th then P122 else P126))
| s126 : pc th = P126 -> step c s tid th (set_spaceTok s true) (set_pc th P312)
| s301 : pc th = P301 -> wakeTok s = true -> c && closeCh s = false ->
    step c s tid th (set_wakeTok s false) (set_pc th P302)
| s303 : pc th = P303 -> step c s tid th (set_wakeState s 0) (set_pc th P304)
| s305 : pc th = P305 -> wakeState s = 0 -> step c s tid th (set_wakeState s 1) (set_pc th P302)
| s308 : pc th = P308 -> step c s tid th s (set_pc (set_wclosing th true) P311)
| s311 : pc th = P311 -> drainMu s = None ->
    step c s tid th (set_drainMu s (Some tid)) (set_pc (set_dbuf th []) P121)
| s312 : pc th = P312 -> mu s = None ->
    step c s tid th (apply_batch s (dbuf th)) (set_pc (set_dbuf (set_dacks th (cacks (dbuf th))) []) P313)
| s313 : pc th = P313 ->
    step c s tid th (set_ackTok s (ackTok s ++ dacks th)) (set_pc (set_dbuf (set_dacks th []) []) P121)
| s321_queue : pc th = P321 -> head s <> tail s ->
    step c s tid th s (if closedFlag s then fin th else set_pc th P101)
| s322 : pc th = P322 -> drainMu s = None -> step c s tid th (set_drainMu s (Some tid)) (set_pc th P323)
| s322_busy : pc th = P322 -> drainMu s <> None ->
    step c s tid th s (if closedFlag s then fin th else set_pc th P101)
| s323_queue : pc th = P323 -> closedFlag s || negb (head s =? tail s) || negb (is_none (mu s)) = true ->
    step c s tid th (set_drainMu s None) (if closedFlag s then fin th else set_pc th P101)
| s323 id : pc th = P323 -> cur th = Some (OSetAsync id) -> closedFlag s = false -> head s = tail s -> mu s = None ->
    step c s tid th (set_trace (set_drainMu (apply_direct s id) None) (trace (apply_direct s id) ++ [ERet id])) (fin th)
| s331_closed : pc th = P331 -> drainMu s = None -> closedFlag s = true -> step c s tid th s (fin th)
| s331 : pc th = P331 -> drainMu s = None -> closedFlag s = false ->
    step c s tid th (set_drainMu s (Some tid)) (set_pc (set_dbuf (set_starget th (head s)) []) P121)
| s333 : pc th = P333 -> step c s tid th s (set_pc (set_dbuf th []) P121)
| s332 id : pc th = P332 -> cur th = Some (OSet id) -> mu s = None ->
    step c s tid th (set_trace (set_drainMu (apply_direct s id) None) (trace (apply_direct s id) ++ [ERet id])) (fin th)
| s340_ack ack : pc th = P340 -> cur th = Some (OSync ack) \/ cur th = Some (OClear ack) ->
    memZ ack (ackTok s) = true -> c && closeCh s = false ->
    step c s tid th (set_ackTok s (removeZ ack (ackTok s))) (fin th)
| s340_closed : pc th = P340 -> (forall a, cur th <> Some (OClose a)) -> closeCh s = true -> step c s tid th s (fin th)
| s340_ack_close ack : pc th = P340 -> cur th = Some (OClose ack) -> memZ ack (ackTok s) = true -> c && closeCh s = false ->
    step c s tid th (set_ackTok s (removeZ ack (ackTok s))) (set_pc th P339)
| s339 : pc th = P339 -> step c s tid th (set_closeCh s true) (set_pc th P341)
| s343 : pc th = P343 -> mu s = None -> step c s tid th (set_onceDone (set_onceHeld s None) true) (fin th)
| s350 : pc th = P350 -> mu s = None -> step c s tid th (set_mu s (Some tid)) (set_pc th P351)
| s351 : pc th = P351 -> step c s tid th (set_mu s None) (fin th).

Ltac zb :=
  repeat match goal with
         | H : (_ =? _) = true |- _ => apply Z.eqb_eq in H
         | H : (_ =? _) = false |- _ => apply Z.eqb_neq in H
         | H : (_ <? _) = true |- _ => apply Z.ltb_lt in H
         | H : (_ <? _) = false |- _ => apply Z.ltb_ge in H
         end.

(* lia splits on every hypothesis that is an implication or an equivalence with an arithmetic side; the
   step proofs carry a dozen of them, none of which their bounds need *)
Ltac arith :=
  repeat match goal with H : _ -> _ |- _ => clear H | H : _ <-> _ |- _ => clear H end; lia.

Ltac bool_hyps :=
  repeat match goal with
         | H : _ || _ = false |- _ => apply orb_false_iff in H; destruct H
         | H : negb _ = false |- _ => apply negb_false_iff in H
         | H : _ && _ = true |- _ => apply andb_true_iff in H; destruct H
         | H : negb _ = true |- _ => apply negb_true_iff in H
         end.

Lemma is_none_true {A} (o : option A) : is_none o = true <-> o = None.
Proof. destruct o; cbn; split; congruence. Qed.
Lemma is_none_false {A} (o : option A) : is_none o = false <-> o <> None.
Proof. destruct o; cbn; split; congruence. Qed.

Ltac none_props :=
  repeat match goal with
         | H : is_none _ = true |- _ => apply is_none_true in H
         | H : is_none _ = false |- _ => apply is_none_false in H
         end.

(* H : e = Some (s1, th1, o) with e built from the step helpers: one goal per successful outcome,
   with the tests that led to it as hypotheses *)
Ltac open_helpers H :=
  cbv beta iota zeta delta [start_op enq_ret cenqueue try_drain drain_start deq_retn deq_ret0 drain_ret
                            finish_w finish park signal_space signal_wake] in H;
  cbn [cur pc script epos dpos dbuf dacks wclosing starget
       set_script set_cur set_pc set_epos set_dpos set_dbuf set_dacks set_wclosing set_starget Z.eqb] in H.
Ltac outcomes H :=
  open_helpers H;
  repeat match type of H with
         | context [match ?x with _ => _ end] => let E := fresh "E" in destruct x eqn:E
         end;
  try discriminate H; injection H as <- <- _; bool_hyps; zb; none_props.

Ltac returns H := cbv beta zeta delta [park] in H; injection H as <- <- _.

Lemma start_op_start s tid th o s1 th1 out :
  wf_op o = true -> start_op s tid th o = Some (s1, th1, out) -> start s tid (set_cur th (Some o)) o s1 th1.
Proof.
  intros Hwf H. destruct o; try discriminate Hwf; outcomes H; solve [econstructor; eauto].
Qed.

Lemma deq_ret0_drained s tid th s1 th1 out :
  cur_ok P121 (cur th) = true -> deq_ret0 s tid th = Some (s1, th1, out) -> drained s th s1 th1.
Proof.
  intros Hok H. unfold deq_ret0, drain_ret in H.
  destruct (cur th) as [[]|] eqn:Hcur; try discriminate Hok; outcomes H;
    solve [econstructor; unfold barrier_op; eauto; arith].
Qed.

Lemma cenqueue_requeue s th id s1 th1 out :
  cur th = Some (OSetAsync id) -> cenqueue s th = Some (s1, th1, out) ->
  s1 = s /\ th1 = if closedFlag s then fin th else set_pc th P101.
Proof. intros Hcur H. unfold cenqueue in H. rewrite Hcur in H. outcomes H; auto. Qed.

Lemma tstep_step c s tid th s1 th1 o :
  tstep c s tid th = Some (s1, th1, o) -> cur_ok (pc th) (cur th) = true ->
  forallb wf_op (script th) = true -> step c s tid th s1 th1.
Proof.
  intros H Hok Hwf. unfold tstep in H.
  destruct (pc th) eqn:Hpc.
  all: pose proof (fun p1 => s_goto c s tid th _ p1 Hpc) as G.
  - destruct (cur th) eqn:Hcur; [discriminate|]. destruct (script th) as [|o0 r] eqn:Hs; [discriminate|].
    apply andb_true_iff in Hwf as [Hwf _]. apply (s_start c s tid th o0 r s1 th1 Hpc Hcur Hs).
    eapply start_op_start; eauto.
  - outcomes H. apply s101; auto.
  - outcomes H; apply G; constructor; arith.
  - destruct (cur th) eqn:Hcur; [|discriminate Hok]. outcomes H; [eapply s103; eauto | apply G; constructor; auto].
  - destruct (cur th) eqn:Hcur; [|discriminate Hok]. returns H. eapply s104; eauto.
  - outcomes H. apply s105; auto.
  - open_helpers H. destruct (cur th) as [[]|] eqn:Hcur; try discriminate Hok; outcomes H.
    all: first [ eapply s106_write | eapply s106_drain | eapply s106_await ]; eauto; unfold barrier_op; eauto.
    all: constructor; auto.
  - open_helpers H. destruct (cur th) as [[]|] eqn:Hcur; try discriminate Hok; outcomes H.
    all: first [ apply s108_retry; auto; fail | apply s108_closed; auto; congruence | apply G; econstructor; eauto ].
  - cbv zeta in H. destruct (0 <? max_of s th) eqn:E; zb.
    + outcomes H. apply s121; auto.
    + apply (s121_none c s tid th s1 th1 Hpc E). apply (deq_ret0_drained s tid (set_dpos th (tail s)) _ _ _ Hok H).
  - destruct (cseq (cell_at s (dpos th)) =? dpos th + 1) eqn:E; zb.
    + outcomes H. apply G. constructor; auto.
    + destruct (dbuf th) eqn:Eb.
      * apply (s122_empty c s tid th s1 th1 Hpc E Eb). apply (deq_ret0_drained _ _ _ _ _ _ Hok H).
      * outcomes H. apply G. constructor; auto. congruence.
  - pose proof (s123 c s tid th Hpc) as X. outcomes H; exact X.
  - outcomes H. apply s124; auto.
  - pose proof (s125 c s tid th Hpc) as X. outcomes H; exact X.
  - open_helpers H. destruct (cur th) as [[]|] eqn:Hcur; try discriminate Hok; outcomes H; apply s126; auto.
  - outcomes H; [apply s301; auto | apply G; constructor; auto].
  - outcomes H. apply G. constructor.
  - outcomes H. apply s303; auto.
  - outcomes H; apply G; constructor; auto.
  - outcomes H; [apply s305; auto | apply G; constructor; auto].
  - outcomes H. apply s308; auto.
  - outcomes H. apply s311; auto.
  - outcomes H. apply s312; auto.
  - outcomes H. apply s313; auto.
  - destruct (cur th) as [[]|] eqn:Hcur; try discriminate Hok.
    destruct (head s =? tail s) eqn:E; zb.
    + outcomes H. apply G. constructor; auto.
    + apply (cenqueue_requeue _ _ _ _ _ _ Hcur) in H as [-> ->]. apply s321_queue; auto.
  - destruct (cur th) as [[]|] eqn:Hcur; try discriminate Hok.
    destruct (is_none (drainMu s)) eqn:E; none_props.
    + outcomes H. apply s322; auto.
    + apply (cenqueue_requeue _ _ _ _ _ _ Hcur) in H as [-> ->]. apply s322_busy; auto.
  - destruct (cur th) as [[]|] eqn:Hcur; try discriminate Hok.
    destruct (closedFlag s || negb (head s =? tail s) || negb (is_none (mu s))) eqn:E.
    + apply (cenqueue_requeue _ _ _ _ _ _ Hcur) in H as [-> ->]. cbn [closedFlag set_drainMu]. apply s323_queue; auto.
    + outcomes H. eapply s323; eauto.
  - outcomes H; [apply s331_closed; auto | apply s331; auto].
  - outcomes H. eapply s332; eauto.
  - outcomes H. apply s333; auto.
  - outcomes H. apply s339; auto.
  - open_helpers H. destruct (cur th) as [[]|] eqn:Hcur; try discriminate Hok; outcomes H.
    all: first [ eapply s340_ack; eauto; fail | eapply s340_ack_close; eauto; fail
               | apply s340_closed; auto; congruence | apply G; econstructor; eauto ].
  - outcomes H. apply G. constructor; auto.
  - outcomes H. apply s343; auto.
  - outcomes H. apply s350; auto.
  - outcomes H. apply s351; auto.
Qed.

Ltac step_cases H :=
  destruct H;
  repeat match goal with
         | X : start _ _ _ _ _ _ |- _ => destruct X
         | X : drained _ _ _ _ |- _ => destruct X
         | X : goto _ _ _ _ |- _ => destruct X
         | X : wake_sent _ _ _ |- _ => destruct X
         end;
  subst;
  cbn [fin cur pc script epos dpos dbuf dacks wclosing starget
       set_script set_cur set_pc set_epos set_dpos set_dbuf set_dacks set_wclosing set_starget] in *.

(* the cases of a step with its park point named Hpc, the two-way tests of the result split *)
Ltac step_pcs Hst Hok :=
  step_cases Hst;
  let Hpc := fresh "Hpc" in let Hcur := fresh "Hcur" in
  match goal with E : pc _ = _ |- _ => rename E into Hpc end;
  rewrite Hpc in Hok;
  try match goal with E : cur _ = _ \/ cur _ = _ |- _ => destruct E as [E|E] end;
  try match goal with E : ?o = OSync _ \/ ?o = OClear _ |- _ => destruct E as [-> | ->] end;
  try (match goal with E : cur _ = Some _ |- _ => rename E into Hcur; rewrite Hcur in Hok end);
  try match goal with |- context [match ccmd ?x with _ => _ end] => destruct (ccmd x) eqn:E end;
  try destruct (closedFlag _) eqn:Ecl; try destruct (_ <? _) eqn:Elt; try destruct (is_none _) eqn:Eno.

(* the kind of the current operation where a proof needs it and the step did not look: forced by the
   park point, or split at the consumer park points that several operations share *)
Ltac op_kinds Hok :=
  first [ match goal with E : cur _ = Some _ |- _ => idtac end
        | let Hcur := fresh "Hcur" in
          match type of Hok with cur_ok _ (cur ?t) = _ =>
            assert (Hcur : cur t = Some OWorker) by (destruct (cur t) as [[]|]; try discriminate Hok; reflexivity) end
        | let Hcur := fresh "Hcur" in
          lazymatch type of Hok with
          | cur_ok P121 _ = _ => idtac | cur_ok P122 _ = _ => idtac | cur_ok P123 _ = _ => idtac
          | cur_ok P124 _ = _ => idtac | cur_ok P125 _ = _ => idtac | cur_ok P126 _ = _ => idtac
          | cur_ok P312 _ = _ => idtac | cur_ok P313 _ = _ => idtac end;
          match type of Hok with cur_ok _ (cur ?t) = _ => destruct (cur t) as [[]|] eqn:Hcur end;
          try discriminate Hok;
          repeat match goal with
                 | X : barrier_op _ |- _ => destruct X as (? & [X|[X|X]]); try discriminate X; clear X
                 end
        | idtac ].

Ltac thread_cbn :=
  cbn [fin cur pc script epos dpos dbuf dacks wclosing starget
       set_script set_cur set_pc set_epos set_dpos set_dbuf set_dacks set_wclosing set_starget].

(* all projections of the successor state, reduced to the end: the kernel compares two different nested
   setter terms under one projection in time exponential in the nesting, a projection of a nested term with
   its fully reduced form at once.  Never `cbn` such a goal only in part. *)
Ltac state_cbn := cbn [set_cell apply_direct apply_batch fin gn gB gfixed ring head tail wakeState wakeTok spaceTok closeCh closedFlag drainMu mu onceHeld onceDone ackTok applied threads resv qlog dlog accd gtail overwrote trace set_gn set_gB set_gfixed set_ring set_head set_tail set_wakeState set_wakeTok set_spaceTok set_closeCh set_closedFlag set_drainMu set_mu set_onceHeld set_onceDone set_ackTok set_applied set_threads set_resv set_qlog set_dlog set_accd set_gtail set_overwrote set_trace script cur pc epos dpos dbuf dacks wclosing starget set_script set_cur set_pc set_epos set_dpos set_dbuf set_dacks set_wclosing set_starget].

Lemma step_frame c s tid th s1 th1 :
  step c s tid th s1 th1 -> threads s1 = threads s /\ gn s1 = gn s /\ gB s1 = gB s /\ gfixed s1 = gfixed s.
Proof. intros H. step_cases H; repeat split; try reflexivity; destruct (is_none _); reflexivity. Qed.

(* how one lock word may change in a step of tid, h / h1 telling whether tid's park point is one at
   which it holds the lock: unchanged, taken by tid when free, or released by tid *)
Definition lock_ok (tid : nat) (lk lk1 : option nat) (h h1 : bool) : Prop :=
  (h1 = h /\ lk1 = lk) \/ (h = false /\ h1 = true /\ lk = None /\ lk1 = Some tid) \/ (h = true /\ h1 = false /\ lk1 = None).

Lemma lock_ok_self tid lk lk1 h h1 :
  lock_ok tid lk lk1 h h1 -> (lk = Some tid <-> h = true) -> (lk1 = Some tid <-> h1 = true).
Proof. intros [(-> & ->)|[(-> & -> & -> & ->)|(-> & -> & ->)]] Hi; intuition congruence. Qed.

Lemma lock_ok_other tid lk lk1 h h1 t :
  lock_ok tid lk lk1 h h1 -> (lk = Some tid <-> h = true) -> t <> tid -> (lk1 = Some t <-> lk = Some t).
Proof. intros [(-> & ->)|[(-> & -> & -> & ->)|(-> & -> & ->)]] Hi N; intuition congruence. Qed.

Definition reader (p : pcT) : bool := match p with P351 => true | _ => false end.

Lemma reader_iff p : reader p = true <-> p = P351.
Proof. destruct p; cbn; split; congruence. Qed.

Lemma step_locks c s tid th s1 th1 :
  step c s tid th s1 th1 ->
  lock_ok tid (drainMu s) (drainMu s1) (holder (pc th)) (holder (pc th1))
  /\ lock_ok tid (mu s) (mu s1) (reader (pc th)) (reader (pc th1)).
Proof.
  intros H. unfold lock_ok. step_cases H; thread_cbn.
  all: try match goal with |- context [if ?b then _ else _] => destruct b end; thread_cbn.
  all: match goal with E : pc _ = _ |- _ => rewrite E end; cbn; auto 8.
Qed.

Ltac none_hyps :=
  repeat match goal with
         | H : is_none ?x = _ |- _ =>
             let E := fresh "En" in destruct x eqn:E; cbn in H; try discriminate H; clear H; cbn in E
         end.

Inductive reachable (s0 : gstate) : gstate -> Prop :=
| reach_refl : reachable s0 s0
| reach_step s c tid s' o : reachable s0 s -> lstepc c s tid = Some (s', o) -> reachable s0 s'.

Definition wf_scripts (scripts : list (list op)) : Prop :=
  Forall (fun l => forallb wf_op l = true) scripts.

Lemma nth_error_map_thread scripts tid th :
  nth_error (map thread_of scripts) tid = Some th ->
  exists l, nth_error scripts tid = Some l /\ th = thread_of l.
Proof.
  rewrite nth_error_map. destruct (nth_error scripts tid) as [l|]; cbn; [|discriminate].
  intros H; inversion H; eauto.
Qed.

Record invA_th (s : gstate) (tid : nat) (th : thread) : Prop := {
  a_cur : cur_ok (pc th) (cur th) = true;
  a_tok : drainMu s = Some tid <-> holder (pc th) = true;
  a_mu : mu s = Some tid <-> pc th = P351;
  a_buf : has_buf (pc th) = false -> dbuf th = [];
  a_wf : forallb wf_op (script th) = true
}.

Definition invA (s : gstate) : Prop :=
  (forall tid th, thr s tid th -> invA_th s tid th)
  /\ (forall t, drainMu s = Some t -> (t < length (threads s))%nat)
  /\ (forall t, mu s = Some t -> (t < length (threads s))%nat).

Lemma invA_init f n B scripts : wf_scripts scripts -> invA (init_scripts f n B scripts).
Proof.
  intros Hwf. split; [|split]; cbn; try discriminate.
  intros tid th H. unfold thr in H; cbn in H. apply nth_error_map_thread in H as (l & Hl & ->).
  constructor; cbn; try reflexivity; try (split; discriminate).
  eapply Forall_forall in Hwf; [exact Hwf|]. eapply nth_error_In; eauto.
Qed.


(* control: the park point stays consistent with the operation, and batch buffers are empty outside
   tryDequeue / applyWriteBatch *)
Lemma step_ctl c s tid th s1 th1 :
  step c s tid th s1 th1 -> cur_ok (pc th) (cur th) = true -> (has_buf (pc th) = false -> dbuf th = []) ->
  forallb wf_op (script th) = true ->
  cur_ok (pc th1) (cur th1) = true /\ (has_buf (pc th1) = false -> dbuf th1 = [])
  /\ forallb wf_op (script th1) = true.
Proof.
  intros H Hok Hbuf Hwf. step_cases H.
  all: try match goal with |- context [if ?b then _ else _] => destruct b end; thread_cbn.
  all: match goal with E : pc _ = _ |- _ => rewrite E in Hok, Hbuf end.
  all: split; [|split].
  all: try reflexivity.
  all: try exact Hwf.
  all: try (intros X; first [discriminate X | exact (Hbuf X) | assumption]).
  all: try (match goal with X : _ = OSync _ \/ _ |- _ => destruct X as [-> | ->]; reflexivity end).
  all: try (match goal with X : barrier_op _ |- _ => destruct X as (? & [X|[X|X]]); rewrite X; reflexivity end).
  all: try (destruct (cur th) as [[]|]; first [discriminate | reflexivity]).
  all: match goal with E : script _ = _ :: _ |- _ => rewrite E in Hwf; apply andb_true_iff in Hwf; tauto end.
Qed.

Lemma thr_upd_cases s s' tid th th1 t th' :
  threads s' = upd (threads s) tid th1 -> thr s tid th -> thr s' t th' ->
  (t = tid /\ th' = th1) \/ (t <> tid /\ thr s t th').
Proof.
  unfold thr. intros -> H H'. destruct (Nat.eq_dec t tid) as [->|N].
  - rewrite nth_error_upd_eq in H' by (eapply nth_error_lt; eauto). left. split; congruence.
  - rewrite nth_error_upd_ne in H' by auto. auto.
Qed.

Lemma invA_step c s tid s' o : invA s -> lstepc c s tid = Some (s', o) -> invA s'.
Proof.
  intros (HT & HD & HM) Hs. apply lstepc_inv in Hs as (th & s1 & th1 & Hth & Hst & ->).
  destruct (HT _ _ Hth) as [Hok Htok Hmu Hbuf Hwf].
  apply tstep_step in Hst; auto.
  destruct (step_frame _ _ _ _ _ _ Hst) as (Hthr & _).
  destruct (step_locks _ _ _ _ _ _ Hst) as [LD LM].
  destruct (step_ctl _ _ _ _ _ _ Hst Hok Hbuf Hwf) as (A1 & A2 & A3).
  rewrite <- reader_iff in Hmu.
  assert (Hlt : (tid < length (threads s))%nat) by (eapply nth_error_lt; eauto).
  split; [|split]; cbn [drainMu mu threads set_threads]; rewrite ?upd_length, Hthr.
  - intros t th' Ht'.
    destruct (thr_upd_cases s (set_threads s1 (upd (threads s) tid th1)) tid th th1 t th' eq_refl Hth Ht') as [[-> ->]|[N Ht0]].
    + constructor; auto; cbn [drainMu mu set_threads].
      * apply (lock_ok_self _ _ _ _ _ LD Htok).
      * rewrite <- reader_iff. apply (lock_ok_self _ _ _ _ _ LM Hmu).
    + destruct (HT _ _ Ht0) as [Hok' Htok' Hmu' Hbuf' Hwf']. constructor; auto; cbn [drainMu mu set_threads].
      * rewrite (lock_ok_other _ _ _ _ _ _ LD Htok N). auto.
      * rewrite (lock_ok_other _ _ _ _ _ _ LM Hmu N). auto.
  - intros t Ht. destruct (Nat.eq_dec t tid) as [->|N]; auto. apply HD. apply (lock_ok_other _ _ _ _ _ _ LD Htok N). auto.
  - intros t Ht. destruct (Nat.eq_dec t tid) as [->|N]; auto. apply HM. apply (lock_ok_other _ _ _ _ _ _ LM Hmu N). auto.
Qed.

Lemma invA_reachable f n B scripts s :
  wf_scripts scripts -> reachable (init_scripts f n B scripts) s -> invA s.
Proof.
  intros Hwf H. induction H as [|s c tid s' o _ IH Hs]; [apply invA_init; auto|].
  eapply invA_step; eauto.
Qed.

Definition ownpc (p : pcT) : bool := match p with P104 | P105 => true | _ => false end.
Definition rcmd (s : gstate) (p : Z) : cmd := nth (Z.to_nat p) (resv s) (Write 0).
Definition published (s : gstate) (p : Z) : Prop :=
  cseq (cell_at s p) = p + 1 /\ ccmd (cell_at s p) = Some (rcmd s p).
Definition owned (s : gstate) (p : Z) : Prop :=
  exists tid th, thr s tid th /\ ownpc (pc th) = true /\ epos th = p.

Record tinvB (s : gstate) (th : thread) : Prop := {
  t_102 : pc th = P102 -> epos th <= head s;
  t_103 : pc th = P103 -> epos th < gtail s + gn s;
  t_own : ownpc (pc th) = true ->
          gtail s <= epos th < head s /\ cseq (cell_at s (epos th)) = epos th
          /\ Some (rcmd s (epos th)) = option_map cmd_of (cur th);
  t_c104 : pc th = P104 -> ccmd (cell_at s (epos th)) = None;
  t_c105 : pc th = P105 -> ccmd (cell_at s (epos th)) = option_map cmd_of (cur th);
  t_106 : pc th = P106 -> 0 <= epos th < head s /\ (gtail s <= epos th -> published s (epos th));
  t_r106 : pc th = P106 -> Some (rcmd s (epos th)) = option_map cmd_of (cur th);
  t_dpos : pc th = P122 \/ pc th = P123 \/ pc th = P124 \/ pc th = P125 -> dpos th = gtail s;
  t_pub : pc th = P123 \/ pc th = P124 -> dpos th < head s /\ published s (dpos th);
  t_tail : holder (pc th) = true -> tail s = gtail s - (match pc th with P125 => 1 | _ => 0 end)
}.

Record invB (s : gstate) : Prop := {
  b_n : 2 <= gn s;
  b_len : Z.of_nat (length (ring s)) = gn s;
  b_lo : 0 <= gtail s;
  b_le : gtail s <= head s;
  b_hi : head s <= gtail s + gn s;
  b_resv : Z.of_nat (length (resv s)) = head s;
  b_cells : forall p, gtail s <= p < gtail s + gn s ->
      (p < head s -> published s p \/ (cseq (cell_at s p) = p /\ owned s p))
      /\ (head s <= p -> cseq (cell_at s p) = p /\ ccmd (cell_at s p) = None);
  b_uniq : forall t1 t2 th1 th2, thr s t1 th1 -> thr s t2 th2 -> t1 <> t2 ->
      ownpc (pc th1) = true -> ownpc (pc th2) = true -> epos th1 <> epos th2;
  b_notok : drainMu s = None -> tail s = gtail s;
  b_ow : overwrote s = false;
  b_accd : forall p, In p (accd s) -> 0 <= p < head s /\ (gtail s <= p -> published s p);
  b_thr : forall tid th, thr s tid th -> tinvB s th
}.

Lemma idx_inj n a p q : 0 < n -> a <= p < a + n -> a <= q < a + n -> p mod n = q mod n -> p = q.
Proof.
  intros Hn Hp Hq H.
  assert (E1 : p = n * (p / n) + p mod n) by (apply Z.div_mod; arith).
  assert (E2 : q = n * (q / n) + q mod n) by (apply Z.div_mod; arith).
  assert ((p / n) = (q / n)); [|nia].
  destruct (Z.lt_trichotomy (p / n) (q / n)) as [L|[L|L]]; auto; nia.
Qed.

Lemma cell_at_same s s' q : gn s' = gn s -> ring s' = ring s -> cell_at s' q = cell_at s q.
Proof. unfold cell_at, idx. intros -> ->. reflexivity. Qed.

Lemma cell_at_upd_eq s s' p c :
  gn s' = gn s -> ring s' = upd (ring s) (idx s p) c -> Z.of_nat (length (ring s)) = gn s -> 0 < gn s ->
  cell_at s' p = c.
Proof.
  unfold cell_at, idx. intros -> -> Hl Hn. apply nth_upd_eq.
  pose proof (Z.mod_pos_bound p (gn s) Hn). arith.
Qed.

Lemma cell_at_upd_ne s s' p q c a :
  gn s' = gn s -> ring s' = upd (ring s) (idx s p) c -> 0 < gn s ->
  a <= p < a + gn s -> a <= q < a + gn s -> p <> q -> cell_at s' q = cell_at s q.
Proof.
  unfold cell_at, idx. intros -> -> Hn Hp Hq Hne. apply nth_upd_ne.
  intros E. apply Hne. apply (idx_inj (gn s) a); auto.
  pose proof (Z.mod_pos_bound p (gn s) Hn). pose proof (Z.mod_pos_bound q (gn s) Hn). arith.
Qed.

(* what a producer / the consumer learn from a sequence number *)
Lemma obs_free s e : invB s -> e <= head s -> cseq (cell_at s e) = e -> e < gtail s + gn s.
Proof.
  intros HB He Hc. destruct HB. destruct (Z.lt_ge_cases e (gtail s + gn s)) as [|Hge]; auto.
  assert (e = gtail s + gn s) by arith. subst e.
  assert (Hw : gtail s <= gtail s < gtail s + gn s) by arith.
  destruct (b_cells0 _ Hw) as [Hc1 _].
  assert (Hcell : cell_at s (gtail s + gn s) = cell_at s (gtail s)).
  { unfold cell_at, idx. replace (gtail s + gn s) with (gtail s + 1 * gn s) by arith.
    rewrite Z.mod_add by arith. reflexivity. }
  rewrite Hcell in Hc. destruct Hc1 as [[Hp _]|[Hr _]]; arith.
Qed.

Lemma obs_pub s : invB s -> cseq (cell_at s (gtail s)) = gtail s + 1 -> gtail s < head s /\ published s (gtail s).
Proof.
  intros HB Hc. destruct HB.
  assert (Hw : gtail s <= gtail s < gtail s + gn s) by arith.
  destruct (b_cells0 _ Hw) as [Hc1 Hc2].
  destruct (Z.lt_ge_cases (gtail s) (head s)) as [Hlt|Hge].
  - split; auto. destruct (Hc1 Hlt) as [|[? _]]; auto. arith.
  - destruct (Hc2 Hge). arith.
Qed.

Definition same_ring (s s' : gstate) : Prop :=
  gn s' = gn s /\ ring s' = ring s /\ head s' = head s /\ gtail s' = gtail s /\ tail s' = tail s
  /\ resv s' = resv s.

Lemma thr_upd_other s s' tid th1 t th :
  threads s' = upd (threads s) tid th1 -> t <> tid -> (thr s' t th <-> thr s t th).
Proof. unfold thr. intros -> Hne. rewrite nth_error_upd_ne by auto. tauto. Qed.

Lemma thr_det s t th th' : thr s t th -> thr s t th' -> th = th'.
Proof. unfold thr; congruence. Qed.

Lemma rcmd_app s s' l p :
  resv s' = resv s ++ l -> 0 <= p < Z.of_nat (length (resv s)) -> rcmd s' p = rcmd s p.
Proof. unfold rcmd. intros -> H. apply app_nth1. arith. Qed.

Lemma holder_pcs p : (p = P122 \/ p = P123 \/ p = P124 \/ p = P125) -> holder p = true.
Proof. intros [ -> | [ -> | [ -> | -> ]]]; reflexivity. Qed.

Lemma tinvB_other s s' th' :
  gn s' = gn s -> head s <= head s' -> gtail s <= gtail s' ->
  (exists l, resv s' = resv s ++ l) -> Z.of_nat (length (resv s)) = head s -> 0 <= gtail s ->
  (ownpc (pc th') = true -> gtail s' <= epos th' /\ cell_at s' (epos th') = cell_at s (epos th')) ->
  (holder (pc th') = true -> gtail s' = gtail s /\ tail s' = tail s) ->
  (pc th' = P123 \/ pc th' = P124 -> cell_at s' (dpos th') = cell_at s (dpos th')) ->
  (pc th' = P106 -> gtail s' <= epos th' -> cell_at s' (epos th') = cell_at s (epos th')) ->
  tinvB s th' -> tinvB s' th'.
Proof.
  intros Hn Hh Hg [l Hl] Hlen H0 Hown Hhold Hcell Hc106 [T102 T103 Town Tc104 Tc105 T106 Tr106 Tdpos Tpub Ttail].
  constructor.
  - intros X. specialize (T102 X). arith.
  - intros X. specialize (T103 X). arith.
  - intros X. destruct (Town X) as (A & B & C). destruct (Hown X) as [D E].
    rewrite E. split; [arith|]. split; auto. rewrite (rcmd_app s s' l); auto. arith.
  - intros X. assert (O : ownpc (pc th') = true) by (rewrite X; reflexivity).
    destruct (Hown O) as [_ E]. rewrite E. auto.
  - intros X. assert (O : ownpc (pc th') = true) by (rewrite X; reflexivity).
    destruct (Hown O) as [_ E]. rewrite E. auto.
  - intros X. destruct (T106 X) as [A B]. split; [arith|]. intros G. unfold published.
    rewrite (Hc106 X G). rewrite (rcmd_app s s' l); auto; [|arith]. apply B. arith.
  - intros X. destruct (T106 X) as [A B]. rewrite (rcmd_app s s' l); auto. arith.
  - intros X. destruct (Hhold (holder_pcs _ X)) as (A & _). rewrite A. auto.
  - intros X. assert (Y : holder (pc th') = true) by (apply holder_pcs; tauto).
    destruct (Hhold Y) as (A & B). pose proof (Hcell X) as C. destruct (Tpub X) as [D [E F]].
    assert (G : dpos th' = gtail s) by (apply Tdpos; tauto).
    split; [arith|]. unfold published. rewrite C. split; auto. rewrite (rcmd_app s s' l); auto. arith.
  - intros X. destruct (Hhold X) as (A & B). rewrite A, B. auto.
Qed.

Lemma holder_unique s t1 t2 th1 th2 :
  invA s -> thr s t1 th1 -> thr s t2 th2 -> holder (pc th1) = true -> holder (pc th2) = true -> t1 = t2.
Proof.
  intros [HT _] H1 H2 O1 O2.
  apply (a_tok _ _ _ (HT _ _ H1)) in O1. apply (a_tok _ _ _ (HT _ _ H2)) in O2. congruence.
Qed.

Lemma cell_at_shift s p : 0 < gn s -> cell_at s (p + gn s) = cell_at s p.
Proof.
  intros H. unfold cell_at, idx. replace (p + gn s) with (p + 1 * gn s) by arith.
  rewrite Z.mod_add by arith. reflexivity.
Qed.

Ltac vac_tinv :=
  constructor; cbn; try discriminate; try (intros [X|[X|[X|X]]]; discriminate); try (intros [X|X]; discriminate).

Definition cell_ok (s : gstate) (p : Z) : Prop :=
  (p < head s -> published s p \/ (cseq (cell_at s p) = p /\ owned s p))
  /\ (head s <= p -> cseq (cell_at s p) = p /\ ccmd (cell_at s p) = None).

Lemma owned_upd s s' tid th th1 p :
  threads s' = upd (threads s) tid th1 -> thr s tid th -> owned s p ->
  (ownpc (pc th) = true -> epos th <> p) -> owned s' p.
Proof.
  intros Hthr Hth (t0 & th0 & H0 & O & E) Hne. exists t0, th0. split; auto.
  apply (thr_upd_other s s' tid th1); auto. intros ->. rewrite (thr_det _ _ _ _ H0 Hth) in *. apply Hne; auto.
Qed.

(* A step of tid rewrites at most the cell of one position e, which is its own reserved cell or a
   published cell it consumes; every other cell of the window is kept.  The step itself accounts for
   the positions it decides (e, a newly reserved one, a freed one beyond the old window) and for its
   own thread; all the rest of the invariant carries over: the cells of the other owners, uniqueness
   of ownership, the accepted positions and the other threads' views. *)
Lemma invB_upd s s' tid th th1 e :
  invB s -> thr s tid th -> threads s' = upd (threads s) tid th1 -> gn s' = gn s ->
  Z.of_nat (length (ring s')) = gn s ->
  gtail s <= gtail s' <= head s -> (forall q, gtail s <= q < gtail s' -> q = e) ->
  head s <= head s' <= gtail s' + gn s ->
  (exists l, resv s' = resv s ++ l) -> Z.of_nat (length (resv s')) = head s' ->
  overwrote s' = false -> (drainMu s' = None -> tail s' = gtail s') ->
  (forall q, gtail s <= q < gtail s + gn s -> q <> e -> cell_at s' q = cell_at s q) ->
  (forall p, gtail s' <= p < gtail s' + gn s ->
     p = e \/ head s <= p < head s' \/ gtail s + gn s <= p -> cell_ok s' p) ->
  (published s e -> e < gtail s') ->
  (ownpc (pc th) = true -> epos th = e) -> (ownpc (pc th1) = true -> epos th1 = e) ->
  (forall t th', t <> tid -> thr s t th' -> ownpc (pc th') = true -> epos th' <> e) ->
  (forall t th', t <> tid -> thr s t th' -> holder (pc th') = true -> gtail s' = gtail s /\ tail s' = tail s) ->
  (forall p, In p (accd s') -> In p (accd s) \/ (0 <= p < head s' /\ (gtail s' <= p -> published s' p))) ->
  tinvB s' th1 -> invB s'.
Proof.
  intros HB Hth Hthr Hn Hlen Hgt Hdrop Hhd [l Hv] Hrl How Hnt Hkeep Hsp Hpe Hown Hown1 Ho Hh Hacc Ht1.
  pose proof (b_n _ HB) as Hn2. destruct HB.
  assert (Hrc : forall q, 0 <= q < head s -> rcmd s' q = rcmd s q) by (intros; apply (rcmd_app s s' l); auto; arith).
  (* a published cell still in the window is not the rewritten one *)
  assert (Hpub : forall q, gtail s' <= q < head s -> published s q -> published s' q).
  { intros q Hq P. assert (q <> e) by (intros ->; specialize (Hpe P); arith).
    destruct P as [P1 P2]. unfold published. rewrite Hkeep, Hrc by arith. auto. }
  constructor.
  - rewrite Hn. auto.
  - rewrite Hn. exact Hlen.
  - arith.
  - arith.
  - rewrite Hn. arith.
  - exact Hrl.
  - rewrite Hn. intros p Hp.
    destruct (Z.eq_dec p e) as [E|Ne]; [apply Hsp; auto|].
    destruct (Z_lt_le_dec p (gtail s + gn s)) as [Lw|Gw]; [|apply Hsp; auto].
    destruct (Z_lt_le_dec p (head s)) as [Lh|Gh].
    + destruct (b_cells0 p) as [C1 _]; [arith|]. split; [|arith]. intros _. destruct (C1 Lh) as [P|[Q O]].
      * left. apply Hpub; auto. arith.
      * right. rewrite Hkeep by (auto; arith). split; auto.
        apply (owned_upd s s' tid th th1); auto. intros X E. apply Ne. rewrite <- E. auto.
    + destruct (Z_lt_le_dec p (head s')) as [L2|G2]; [apply Hsp; auto|].
      destruct (b_cells0 p) as [_ C2]; [arith|]. split; [arith|]. intros _. rewrite Hkeep by (auto; arith). auto.
  - intros t1 t2 a1 a2 H1 H2 Hne O1 O2.
    destruct (thr_upd_cases s s' tid th th1 t1 a1 Hthr Hth H1) as [[-> ->]|[N1 K1]];
      destruct (thr_upd_cases s s' tid th th1 t2 a2 Hthr Hth H2) as [[-> ->]|[N2 K2]].
    + exfalso. apply Hne. reflexivity.
    + rewrite (Hown1 O1). intros E. apply (Ho _ _ N2 K2 O2). auto.
    + rewrite (Hown1 O2). apply (Ho _ _ N1 K1 O1).
    + exact (b_uniq0 _ _ _ _ K1 K2 Hne O1 O2).
  - exact Hnt.
  - exact How.
  - intros p Hp. destruct (Hacc p Hp) as [Hin|New]; [|exact New].
    destruct (b_accd0 p Hin) as [A B]. split; [arith|]. intros G. apply Hpub; [arith|]. apply B. arith.
  - intros t a H.
    destruct (thr_upd_cases s s' tid th th1 t a Hthr Hth H) as [[-> ->]|[N K]]; [exact Ht1|].
    pose proof (b_thr0 _ _ K) as T.
    apply (tinvB_other s s' a Hn); [arith|arith|exists l; exact Hv|exact b_resv0|exact b_lo0| | | | |exact T].
    + intros O. destruct (t_own _ _ T O) as (A & _). pose proof (Ho _ _ N K O) as Ne.
      assert (gtail s' <= epos a).
      { destruct (Z_lt_le_dec (epos a) (gtail s')) as [L|]; auto. exfalso. apply Ne. apply Hdrop. arith. }
      split; auto. apply Hkeep; auto. arith.
    + exact (Hh _ _ N K).
    + intros X. destruct (t_pub _ _ T X) as [L P].
      assert (D : dpos a = gtail s) by (apply (t_dpos _ _ T); tauto).
      assert (Hol : holder (pc a) = true) by (apply holder_pcs; tauto).
      destruct (Hh _ _ N K Hol) as [G _]. apply Hkeep; [arith|]. intros E. rewrite E in P. specialize (Hpe P). arith.
    + intros X G. destruct (t_106 _ _ T X) as [A B]. apply Hkeep; [arith|].
      intros E. assert (P : published s (epos a)) by (apply B; arith). rewrite E in P. specialize (Hpe P). arith.
Qed.

(* steps that leave the ring alone *)
Lemma invB_frame s s' tid th th1 :
  invB s -> thr s tid th -> threads s' = upd (threads s) tid th1 ->
  same_ring s s' -> overwrote s' = overwrote s ->
  ownpc (pc th) = false -> ownpc (pc th1) = false ->
  tinvB s' th1 -> (drainMu s' = None -> tail s' = gtail s') ->
  (forall p, In p (accd s') -> In p (accd s) \/ (pc th = P106 /\ p = epos th)) ->
  invB s'.
Proof.
  intros HB Hth Hthr (Hn & Hr & Hh & Hg & Ht & Hv) How Ho Ho1 Ht1 Hnt Hacc.
  pose proof (b_thr _ HB _ _ Hth) as T0. pose proof (b_le _ HB). pose proof (b_hi _ HB).
  assert (Hc : forall q, cell_at s' q = cell_at s q) by (intros; apply cell_at_same; auto).
  apply (invB_upd s s' tid th th1 (gtail s' - 1) HB Hth Hthr Hn); rewrite ?Hg, ?Hh; try lia.
  - rewrite Hr. apply (b_len _ HB).
  - exists []. rewrite Hv, app_nil_r. auto.
  - rewrite Hv. apply (b_resv _ HB).
  - rewrite How. apply (b_ow _ HB).
  - intros q _ _. apply Hc.
  - intros t a N K O. destruct (t_own _ _ (b_thr _ HB _ _ K) O) as (A & _). arith.
  - intros p Hp. destruct (Hacc p Hp) as [|[X ->]]; auto. right.
    destruct (t_106 _ _ T0 X) as [A B]. split; auto. intros G.
    unfold published, rcmd. rewrite Hc, Hv. apply B. auto.
  - exact Ht1.
Qed.

Lemma invB_103 s s' tid th o :
  invB s -> thr s tid th -> pc th = P103 -> cur th = Some o -> head s = epos th ->
  threads s' = upd (threads s) tid (set_pc th P104) ->
  gn s' = gn s -> ring s' = ring s -> head s' = epos th + 1 -> gtail s' = gtail s -> tail s' = tail s ->
  resv s' = resv s ++ [cmd_of o] -> overwrote s' = overwrote s -> drainMu s' = drainMu s ->
  accd s' = accd s -> invB s'.
Proof.
  intros HB Hth Hpc Hcur Hhe Hthr Hn Hr Hh Hg Ht Hv How Hd Hac.
  pose proof (t_103 _ _ (b_thr _ HB _ _ Hth) Hpc) as H103.
  pose proof (b_resv _ HB) as Hl. pose proof (b_le _ HB). pose proof (b_lo _ HB).
  assert (Hc : forall q, cell_at s' q = cell_at s q) by (intros; apply cell_at_same; auto).
  assert (Hfree : cseq (cell_at s (epos th)) = epos th /\ ccmd (cell_at s (epos th)) = None).
  { destruct (b_cells _ HB (epos th)) as [_ C]; [arith|]. apply C. arith. }
  apply (invB_upd s s' tid th (set_pc th P104) (epos th) HB Hth Hthr Hn); rewrite ?Hg, ?Hh; try lia.
  - rewrite Hr. apply (b_len _ HB).
  - exists [cmd_of o]. exact Hv.
  - rewrite Hv, app_length. cbn. arith.
  - rewrite How. apply (b_ow _ HB).
  - rewrite Hd, Ht. apply (b_notok _ HB).
  - intros q _ _. apply Hc.
  - (* the reserved position: free so far, now owned by tid *)
    intros p Hp Hs. assert (p = epos th) by arith. subst p. split; [|rewrite Hh; arith]. intros _. right.
    rewrite Hc. split; [apply Hfree|]. exists tid, (set_pc th P104). split; [|auto].
    unfold thr. rewrite Hthr. apply nth_error_upd_eq. eapply nth_error_lt; eauto.
  - intros [P _]. destruct Hfree as [F _]. rewrite F in P. arith.
  - intros _. reflexivity.
  - intros t a N K O. destruct (t_own _ _ (b_thr _ HB _ _ K) O) as (A & _). arith.
  - intros p Hp. left. rewrite <- Hac. exact Hp.
  - vac_tinv.
    + intros _. rewrite Hc, Hg, Hh. split; [arith|]. split; [apply Hfree|].
      unfold rcmd. rewrite Hv, Hcur. cbn. f_equal.
      replace (Z.to_nat (epos th)) with (length (resv s)) by arith. apply nth_middle.
    + intros _. rewrite Hc. apply Hfree.
Qed.

Lemma invB_own_upd s s' tid th p1 c :
  invB s -> thr s tid th -> ownpc (pc th) = true ->
  threads s' = upd (threads s) tid (set_pc th p1) ->
  gn s' = gn s -> ring s' = upd (ring s) (idx s (epos th)) c -> head s' = head s -> gtail s' = gtail s ->
  tail s' = tail s -> resv s' = resv s -> overwrote s' = false -> drainMu s' = drainMu s ->
  ((p1 = P105 /\ cseq c = epos th /\ ccmd c = option_map cmd_of (cur th))
   \/ (p1 = P106 /\ cseq c = epos th + 1 /\ ccmd c = Some (rcmd s (epos th)))) ->
  accd s' = accd s -> invB s'.
Proof.
  intros HB Hth Hown Hthr Hn Hr Hh Hg Ht Hv How Hd Hcase Hac.
  destruct (t_own _ _ (b_thr _ HB _ _ Hth) Hown) as (Ein & Eseq & Ercmd).
  pose proof (b_n _ HB). pose proof (b_hi _ HB). pose proof (b_le _ HB). pose proof (b_lo _ HB).
  assert (Hce : cell_at s' (epos th) = c) by (apply (cell_at_upd_eq s s' _ c Hn Hr (b_len _ HB)); arith).
  assert (Hrc : forall q, rcmd s' q = rcmd s q) by (intros; unfold rcmd; rewrite Hv; auto).
  apply (invB_upd s s' tid th (set_pc th p1) (epos th) HB Hth Hthr Hn); rewrite ?Hg, ?Hh; try lia; auto.
  - rewrite Hr, upd_length. apply (b_len _ HB).
  - exists []. rewrite Hv, app_nil_r. auto.
  - rewrite Hv. apply (b_resv _ HB).
  - rewrite Hd, Ht. apply (b_notok _ HB).
  - intros q Hq Hne. apply (cell_at_upd_ne s s' (epos th) q c (gtail s)); auto; arith.
  - (* the owner's cell: still its own after the command is stored, published after the sequence store *)
    intros p Hp Hs. assert (p = epos th) by arith. subst p. unfold cell_ok, published. rewrite Hce, Hrc, Hh.
    split; [|arith]. intros _. destruct Hcase as [(-> & A & B)|(-> & A & B)]; [right|left; auto].
    split; auto. exists tid, (set_pc th P105). split; [|auto].
    unfold thr. rewrite Hthr. apply nth_error_upd_eq. eapply nth_error_lt; eauto.
  - intros [P _]. rewrite Eseq in P. arith.
  - intros t a N K O. apply (b_uniq _ HB t tid a th); auto.
  - intros p Hp. left. rewrite <- Hac. exact Hp.
  - destruct Hcase as [(-> & A & B)|(-> & A & B)]; vac_tinv.
    + intros _. rewrite Hce, Hg, Hh, Hrc. auto.
    + intros _. rewrite Hce. auto.
    + intros _. rewrite Hh. split; [arith|]. intros _. unfold published. rewrite Hce, Hrc. auto.
    + intros _. rewrite Hrc. exact Ercmd.
Qed.

Lemma invB_124 s s' tid th :
  invA s -> invB s -> thr s tid th -> pc th = P124 ->
  threads s' = upd (threads s) tid (set_pc (set_dpos th (dpos th + 1)) P125) ->
  gn s' = gn s -> ring s' = upd (ring s) (idx s (dpos th)) (mkCell (dpos th + gn s) None) ->
  head s' = head s -> gtail s' = dpos th + 1 -> tail s' = tail s -> resv s' = resv s ->
  overwrote s' = overwrote s -> drainMu s' = drainMu s -> accd s' = accd s -> invB s'.
Proof.
  intros HA HB Hth Hpc Hthr Hn Hr Hh Hg Ht Hv How Hd Hac.
  pose proof (b_thr _ HB _ _ Hth) as Tth.
  assert (Edp : dpos th = gtail s) by (apply (t_dpos _ _ Tth); tauto).
  destruct (t_pub _ _ Tth) as (Elt & Eps & Epc); [tauto|].
  assert (Hhold : holder (pc th) = true) by (rewrite Hpc; reflexivity).
  assert (Etl : tail s = gtail s) by (rewrite (t_tail _ _ Tth Hhold), Hpc; arith).
  assert (Hdm : drainMu s = Some tid) by (apply (a_tok _ _ _ (proj1 HA _ _ Hth)); auto).
  pose proof (b_n _ HB). pose proof (b_hi _ HB). pose proof (b_lo _ HB).
  assert (Hce : cell_at s' (dpos th) = mkCell (dpos th + gn s) None)
    by (apply (cell_at_upd_eq s s' _ _ Hn Hr (b_len _ HB)); arith).
  apply (invB_upd s s' tid th _ (dpos th) HB Hth Hthr Hn); rewrite ?Hg, ?Hh; try lia.
  - rewrite Hr, upd_length. apply (b_len _ HB).
  - exists []. rewrite Hv, app_nil_r. auto.
  - rewrite Hv. apply (b_resv _ HB).
  - rewrite How. apply (b_ow _ HB).
  - rewrite Hd, Hdm. discriminate.
  - intros q Hq Hne. apply (cell_at_upd_ne s s' (dpos th) q (mkCell (dpos th + gn s) None) (gtail s)); auto; arith.
  - (* the consumed cell, one lap on: free again *)
    intros p Hp Hs. assert (p = gtail s + gn s) by arith. subst p. unfold cell_ok.
    rewrite <- Hn, cell_at_shift, <- Edp, Hce, Hh by arith. cbn. split; [arith|]. intros _. split; auto. arith.
  - rewrite Hpc. discriminate.
  - cbn. discriminate.
  - intros t a N K O. destruct (t_own _ _ (b_thr _ HB _ _ K) O) as (A & B & _).
    intros E. rewrite E, Eps in B. arith.
  - intros t a N K O. exfalso. apply N. apply (holder_unique s t tid a th HA K Hth O Hhold).
  - intros p Hp. left. rewrite <- Hac. exact Hp.
  - vac_tinv.
    + intros _. auto.
    + intros _. arith.
Qed.

Lemma invB_125 s s' tid th p1 :
  invA s -> invB s -> thr s tid th -> pc th = P125 -> (p1 = P122 \/ p1 = P126) ->
  threads s' = upd (threads s) tid (set_pc th p1) ->
  gn s' = gn s -> ring s' = ring s -> head s' = head s -> gtail s' = gtail s -> tail s' = dpos th ->
  resv s' = resv s -> overwrote s' = overwrote s -> drainMu s' = drainMu s -> accd s' = accd s -> invB s'.
Proof.
  intros HA HB Hth Hpc Hp1 Hthr Hn Hr Hh Hg Ht Hv How Hd Hac.
  pose proof (b_thr _ HB _ _ Hth) as Tth.
  assert (Edp : dpos th = gtail s) by (apply (t_dpos _ _ Tth); tauto).
  assert (Hhold : holder (pc th) = true) by (rewrite Hpc; reflexivity).
  assert (Hdm : drainMu s = Some tid) by (apply (a_tok _ _ _ (proj1 HA _ _ Hth)); auto).
  pose proof (b_le _ HB). pose proof (b_hi _ HB).
  assert (Hc : forall q, cell_at s' q = cell_at s q) by (intros; apply cell_at_same; auto).
  apply (invB_upd s s' tid th (set_pc th p1) (gtail s' - 1) HB Hth Hthr Hn); rewrite ?Hg, ?Hh; try lia.
  - rewrite Hr. apply (b_len _ HB).
  - exists []. rewrite Hv, app_nil_r. auto.
  - rewrite Hv. apply (b_resv _ HB).
  - rewrite How. apply (b_ow _ HB).
  - intros q _ _. apply Hc.
  - rewrite Hpc. discriminate.
  - destruct Hp1 as [-> | ->]; discriminate.
  - intros t a N K O. destruct (t_own _ _ (b_thr _ HB _ _ K) O) as (A & _). arith.
  - intros t a N K O. exfalso. apply N. apply (holder_unique s t tid a th HA K Hth O Hhold).
  - intros p Hp. left. rewrite <- Hac. exact Hp.
  - destruct Hp1 as [-> | ->]; vac_tinv; intros _; arith.
Qed.

Lemma invB_step c s tid s' o : invA s -> invB s -> lstepc c s tid = Some (s', o) -> invB s'.
Proof.
  intros HA HB Hs. apply lstepc_inv in Hs as (th & s1 & th1 & Hth & Hst & ->).
  pose proof (a_cur _ _ _ (proj1 HA _ _ Hth)) as Hok.
  pose proof (b_thr _ HB _ _ Hth) as Tth.
  pose proof (a_wf _ _ _ (proj1 HA _ _ Hth)) as Hwf.
  apply tstep_step in Hst; auto.
  step_pcs Hst Hok.
  all: try (match goal with E : script _ = _ :: _ |- _ => rewrite E in Hwf; cbn in Hwf; try discriminate Hwf end).
  all: bool_hyps; zb.
  all: try (lazymatch goal with Hp : pc _ = P103 |- _ => solve [eapply (invB_103 _ _ tid th); eauto; reflexivity] end).
  all: try (lazymatch goal with Hp : pc _ = P124 |- _ => solve [eapply (invB_124 _ _ tid th); eauto; reflexivity] end).
  all: try (lazymatch goal with Hp : pc _ = P125 |- _ => solve [eapply (invB_125 _ _ tid th _ HA HB Hth Hpc); [ | reflexivity .. ]; auto] end).
  all: try (eapply (invB_frame _ _ tid th);
    [exact HB | exact Hth | reflexivity | repeat split; reflexivity | reflexivity
    | rewrite Hpc; reflexivity | reflexivity | |
    | state_cbn; intros p Hp;
      first [ left; exact Hp
            | apply in_app_or in Hp; destruct Hp as [Hp|[<-|[]]]; [left; exact Hp | right; split; [exact Hpc|reflexivity]] ] ]).
  all: try (destruct Tth as [T102 T103 Town Tc104 Tc105 T106 Tr106 Tdpos Tpub Ttail]; rewrite Hpc in *; cbn [holder ownpc] in * ).
  all: try (constructor; state_cbn; try discriminate; try (intros [X|[X|[X|X]]]; discriminate); try (intros [X|X]; discriminate); fail).
  all: state_cbn; cbn [holder ownpc].
  all: try exact (b_notok _ HB).
  all: try (intros X; discriminate X).
  all: try (intros _; rewrite Ttail by reflexivity; arith).
  (* the owner's two writes *)
  all: try (lazymatch goal with Hp : pc _ = P104 |- _ => rewrite Tc104 in * by reflexivity; discriminate end).
  all: try (lazymatch goal with |- invB _ => idtac end; eapply (invB_own_upd _ _ tid th);
            [exact HB|exact Hth|rewrite Hpc; reflexivity|reflexivity|reflexivity|reflexivity|reflexivity
            |reflexivity|reflexivity|reflexivity|exact (b_ow _ HB)|reflexivity| |reflexivity];
            destruct Town as (Ta & Tb & Tc); [reflexivity|]; try rewrite Hcur in *;
            first [ left; split; [reflexivity|]; split; cbn; [exact Tb|reflexivity]
                  | right; split; [reflexivity|]; split; cbn; [reflexivity|];
                    rewrite Tc105 by reflexivity; symmetry; exact Tc ]).
  all: constructor; state_cbn; try discriminate; try (intros [X|[X|[X|X]]]; discriminate); try (intros [X|X]; discriminate).
  all: none_hyps.
  all: try (intros _; first [ arith | rewrite (b_notok _ HB) by assumption; arith
                            | rewrite Ttail by reflexivity; arith
                            | apply Tdpos; tauto | apply Tpub; tauto ]).
  all: try (intros _; eapply obs_free; eauto; arith).
  all: try (intros _; pose proof (Tdpos ltac:(tauto)) as Ed;
            match goal with E : cseq _ = _ |- _ => rewrite Ed in E |- *; destruct (obs_pub _ HB E) as [A B] end;
            split; [exact A | exact B]).
Qed.

Lemma nth_zseq_map {A} (f : Z -> A) a len i d :
  (i < len)%nat -> nth i (map f (zseq a len)) d = f (a + Z.of_nat i).
Proof.
  revert a i; induction len as [|len IH]; intros a [|i] H; cbn [zseq map nth]; try arith.
  - f_equal. arith.
  - rewrite IH by arith. f_equal. arith.
Qed.

Lemma zseq_length a len : length (zseq a len) = len.
Proof. revert a; induction len as [|len IH]; intros a; cbn; auto. Qed.

Lemma invB_init f n B scripts : 2 <= n -> invB (init_scripts f n B scripts).
Proof.
  intros Hn.
  assert (Hcell : forall p, 0 <= p < n -> cell_at (init_scripts f n B scripts) p = mkCell p None).
  { intros p Hp. unfold cell_at, idx. cbn [gn ring init_scripts init_state]. unfold init_ring.
    rewrite Z.mod_small by arith. rewrite nth_zseq_map by arith. f_equal. arith. }
  constructor; cbn [gn ring head tail gtail resv drainMu overwrote threads init_scripts init_state length]; try arith; auto.
  - unfold init_ring. rewrite map_length, zseq_length. arith.
  - intros p Hp. split; [arith|]. intros _. rewrite Hcell by arith. auto.
  - intros t1 t2 th1 th2 H1 _ _ O1. unfold thr in H1; cbn in H1.
    apply nth_error_map_thread in H1 as (l & _ & ->). discriminate.
  - cbn. intros p [].
  - intros tid th H. unfold thr in H; cbn in H. apply nth_error_map_thread in H as (l & _ & ->).
    vac_tinv.
Qed.

Record inv1 (s : gstate) : Prop := { i_A : invA s; i_B : invB s }.

Lemma inv1_reachable f n B scripts s :
  2 <= n -> wf_scripts scripts -> reachable (init_scripts f n B scripts) s -> inv1 s.
Proof.
  intros Hn Hwf H. induction H as [|s c tid s' o _ IH Hs].
  - split; [apply invA_init; auto | apply invB_init; auto].
  - destruct IH as [HA HB]. split; [eapply invA_step; eauto | eapply invB_step; eauto].
Qed.

Theorem ring_shape f n B scripts s :
  2 <= n -> wf_scripts scripts -> reachable (init_scripts f n B scripts) s -> invB s.
Proof. intros. eapply inv1_reachable; eauto. Qed.

Theorem no_overwrite f n B scripts s :
  2 <= n -> wf_scripts scripts -> reachable (init_scripts f n B scripts) s ->
  overwrote s = false
  /\ forall tid th, thr s tid th -> pc th = P104 -> ccmd (cell_at s (epos th)) = None.
Proof.
  intros Hn Hwf H. pose proof (ring_shape _ _ _ _ _ Hn Hwf H) as HB. split; [apply (b_ow _ HB)|].
  intros tid th Hth Hpc. apply (t_c104 _ _ (b_thr _ HB _ _ Hth) Hpc).
Qed.

(* with a single cell the published and freed sequence numbers coincide: the second producer
   overwrites the first command before it is consumed (newMPSCQueue enforces max(.., 2)) *)
Example no_overwrite_needs_two_cells :
  overwrote (run_sched (init_scripts true 1 1 [[OEnqueue 1]; [OEnqueue 2]])
                       [0;0;0;0;0;0;0; 1;1;1;1;1]%nat) = true.
Proof. vm_compute. reflexivity. Qed.

(* c is an interleaving of a and b (built from the right, matching how the logs grow) *)
Inductive Merge : list Z -> list Z -> list Z -> Prop :=
| M_nil : Merge [] [] []
| M_l x a b c : Merge a b c -> Merge (a ++ [x]) b (c ++ [x])
| M_r x a b c : Merge a b c -> Merge a (b ++ [x]) (c ++ [x]).

Lemma Merge_app_l l a b c : Merge a b c -> Merge (a ++ l) b (c ++ l).
Proof.
  revert a c; induction l as [|x l IH]; intros a c H; [rewrite !app_nil_r; auto|].
  replace (a ++ x :: l) with ((a ++ [x]) ++ l) by (rewrite <- app_assoc; auto).
  replace (c ++ x :: l) with ((c ++ [x]) ++ l) by (rewrite <- app_assoc; auto).
  apply IH. constructor; auto.
Qed.

Definition k124 (p : pcT) : Z := match p with P124 => 1 | _ => 0 end.

Record invC (s : gstate) : Prop := {
  c_idle : drainMu s = None -> qlog s = firstn (Z.to_nat (gtail s)) (resv s);
  c_hold : forall tid th, thr s tid th -> holder (pc th) = true ->
           qlog s ++ dbuf th = firstn (Z.to_nat (gtail s + k124 (pc th))) (resv s);
  c_merge : Merge (wids (qlog s)) (dlog s) (applied s);
  c_ack : forall a, In a (ackTok s) -> In a (cacks (qlog s));
  c_dack : forall tid th a, thr s tid th -> In a (dacks th) -> In a (cacks (qlog s))
}.

Lemma wids_app a b : wids (a ++ b) = wids a ++ wids b.
Proof. unfold wids. apply flat_map_app. Qed.
Lemma cacks_app a b : cacks (a ++ b) = cacks a ++ cacks b.
Proof. unfold cacks. apply flat_map_app. Qed.

Lemma firstn_snoc {A} (l : list A) k d :
  (k < length l)%nat -> firstn (S k) l = firstn k l ++ [nth k l d].
Proof.
  revert k; induction l as [|x l IH]; intros [|k] H; cbn in *; try arith; auto.
  f_equal. apply IH. arith.
Qed.

Lemma In_removeZ x a l : In x (removeZ a l) -> In x l.
Proof.
  induction l as [|y l IH]; cbn; auto. destruct (a =? y); cbn; intuition.
Qed.

(* steps that leave qlog, gtail and resv alone *)
Lemma invC_frame s s' tid th th1 :
  invC s -> thr s tid th -> threads s' = upd (threads s) tid th1 ->
  qlog s' = qlog s -> gtail s' = gtail s -> resv s' = resv s ->
  (drainMu s' = None -> qlog s = firstn (Z.to_nat (gtail s)) (resv s)) ->
  (holder (pc th1) = true -> qlog s ++ dbuf th1 = firstn (Z.to_nat (gtail s + k124 (pc th1))) (resv s)) ->
  Merge (wids (qlog s)) (dlog s') (applied s') ->
  (forall a, In a (ackTok s') -> In a (cacks (qlog s))) ->
  (forall a, In a (dacks th1) -> In a (cacks (qlog s))) ->
  invC s'.
Proof.
  intros HC Hth Hthr Hq Hg Hv Hidle Hhold Hm Hack Hdack. destruct HC.
  constructor; rewrite ?Hq, ?Hg, ?Hv; auto.
  - intros t th' H Hh. apply (thr_upd_cases _ _ _ _ _ _ _ Hthr Hth) in H as [[-> ->]|[N H]].
    + apply Hhold; auto.
    + apply (c_hold0 t); auto.
  - intros t th' a H Hin. apply (thr_upd_cases _ _ _ _ _ _ _ Hthr Hth) in H as [[-> ->]|[N H]].
    + auto.
    + eauto.
Qed.

Lemma firstn_app_le {A} (l l' : list A) k : (k <= length l)%nat -> firstn k (l ++ l') = firstn k l.
Proof.
  intros H. rewrite firstn_app. replace (k - length l)%nat with O by arith. cbn. apply app_nil_r.
Qed.

Lemma invC_103 s s' tid th o :
  invB s -> invC s -> thr s tid th -> pc th = P103 -> cur th = Some o ->
  threads s' = upd (threads s) tid (set_pc th P104) ->
  qlog s' = qlog s -> gtail s' = gtail s -> resv s' = resv s ++ [cmd_of o] ->
  drainMu s' = drainMu s -> dlog s' = dlog s -> applied s' = applied s -> ackTok s' = ackTok s ->
  invC s'.
Proof.
  intros HB HC Hth Hpc _ Hthr Hq Hg Hv Hd Hdl Hap Hak. destruct HC.
  assert (Hlen : Z.of_nat (length (resv s)) = head s) by apply (b_resv _ HB).
  pose proof (b_le _ HB) as Hle. pose proof (b_lo _ HB) as Hlo.
  constructor; rewrite ?Hq, ?Hg, ?Hv, ?Hd, ?Hdl, ?Hap, ?Hak; auto.
  - intros X. rewrite firstn_app_le by arith. auto.
  - intros t th' H Hh. apply (thr_upd_cases _ _ _ _ _ _ _ Hthr Hth) in H as [[-> ->]|[N H]].
    + discriminate.
    + rewrite firstn_app_le; [eauto|].
      pose proof (b_thr _ HB _ _ H) as T.
      destruct (pc th') eqn:E; cbn [k124]; try arith.
      destruct (t_pub _ _ T) as [A _]; [tauto|]. rewrite (t_dpos _ _ T) in A by tauto. arith.
  - intros t th' a H Hin. apply (thr_upd_cases _ _ _ _ _ _ _ Hthr Hth) in H as [[-> ->]|[N H]].
    + cbn in Hin. eauto.
    + eauto.
Qed.

Lemma invC_124 s s' tid th :
  invA s -> invB s -> invC s -> thr s tid th -> pc th = P124 ->
  threads s' = upd (threads s) tid (set_pc (set_dpos th (dpos th + 1)) P125) ->
  qlog s' = qlog s -> gtail s' = dpos th + 1 -> resv s' = resv s ->
  drainMu s' = drainMu s -> dlog s' = dlog s -> applied s' = applied s -> ackTok s' = ackTok s ->
  invC s'.
Proof.
  intros HA HB HC Hth Hpc Hthr Hq Hg Hv Hd Hdl Hap Hak. destruct HC.
  assert (Edp : dpos th = gtail s) by (apply (t_dpos _ _ (b_thr _ HB _ _ Hth)); tauto).
  rewrite Edp in Hg.
  set (th1 := set_pc (set_dpos th (dpos th + 1)) P125) in *.
  assert (Hhold : holder (pc th) = true) by (rewrite Hpc; reflexivity).
  assert (Hdm : drainMu s = Some tid) by (destruct HA as [HT _]; apply (a_tok _ _ _ (HT _ _ Hth)); auto).
  constructor; rewrite ?Hq, ?Hg, ?Hv, ?Hd, ?Hdl, ?Hap, ?Hak; auto.
  - rewrite Hdm. discriminate.
  - intros t th' H Hh. apply (thr_upd_cases _ _ _ _ _ _ _ Hthr Hth) in H as [[-> ->]|[N H]].
    + unfold th1. cbn.
      specialize (c_hold0 _ _ Hth Hhold). rewrite Hpc in c_hold0. cbn in c_hold0.
      rewrite Z.add_0_r. auto.
    + exfalso. apply N.
      eapply holder_unique; eauto.
  - intros t th' a H Hin. apply (thr_upd_cases _ _ _ _ _ _ _ Hthr Hth) in H as [[-> ->]|[N H]].
    + unfold th1 in Hin. cbn in Hin. eauto.
    + eauto.
Qed.

Lemma invC_312 s s' tid th :
  invA s -> invC s -> thr s tid th -> pc th = P312 ->
  threads s' = upd (threads s) tid (set_pc (set_dbuf (set_dacks th (cacks (dbuf th))) []) P313) ->
  qlog s' = qlog s ++ dbuf th -> gtail s' = gtail s -> resv s' = resv s ->
  drainMu s' = drainMu s -> dlog s' = dlog s -> applied s' = applied s ++ wids (dbuf th) ->
  ackTok s' = ackTok s ->
  invC s'.
Proof.
  intros HA HC Hth Hpc Hthr Hq Hg Hv Hd Hdl Hap Hak. destruct HC.
  set (th1 := set_pc (set_dbuf (set_dacks th (cacks (dbuf th))) []) P313) in *.
  assert (Hhold : holder (pc th) = true) by (rewrite Hpc; reflexivity).
  assert (Hdm : drainMu s = Some tid) by (destruct HA as [HT _]; apply (a_tok _ _ _ (HT _ _ Hth)); auto).
  constructor; rewrite ?Hq, ?Hg, ?Hv, ?Hd, ?Hdl, ?Hap, ?Hak; auto.
  - rewrite Hdm. discriminate.
  - intros t th' H Hh. apply (thr_upd_cases _ _ _ _ _ _ _ Hthr Hth) in H as [[-> ->]|[N H]].
    + unfold th1. cbn.
      specialize (c_hold0 _ _ Hth Hhold). rewrite Hpc in c_hold0. cbn in c_hold0.
      rewrite app_nil_r. auto.
    + exfalso. apply N.
      eapply holder_unique; eauto.
  - rewrite wids_app. apply Merge_app_l. auto.
  - intros a Ha. rewrite cacks_app. apply in_or_app. auto.
  - intros t th' a H Hin. rewrite cacks_app. apply in_or_app.
    apply (thr_upd_cases _ _ _ _ _ _ _ Hthr Hth) in H as [[-> ->]|[N H]].
    + unfold th1 in Hin. cbn in Hin. auto.
    + eauto.
Qed.

Lemma invC_init f n B scripts : invC (init_scripts f n B scripts).
Proof.
  constructor; cbn; auto; try (intros; contradiction).
  - intros tid th H. unfold thr in H; cbn in H. apply nth_error_map_thread in H as (l & _ & ->). discriminate.
  - constructor.
  - intros tid th a H. unfold thr in H; cbn in H. apply nth_error_map_thread in H as (l & _ & ->). cbn. auto.
Qed.

Lemma invC_step c s tid s' o : invA s -> invB s -> invC s -> lstepc c s tid = Some (s', o) -> invC s'.
Proof.
  intros HA HB HC Hs. apply lstepc_inv in Hs as (th & s1 & th1 & Hth & Hst & ->).
  pose proof (proj1 HA _ _ Hth) as [Hok Htok _ Hbuf Hwf].
  pose proof (b_thr _ HB _ _ Hth) as Tth.
  apply tstep_step in Hst; auto.
  step_pcs Hst Hok.
  all: try (match goal with E : script _ = _ :: _ |- _ => rewrite E in Hwf; cbn in Hwf; try discriminate Hwf end).
  all: bool_hyps; zb.
  all: try (lazymatch goal with Hp : pc _ = P103 |- _ => solve [eapply (invC_103 _ _ tid th); eauto; reflexivity] end).
  all: try (lazymatch goal with Hp : pc _ = P124 |- _ => solve [eapply (invC_124 _ _ tid th); eauto; reflexivity] end).
  all: try (lazymatch goal with Hp : pc _ = P312 |- _ => solve [eapply (invC_312 _ _ tid th); eauto; reflexivity] end).
  all: eapply (invC_frame _ _ tid th); [exact HC | exact Hth | reflexivity | reflexivity | reflexivity | reflexivity | | | | | ].
  all: rewrite ?Hpc in *; state_cbn; cbn [holder has_buf k124] in *.
  all: try exact (c_idle _ HC).
  all: try exact (c_merge _ HC).
  all: try exact (c_ack _ HC).
  all: try exact (fun a => c_dack _ HC _ _ a Hth).
  all: try (intros X; discriminate X).
  all: try (intros a []).
  all: try (constructor; exact (c_merge _ HC)).
  all: try (intros a Ha; first [apply In_removeZ in Ha; exact (c_ack _ HC _ Ha)
                               | apply in_app_or in Ha; destruct Ha as [Ha|Ha];
                                 [exact (c_ack _ HC _ Ha) | exact (c_dack _ HC _ _ _ Hth Ha)]]).
  all: try (cbn in Hwf; discriminate Hwf).
  all: none_hyps.
  all: try (intros _; rewrite app_nil_r, Z.add_0_r; apply (c_idle _ HC); assumption).
  all: try (intros _; rewrite Hbuf by reflexivity; rewrite app_nil_r, Z.add_0_r; apply (c_idle _ HC); assumption).
  all: pose proof (c_hold _ HC _ _ Hth) as X; rewrite Hpc in X; cbn [holder k124] in X; try specialize (X eq_refl).
  all: try (intros _; exact X).
  all: try (intros _; first [rewrite Hbuf in X by reflexivity | match goal with E : dbuf _ = [] |- _ => rewrite E in X end];
            rewrite ?app_nil_r, ?Z.add_0_r in *; exact X).
  all: intros _; destruct (t_pub _ _ Tth) as [A [B C]]; [left; exact Hpc|];
       pose proof (t_dpos _ _ Tth (or_intror (or_introl Hpc))) as Ed;
       rewrite E in C; try discriminate C; inversion C; subst;
       rewrite app_assoc, X, Z.add_0_r;
       pose proof (b_lo _ HB); pose proof (b_resv _ HB);
       match goal with |- context [Z.to_nat (gtail ?ss + 1)] => replace (Z.to_nat (gtail ss + 1)) with (S (Z.to_nat (gtail ss))) by arith end;
       rewrite (firstn_snoc _ _ (Write 0)) by arith;
       unfold rcmd; rewrite Ed; reflexivity.
Qed.

Record inv2 (s : gstate) : Prop := { i_1 : inv1 s; i_C : invC s }.

Lemma inv2_reachable f n B scripts s :
  2 <= n -> wf_scripts scripts -> reachable (init_scripts f n B scripts) s -> inv2 s.
Proof.
  intros Hn Hwf H. induction H as [|s c tid s' o H IH Hs].
  - split; [eapply inv1_reachable; eauto; constructor | apply invC_init].
  - destruct IH as [[HA HB] HC]. split.
    + eapply inv1_reachable; eauto. econstructor; eauto.
    + eapply invC_step; eauto.
Qed.

Lemma prefix_firstn {A} (a b l : list A) K : a ++ b = firstn K l -> a = firstn (length a) l.
Proof.
  revert K l; induction a as [|x a IH]; intros K l H; cbn; auto.
  destruct K as [|K]; destruct l as [|y l]; cbn in *; try discriminate.
  inversion H; subst. f_equal. eapply IH; eauto.
Qed.

Lemma NoDup_app_mid {A} (a m d : list A) : NoDup (a ++ m ++ d) -> NoDup (a ++ d).
Proof.
  induction a as [|x a IH]; cbn; intros H.
  - induction m as [|y m IHm]; cbn in *; auto. inversion H; auto.
  - inversion H; subst. constructor; auto.
    intros Hin. apply H2. apply in_app_or in Hin. apply in_or_app. destruct Hin; auto.
    right. apply in_or_app. auto.
Qed.

Lemma Merge_In a b c x : Merge a b c -> In x c -> In x a \/ In x b.
Proof.
  induction 1; intros Hin.
  - destruct Hin.
  - apply in_app_or in Hin. destruct Hin as [Hin|[<-|[]]].
    + destruct (IHMerge Hin) as [|]; [left; apply in_or_app; auto | right; auto].
    + left. apply in_or_app. cbn. auto.
  - apply in_app_or in Hin. destruct Hin as [Hin|[<-|[]]].
    + destruct (IHMerge Hin) as [|]; [left; auto | right; apply in_or_app; auto].
    + right. apply in_or_app. cbn. auto.
Qed.

Lemma NoDup_snoc {A} (l : list A) x : NoDup l -> ~ In x l -> NoDup (l ++ [x]).
Proof.
  induction l as [|y l IH]; cbn; intros H Hn.
  - constructor; auto.
  - inversion H; subst. constructor.
    + intros Hin. apply in_app_or in Hin. destruct Hin as [|[->|[]]]; auto.
    + apply IH; auto.
Qed.

Lemma NoDup_app_snoc_l {A} (a b : list A) x : NoDup ((a ++ [x]) ++ b) -> NoDup (a ++ b) /\ ~ In x a /\ ~ In x b.
Proof.
  rewrite <- app_assoc. cbn. intros H. split; [|split].
  - apply NoDup_remove_1 in H. auto.
  - apply NoDup_remove_2 in H. intros Hin. apply H. apply in_or_app. auto.
  - apply NoDup_remove_2 in H. intros Hin. apply H. apply in_or_app. auto.
Qed.

Lemma Merge_NoDup a b c : Merge a b c -> NoDup (a ++ b) -> NoDup c.
Proof.
  induction 1; intros Hnd.
  - constructor.
  - apply NoDup_app_snoc_l in Hnd as (H1 & H2 & H3). apply NoDup_snoc; auto.
    intros Hin. destruct (Merge_In _ _ _ _ H Hin); auto.
  - rewrite app_assoc in Hnd.
    assert (Hnd' : NoDup (a ++ b) /\ ~ In x (a ++ b)).
    { clear - Hnd. induction (a ++ b) as [|y l IH]; cbn in *; [split; auto; constructor|].
      inversion Hnd; subst. destruct (IH H2) as [A B]. split.
      - constructor; auto. intros Hin. apply H1. apply in_or_app. auto.
      - intros [->|Hin]; auto. apply H1. apply in_or_app. cbn. auto. }
    destruct Hnd' as [H1 H2]. apply NoDup_snoc; auto.
    intros Hin. destruct (Merge_In _ _ _ _ H Hin); apply H2; apply in_or_app; auto.
Qed.

Theorem exactly_once_fifo f n B scripts s :
  2 <= n -> wf_scripts scripts -> reachable (init_scripts f n B scripts) s ->
  (* the commands applied from the ring are exactly a prefix of the reservation order
     (order of the successful head CASes), each applied once *)
  qlog s = firstn (length (qlog s)) (resv s)
  (* applied = that prefix's writes interleaved with the inline / synchronous applies *)
  /\ Merge (wids (qlog s)) (dlog s) (applied s)
  (* hence duplicate-free whenever the ids handed to the shard are distinct *)
  /\ (NoDup (wids (resv s) ++ dlog s) -> NoDup (applied s))
  (* every enqueue that returned nil (at position p) is still published in the ring, or has been
     consumed: applied already or sitting in the token holder's batch buffer *)
  /\ (forall p, In p (accd s) ->
        0 <= p < head s
        /\ (gtail s <= p -> published s p)
        /\ (p < gtail s ->
             (drainMu s = None -> (Z.to_nat p < length (qlog s))%nat)
             /\ (forall tid th, thr s tid th -> holder (pc th) = true ->
                   (Z.to_nat p < length (qlog s ++ dbuf th))%nat))).
Proof.
  intros Hn Hwf H. destruct (inv2_reachable _ _ _ _ _ Hn Hwf H) as [[HA HB] HC].
  assert (Hpre : qlog s = firstn (length (qlog s)) (resv s)).
  { destruct (drainMu s) as [t|] eqn:E.
    - destruct HA as (HT & HD & _). pose proof (HD _ E) as Hlt.
      destruct (nth_error (threads s) t) as [th|] eqn:Et; [|apply nth_error_None in Et; arith].
      pose proof (proj1 (a_tok _ _ _ (HT _ _ Et)) E) as Hh.
      eapply prefix_firstn. apply (c_hold _ HC _ _ Et Hh).
    - pose proof (c_idle _ HC E) as X. rewrite X at 1. rewrite <- X. eapply (prefix_firstn _ []).
      rewrite app_nil_r. exact X. }
  split; [exact Hpre|]. split; [apply (c_merge _ HC)|]. split.
  - intros Hnd. apply (Merge_NoDup _ _ _ (c_merge _ HC)).
    rewrite Hpre. rewrite <- (firstn_skipn (length (qlog s)) (resv s)) in Hnd.
    rewrite wids_app, <- app_assoc in Hnd. apply NoDup_app_mid in Hnd. exact Hnd.
  - intros p Hp. destruct (b_accd _ HB p Hp) as [A Bp]. split; auto. split; auto.
    intros Hlt. pose proof (b_resv _ HB) as Hr. pose proof (b_le _ HB) as Hle. split.
    + intros E. rewrite (c_idle _ HC E), firstn_length. arith.
    + intros tid th Hth Hh. rewrite (c_hold _ HC _ _ Hth Hh), firstn_length.
      destruct (pc th); cbn [k124]; arith.
Qed.

(* ids of the writes that returned nil before write b was (first) invoked *)
Fixpoint rets_before (b : Z) (tr : list event) : list Z :=
  match tr with
  | [] => []
  | EInv b' :: r => if b' =? b then [] else rets_before b r
  | ERet a :: r => a :: rets_before b r
  | EApp _ :: r => rets_before b r
  end.

Lemma rb_frozen b tr l : In (EInv b) tr -> rets_before b (tr ++ l) = rets_before b tr.
Proof.
  induction tr as [|e tr IH]; cbn; [tauto|]. intros [->|H].
  - rewrite Z.eqb_refl. auto.
  - destruct e; rewrite ?IH by auto; auto.
Qed.

Lemma rb_ret a b tr : In a (rets_before b tr) -> In (ERet a) tr.
Proof.
  induction tr as [|e tr IH]; cbn; auto. destruct e; cbn.
  - destruct (id =? b); cbn; [tauto|]. auto.
  - intros [->|H]; auto.
  - auto.
Qed.

(* every occurrence of b in l is preceded by an a *)
Definition before (a b : Z) (l : list Z) : Prop := forall l1 l2, l = l1 ++ b :: l2 -> In a l1.

Lemma before_notin a b l : ~ In b l -> before a b l.
Proof. intros H l1 l2 ->. exfalso. apply H. apply in_or_app. cbn. auto. Qed.

Lemma app_eq_split {A} (l ws m1 : list A) x m2 :
  l ++ ws = m1 ++ x :: m2 ->
  (exists r, l = m1 ++ x :: r /\ m2 = r ++ ws) \/ (exists w1, m1 = l ++ w1 /\ ws = w1 ++ x :: m2).
Proof.
  revert m1; induction l as [|y l IH]; intros m1 H; cbn in *.
  - right. exists m1. auto.
  - destruct m1 as [|z m1]; cbn in *; inversion H; subst.
    + left. exists l. auto.
    + destruct (IH _ H2) as [(r & -> & ->)|(w1 & -> & ->)].
      * left. exists r. auto.
      * right. exists w1. auto.
Qed.

Lemma before_app a b l ws :
  before a b l -> (forall w1 w2, ws = w1 ++ b :: w2 -> In a (l ++ w1)) -> before a b (l ++ ws).
Proof.
  intros Hb Hw m1 m2 E. apply app_eq_split in E as [(r & -> & ->)|(w1 & -> & ->)].
  - eapply Hb; eauto.
  - eapply Hw; eauto.
Qed.

Definition wop_id (o : op) : option Z :=
  match o with OSetAsync id | OEnqueue id | OSet id => Some id | _ => None end.

Definition pos_lt (s : gstate) (a q : Z) : Prop := exists p, 0 <= p < q /\ rcmd s p = Write a.
Definition settled_below (s : gstate) (a q : Z) : Prop := In a (dlog s) \/ pos_lt s a q.

(* park points of syncMutate after the target was read *)
Definition tpc (p : pcT) : bool :=
  match p with P121 | P122 | P123 | P124 | P125 | P126 | P312 | P313 | P332 | P333 => true | _ => false end.

Record invR (s : gstate) : Prop := {
  r_fixed : gfixed s = true;
  r_ret : forall a, In (ERet a) (trace s) -> settled_below s a (head s);
  r_pos : forall q b, 0 <= q < head s -> rcmd s q = Write b ->
          In (EInv b) (trace s) /\ forall a, In a (rets_before b (trace s)) -> settled_below s a q;
  r_inv : forall tid th o b, thr s tid th -> cur th = Some o -> wop_id o = Some b -> In (EInv b) (trace s);
  r_tgt : forall tid th b, thr s tid th -> cur th = Some (OSet b) -> tpc (pc th) = true ->
          starget th <= head s
          /\ (forall a, In a (rets_before b (trace s)) -> settled_below s a (starget th))
          /\ (pc th = P332 -> starget th <= tail s);
  r_app : forall b, In b (applied s) -> In (EInv b) (trace s);
  r_rt : forall a b, In (EInv b) (trace s) -> In a (rets_before b (trace s)) -> before a b (applied s)
}.

Lemma settled_mono s s' a q q' :
  q <= q' -> q <= Z.of_nat (length (resv s)) ->
  (exists l, resv s' = resv s ++ l) -> (forall x, In x (dlog s) -> In x (dlog s')) ->
  settled_below s a q -> settled_below s' a q'.
Proof.
  intros Hq Hl [l Hv] Hd [H|(p & Hp & Hr)]; [left; auto|].
  right. exists p. split; [arith|]. rewrite (rcmd_app s s' l); auto. arith.
Qed.

Lemma in_inv_app b tr l : In (EInv b) (tr ++ l) -> ~ In (EInv b) l -> In (EInv b) tr.
Proof. intros H N. apply in_app_or in H. tauto. Qed.

Definition tgt_ok (s : gstate) (th : thread) (b : Z) : Prop :=
  starget th <= head s
  /\ (forall a, In a (rets_before b (trace s)) -> settled_below s a (starget th))
  /\ (pc th = P332 -> starget th <= tail s).

Lemma tgt_ok_mono s s' th b evs :
  In (EInv b) (trace s) -> trace s' = trace s ++ evs ->
  (exists l, resv s' = resv s ++ l) -> head s <= head s' -> Z.of_nat (length (resv s)) = head s ->
  (forall x, In x (dlog s) -> In x (dlog s')) -> tail s <= tail s' ->
  tgt_ok s th b -> tgt_ok s' th b.
Proof.
  intros Hi Ht Hv Hh Hl Hd Htl (A & B & C). split; [arith|]. split.
  - intros a Ha. rewrite Ht, rb_frozen in Ha by auto. eapply settled_mono; eauto; arith.
  - intros X. specialize (C X). arith.
Qed.

Lemma invR_ext s s' tid th th1 evs :
  invR s -> thr s tid th -> threads s' = upd (threads s) tid th1 ->
  gfixed s' = gfixed s -> trace s' = trace s ++ evs ->
  (exists l, resv s' = resv s ++ l) -> head s <= head s' -> Z.of_nat (length (resv s)) = head s ->
  (forall x, In x (dlog s) -> In x (dlog s')) -> tail s <= tail s' ->
  (forall a, In (ERet a) evs -> settled_below s' a (head s')) ->
  (forall q b, head s <= q < head s' -> rcmd s' q = Write b ->
     In (EInv b) (trace s') /\ forall a, In a (rets_before b (trace s')) -> settled_below s' a q) ->
  (forall o b, cur th1 = Some o -> wop_id o = Some b -> In (EInv b) (trace s')) ->
  (forall b, cur th1 = Some (OSet b) -> tpc (pc th1) = true -> tgt_ok s' th1 b) ->
  (forall b, In b (applied s') -> In (EInv b) (trace s')) ->
  (forall a b, In (EInv b) (trace s') -> In a (rets_before b (trace s')) -> before a b (applied s')) ->
  invR s'.
Proof.
  intros HR Hth Hthr Hf Ht Hv Hh Hl Hd Htl O1 O2 O3 O4 O5 O6. destruct HR.
  constructor; auto; try congruence.
  - intros a Ha. rewrite Ht in Ha. apply in_app_or in Ha. destruct Ha as [Ha|Ha]; auto.
    eapply settled_mono; eauto; arith.
  - intros q b Hq Hr. destruct (Z.lt_ge_cases q (head s)) as [Hlt|Hge]; [|apply O2; auto; arith].
    destruct Hv as [l Hv]. rewrite (rcmd_app s s' l) in Hr by (auto; arith).
    destruct (r_pos0 q b) as [A B]; [arith|auto|]. split.
    + rewrite Ht. apply in_or_app. auto.
    + intros a Ha. rewrite Ht, rb_frozen in Ha by auto. eapply settled_mono; eauto; try arith.
  - intros t th' o b H Hc Hw. apply (thr_upd_cases _ _ _ _ _ _ _ Hthr Hth) in H as [[-> ->]|[N H]].
    + eauto.
    + rewrite Ht. apply in_or_app. left. eauto.
  - intros t th' b H Hc Hp. apply (thr_upd_cases _ _ _ _ _ _ _ Hthr Hth) in H as [[-> ->]|[N H]].
    + apply O4; auto.
    + apply (tgt_ok_mono s s' th' b evs); auto.
      all: first [ apply (r_tgt0 t); auto; fail | eapply r_inv0; eauto; reflexivity ].
Qed.

(* steps that apply nothing *)
Lemma invR_ext_noapp s s' tid th th1 evs :
  invR s -> thr s tid th -> threads s' = upd (threads s) tid th1 ->
  gfixed s' = gfixed s -> trace s' = trace s ++ evs ->
  (exists l, resv s' = resv s ++ l) -> head s <= head s' -> Z.of_nat (length (resv s)) = head s ->
  (forall x, In x (dlog s) -> In x (dlog s')) -> tail s <= tail s' ->
  applied s' = applied s ->
  (forall a, In (ERet a) evs -> settled_below s' a (head s')) ->
  (forall q b, head s <= q < head s' -> rcmd s' q = Write b ->
     In (EInv b) (trace s') /\ forall a, In a (rets_before b (trace s')) -> settled_below s' a q) ->
  (forall o b, cur th1 = Some o -> wop_id o = Some b -> In (EInv b) (trace s')) ->
  (forall b, cur th1 = Some (OSet b) -> tpc (pc th1) = true -> tgt_ok s' th1 b) ->
  invR s'.
Proof.
  intros HR Hth Hthr Hf Ht Hv Hh Hl Hd Htl Ha O1 O2 O3 O4.
  eapply invR_ext; eauto.
  - intros b Hb. rewrite Ha in Hb. rewrite Ht. apply in_or_app. left. apply (r_app _ HR); auto.
  - intros a b Hi Hr. rewrite Ha.
    destruct (in_dec (fun x y : event => ltac:(decide equality; apply Z.eq_dec)) (EInv b) (trace s)) as [Hin|Hnin].
    + rewrite Ht, rb_frozen in Hr by auto. apply (r_rt _ HR); auto.
    + apply before_notin. intros Hb. apply Hnin. apply (r_app _ HR); auto.
Qed.

Lemma Merge_incl a b c : Merge a b c -> (forall x, In x a -> In x c) /\ (forall x, In x b -> In x c).
Proof.
  induction 1 as [|x a b c H [IH1 IH2]|x a b c H [IH1 IH2]]; [split; auto| |]; split; intros y Hy;
    try (apply in_app_or in Hy; destruct Hy as [Hy|[<-|[]]]); apply in_or_app; cbn; auto.
Qed.

Lemma wids_in l a : In (Write a) l -> In a (wids l).
Proof. intros H. unfold wids. apply in_flat_map. exists (Write a). cbn. auto. Qed.

Lemma prefix_pos s (pre : list cmd) K p :
  pre = firstn K (resv s) -> 0 <= p -> (Z.to_nat p < length pre)%nat -> In (rcmd s p) pre.
Proof.
  intros E Hp Hl. unfold rcmd.
  replace (nth (Z.to_nat p) (resv s) (Write 0)) with (nth (Z.to_nat p) pre (Write 0)).
  - apply nth_In. auto.
  - rewrite E. rewrite E, firstn_length in Hl.
    rewrite <- (firstn_skipn K (resv s)) at 2. rewrite app_nth1; auto. rewrite firstn_length. arith.
Qed.

Lemma wids_split l w1 b w2 :
  wids l = w1 ++ b :: w2 -> exists i, nth_error l i = Some (Write b) /\ w1 = wids (firstn i l).
Proof.
  revert w1; induction l as [|cm l IH]; intros w1 H; cbn in H.
  - destruct w1; discriminate.
  - destruct cm as [x|x|x]; cbn in H.
    + destruct w1 as [|y w1]; cbn in H; inversion H; subst.
      * exists O. cbn. auto.
      * destruct (IH _ H2) as (i & Hi & ->). exists (S i). cbn. auto.
    + destruct (IH _ H) as (i & Hi & ->). exists (S i). cbn. auto.
    + destruct (IH _ H) as (i & Hi & ->). exists (S i). cbn. auto.
Qed.

Lemma invR_direct s s' tid th th1 id :
  invR s -> thr s tid th -> threads s' = upd (threads s) tid th1 ->
  gfixed s' = gfixed s -> trace s' = trace s ++ [EApp id; ERet id] ->
  resv s' = resv s -> head s' = head s -> tail s' = tail s -> Z.of_nat (length (resv s)) = head s ->
  dlog s' = dlog s ++ [id] -> applied s' = applied s ++ [id] -> cur th1 = None ->
  In (EInv id) (trace s) ->
  (forall a, In a (rets_before id (trace s)) -> In a (applied s)) ->
  invR s'.
Proof.
  intros HR Hth Hthr Hf Ht Hv Hh Htl Hl Hd Ha Hc Hi Key.
  eapply (invR_ext s s' tid th th1); eauto; try arith.
  - exists []. rewrite app_nil_r. auto.
  - intros x Hx. rewrite Hd. apply in_or_app. auto.
  - intros a [X|[X|[]]]; inversion X; subst. left. rewrite Hd. apply in_or_app. cbn. auto.
  - intros o b X. rewrite Hc in X. discriminate.
  - intros b X. rewrite Hc in X. discriminate.
  - intros b Hb. rewrite Ha in Hb. rewrite Ht. apply in_or_app. left.
    apply in_app_or in Hb. destruct Hb as [Hb|[<-|[]]]; auto. apply (r_app _ HR); auto.
  - intros a b Hib Hr. rewrite Ht in Hib. apply in_app_or in Hib.
    destruct Hib as [Hib|[X|[X|[]]]]; try discriminate.
    rewrite Ht, rb_frozen in Hr by auto. rewrite Ha. apply before_app; [apply (r_rt _ HR); auto|].
    intros w1 w2 E. destruct w1 as [|y w1]; cbn in E; inversion E; subst.
    + rewrite app_nil_r. auto.
    + destruct w1; discriminate.
Qed.

Lemma invR_batch s s' tid th th1 :
  invR s -> thr s tid th -> threads s' = upd (threads s) tid th1 ->
  gfixed s' = gfixed s -> trace s' = trace s ++ map EApp (wids (dbuf th)) ->
  resv s' = resv s -> head s' = head s -> tail s' = tail s -> Z.of_nat (length (resv s)) = head s ->
  dlog s' = dlog s -> applied s' = applied s ++ wids (dbuf th) ->
  cur th1 = cur th -> starget th1 = starget th -> pc th1 = P313 -> tpc (pc th) = true ->
  (forall w1 b w2, wids (dbuf th) = w1 ++ b :: w2 ->
     In (EInv b) (trace s) /\ forall a, In a (rets_before b (trace s)) -> In a (applied s ++ w1)) ->
  invR s'.
Proof.
  intros HR Hth Hthr Hf Ht Hv Hh Htl Hl Hd Ha Hc Hs Hp Htp Key.
  assert (Hnoinv : forall b, ~ In (EInv b) (map EApp (wids (dbuf th)))).
  { intros b H. apply in_map_iff in H as (x & X & _). discriminate. }
  eapply (invR_ext s s' tid th th1); eauto; try arith.
  - exists []. rewrite app_nil_r. auto.
  - intros x Hx. rewrite Hd. auto.
  - intros a H. apply in_map_iff in H as (x & X & _). discriminate.
  - intros o b X Y. rewrite Hc in X. rewrite Ht. apply in_or_app. left. eapply (r_inv _ HR); eauto.
  - intros b X Y. rewrite Hc in X.
    assert (Hi : In (EInv b) (trace s)) by (eapply (r_inv _ HR); eauto; reflexivity).
    destruct (r_tgt _ HR _ _ _ Hth X Htp) as (A & B & C).
    split; [rewrite Hs; arith|]. split.
    + intros a Ha'. rewrite Ht, rb_frozen in Ha' by auto. rewrite Hs.
      eapply (settled_mono s s'); eauto; try arith.
      * exists []. rewrite app_nil_r. auto.
      * intros x Hx. rewrite Hd. auto.
    + rewrite Hp. discriminate.
  - intros b Hb. rewrite Ha in Hb. rewrite Ht. apply in_or_app. left.
    apply in_app_or in Hb. destruct Hb as [Hb|Hb]; [apply (r_app _ HR); auto|].
    apply in_split in Hb as (w1 & w2 & E). apply (Key _ _ _ E).
  - intros a b Hib Hr. rewrite Ht in Hib. apply in_inv_app in Hib; auto.
    rewrite Ht, rb_frozen in Hr by auto. rewrite Ha. apply before_app; [apply (r_rt _ HR); auto|].
    intros w1 w2 E. apply (Key _ _ _ E). auto.
Qed.

Lemma nth_pre {A} (pre l : list A) K n d :
  pre = firstn K l -> (n < length pre)%nat -> nth n l d = nth n pre d.
Proof.
  intros E H. rewrite E in *. rewrite firstn_length in H.
  rewrite <- (firstn_skipn K l) at 1. rewrite app_nth1; auto. rewrite firstn_length. arith.
Qed.

Lemma settled_applied s a q :
  invB s -> Merge (wids (qlog s)) (dlog s) (applied s) ->
  qlog s = firstn (Z.to_nat (gtail s)) (resv s) -> q <= gtail s ->
  settled_below s a q -> In a (applied s).
Proof.
  intros HB HM Hq Hle [H|(p & Hp & Hr)]; destruct (Merge_incl _ _ _ HM) as [I1 I2]; auto.
  apply I1. apply wids_in. rewrite <- Hr. eapply prefix_pos; eauto; [arith|].
  rewrite Hq, firstn_length. pose proof (b_resv _ HB). pose proof (b_le _ HB). arith.
Qed.

Lemma batch_key s th :
  invB s -> invR s -> Merge (wids (qlog s)) (dlog s) (applied s) ->
  qlog s ++ dbuf th = firstn (Z.to_nat (gtail s)) (resv s) ->
  forall w1 b w2, wids (dbuf th) = w1 ++ b :: w2 ->
    In (EInv b) (trace s) /\ forall a, In a (rets_before b (trace s)) -> In a (applied s ++ w1).
Proof.
  intros HB HR HM Hq w1 b w2 E.
  destruct (Merge_incl _ _ _ HM) as [I1 I2].
  apply wids_split in E as (i & Hi & ->).
  pose proof (b_resv _ HB) as Hl. pose proof (b_le _ HB) as Hle. pose proof (b_lo _ HB) as Hlo.
  assert (Hlen : length (qlog s ++ dbuf th) = Z.to_nat (gtail s)) by (rewrite Hq, firstn_length; arith).
  assert (Hi' : (i < length (dbuf th))%nat) by (apply nth_error_Some; congruence).
  rewrite app_length in Hlen.
  set (q := Z.of_nat (length (qlog s) + i)).
  assert (Hrq : rcmd s q = Write b).
  { unfold rcmd, q. rewrite Nat2Z.id. rewrite (nth_pre _ _ _ _ _ Hq) by (rewrite app_length; arith).
    rewrite app_nth2 by arith. replace (length (qlog s) + i - length (qlog s))%nat with i by arith.
    apply nth_error_nth. auto. }
  destruct (r_pos _ HR q b) as [A B]; [unfold q; arith|auto|]. split; auto.
  intros a Ha. destruct (B a Ha) as [H|(p & Hp & Hr)]; [apply in_or_app; auto|].
  apply in_or_app.
  destruct (Nat.lt_ge_cases (Z.to_nat p) (length (qlog s))) as [Hlt|Hge].
  - left. apply I1. apply wids_in. rewrite <- Hr. unfold rcmd.
    rewrite (nth_pre _ _ _ _ _ Hq) by (rewrite app_length; arith). rewrite app_nth1 by arith.
    apply nth_In. arith.
  - right. apply wids_in. rewrite <- Hr. unfold rcmd.
    rewrite (nth_pre _ _ _ _ _ Hq) by (rewrite app_length; unfold q in Hp; arith). rewrite app_nth2 by arith.
    set (j := (Z.to_nat p - length (qlog s))%nat).
    assert (Hj : (j < i)%nat) by (unfold j, q in *; arith).
    replace (nth j (dbuf th) (Write 0)) with (nth j (firstn i (dbuf th)) (Write 0)).
    + apply nth_In. rewrite firstn_length. arith.
    + rewrite <- (firstn_skipn i (dbuf th)) at 2. rewrite app_nth1; auto. rewrite firstn_length. arith.
Qed.

Lemma invR_init n B scripts : invR (init_scripts true n B scripts).
Proof.
  constructor; cbn; auto; try (intros; contradiction); try (intros; arith).
  - intros tid th o b H Hc. unfold thr in H; cbn in H. apply nth_error_map_thread in H as (l & _ & ->). discriminate.
  - intros tid th b H Hc. unfold thr in H; cbn in H. apply nth_error_map_thread in H as (l & _ & ->). discriminate.
Qed.

Lemma cmd_of_write o b : cur_ok P103 (Some o) = true -> cmd_of o = Write b -> wop_id o = Some b.
Proof. destruct o; cbn; congruence. Qed.

(* steps that leave the trace, the reservations, both positions and the logs alone *)
Lemma invR_silent s s' tid th th1 :
  invR s -> thr s tid th -> threads s' = upd (threads s) tid th1 -> Z.of_nat (length (resv s)) = head s ->
  gfixed s' = gfixed s -> trace s' = trace s -> resv s' = resv s -> head s' = head s -> dlog s' = dlog s ->
  tail s' = tail s -> applied s' = applied s ->
  (forall o, cur th1 = Some o -> cur th = Some o) ->
  (forall b, cur th = Some (OSet b) -> tpc (pc th1) = true ->
     tpc (pc th) = true /\ starget th1 = starget th /\ (pc th1 = P332 -> pc th = P332 \/ starget th <= tail s)) ->
  invR s'.
Proof.
  intros HR Hth Hthr Hl Hf Ht Hv Hh Hd Htl Ha Hc Hp.
  apply (invR_ext_noapp s s' tid th th1 [] HR Hth Hthr Hf); auto; try arith.
  - rewrite Ht. symmetry. apply app_nil_r.
  - exists []. rewrite Hv. symmetry. apply app_nil_r.
  - rewrite Hd. auto.
  - intros a [].
  - intros o b X Y. rewrite Ht. apply (r_inv _ HR _ _ _ _ Hth (Hc _ X) Y).
  - intros b X Y. destruct (Hp b (Hc _ X) Y) as (P1 & P2 & P3).
    destruct (r_tgt _ HR _ _ _ Hth (Hc _ X) P1) as (A & B & C).
    unfold tgt_ok, settled_below, pos_lt, rcmd. rewrite P2, Hh, Ht, Hd, Hv, Htl. split; [exact A|]. split; [exact B|].
    intros Z. destruct (P3 Z) as [Z'|Z']; auto.
Qed.

Lemma invR_step c s tid s' o :
  invA s -> invB s -> invC s -> invR s -> lstepc c s tid = Some (s', o) -> invR s'.
Proof.
  intros HA HB HC HR Hs. apply lstepc_inv in Hs as (th & s1 & th1 & Hth & Hst & ->).
  pose proof (proj1 HA _ _ Hth) as [Hok Htok _ Hbuf Hwf].
  pose proof (b_thr _ HB _ _ Hth) as Tth.
  pose proof (b_resv _ HB) as Hlen.
  pose proof (r_fixed _ HR) as Hfx.
  apply tstep_step in Hst; auto.
  step_pcs Hst Hok.
  all: try (match goal with E : script _ = _ :: _ |- _ => rewrite E in Hwf end).
  all: try (cbn in Hwf; discriminate Hwf).
  all: bool_hyps; zb.
  (* the three kinds of apply steps *)
  all: try (lazymatch goal with Hp : pc _ = P312 |- _ =>
      eapply (invR_batch _ _ tid th); [exact HR|exact Hth|reflexivity|reflexivity|reflexivity|reflexivity
        |reflexivity|reflexivity|exact Hlen|reflexivity|reflexivity|reflexivity|reflexivity|reflexivity
        |rewrite Hpc; reflexivity| ];
      apply (batch_key _ _ HB HR (c_merge _ HC));
      pose proof (c_hold _ HC _ _ Hth) as X; rewrite Hpc in X; cbn [holder k124] in X;
      rewrite Z.add_0_r in X; exact (X eq_refl) end).
  all: try (lazymatch type of Hpc with _ = P323 => idtac | _ = P332 => idtac end; eapply (invR_direct _ _ tid th);
      [exact HR|exact Hth|reflexivity|reflexivity|state_cbn; rewrite <- app_assoc; reflexivity|reflexivity
      |reflexivity|reflexivity|exact Hlen|reflexivity|reflexivity|reflexivity
      |exact (r_inv _ HR _ _ _ _ Hth Hcur eq_refl)| ];
      pose proof (c_hold _ HC _ _ Hth) as X; rewrite Hpc in X; cbn [holder k124] in X;
      rewrite Hbuf, app_nil_r, Z.add_0_r in X by (rewrite Hpc; reflexivity); specialize (X eq_refl);
      pose proof (t_tail _ _ Tth) as Y; rewrite Hpc in Y; cbn [holder] in Y; specialize (Y eq_refl);
      intros a Ha;
      first [ (* inline: quiescent under the token *)
              apply rb_ret in Ha; apply (r_ret _ HR) in Ha;
              eapply settled_applied; [exact HB|exact (c_merge _ HC)|exact X| |exact Ha]; arith
            | (* syncMutate: the consumer passed the target *)
              destruct (r_tgt _ HR _ _ _ Hth Hcur) as (A & B & C); [rewrite Hpc; reflexivity|];
              specialize (C Hpc);
              eapply settled_applied; [exact HB|exact (c_merge _ HC)|exact X| |exact (B a Ha)]; arith ]).
  all: try (match goal with E : gfixed _ && _ = false |- _ => rewrite Hfx in E; cbn [andb] in E; apply Z.ltb_ge in E end).
  all: try (eapply (invR_silent _ _ tid th); [exact HR|exact Hth|reflexivity|exact Hlen|reflexivity|reflexivity|reflexivity|reflexivity
            |reflexivity|reflexivity|reflexivity| state_cbn; intros ? X; first [exact X | discriminate X]
            | state_cbn; rewrite Hpc; cbn [tpc]; intros ? X Y; first [discriminate Y |
                split; [reflexivity| split; [reflexivity| intros Z; first [discriminate Z | left; reflexivity | right; arith]]]] ]; fail).
  all: pose proof (t_tail _ _ Tth) as Ytl; pose proof (t_dpos _ _ Tth) as Ydp; rewrite Hpc in Ytl, Ydp; cbn [holder] in Ytl.
  all: eapply (invR_ext_noapp _ _ tid th);
    [exact HR|exact Hth|reflexivity|reflexivity
    | first [reflexivity | state_cbn; symmetry; apply app_nil_r]
    | first [eexists; reflexivity | exists []; state_cbn; rewrite app_nil_r; reflexivity]
    | first [apply Z.le_refl | state_cbn; arith] | exact Hlen | state_cbn; auto
    | first [apply Z.le_refl | state_cbn; rewrite Ytl, Ydp by tauto; arith] | reflexivity | | | | ].
  all: unfold rcmd; state_cbn.
  all: lazymatch goal with
    | |- forall a, In (ERet a) _ -> _ =>
        intros ? Hin;
        first [ destruct Hin; fail
              | destruct Hin as [X|[]];
                first [ discriminate X
                      | injection X as <-; right; exists (epos th);
                        destruct (t_106 _ _ Tth Hpc) as [P1 _]; pose proof (t_r106 _ _ Tth Hpc) as P2;
                        rewrite Hcur in P2; cbn in P2; injection P2 as P3; split; [exact P1|exact P3] ] ]
    | |- forall q b, ?h <= q < ?h -> _ =>
        intros ? ? [Q1 Q2]; exact (False_ind _ (Z.lt_irrefl _ (Z.le_lt_trans _ _ _ Q1 Q2)))
    | |- forall q b, _ <= q < _ -> _ =>
        first [ fail
              | intros q ? Hq Hr; assert (q = epos th) by arith; subst q;
                replace (Z.to_nat (epos th)) with (length (resv s)) in Hr by arith;
                rewrite nth_middle in Hr;
                split; [exact (r_inv _ HR _ _ _ _ Hth Hcur (cmd_of_write _ _ Hok Hr))|];
                intros a Ha; apply rb_ret in Ha; apply (r_ret _ HR) in Ha;
                eapply (settled_mono s _); [ | | eexists; reflexivity | state_cbn; auto | exact Ha]; state_cbn; arith ]
    | |- forall o b, _ = Some o -> _ =>
        intros ? ? X Y;
        first [ discriminate X
              | exact (r_inv _ HR _ _ _ _ Hth X Y)
              | injection X as <-; injection Y as <-; apply in_or_app; right; left; reflexivity
              | injection X as <-; discriminate Y ]
    | |- forall b, _ = Some (OSet b) -> _ =>
        intros ? X Y; cbn [tpc] in Y;
        first [ discriminate X | discriminate Y | rewrite X in Hok; discriminate Hok
              | destruct (r_tgt _ HR _ _ _ Hth X) as (A & B & C); [rewrite Hpc; reflexivity|];
                split; [exact A| split; [exact B | state_cbn; intros Z; first [discriminate Z | arith] ] ]
              | split; [state_cbn; arith| split; [state_cbn; intros a Ha; apply rb_ret in Ha; exact (r_ret _ HR _ Ha)
                                               | state_cbn; intros Z; discriminate Z]] ]
    end.
Qed.

Record inv3 (s : gstate) : Prop := { i_2 : inv2 s; i_R : invR s }.

Lemma inv3_reachable n B scripts s :
  2 <= n -> wf_scripts scripts -> reachable (init_scripts true n B scripts) s -> inv3 s.
Proof.
  intros Hn Hwf H. induction H as [|s c tid s' o H IH Hs].
  - split; [eapply inv2_reachable; eauto; constructor | apply invR_init].
  - destruct IH as [[[HA HB] HC] HR]. split.
    + eapply inv2_reachable; eauto. econstructor; eauto.
    + eapply invR_step; eauto.
Qed.

(* Repaired syncMutate (fixed = true).  For any mix of SetAsync / Set / raw Enqueue on the shard:
   if write a returned nil before write b was invoked, every application of b is preceded by an
   application of a. *)
Theorem realtime_order n B scripts s a b :
  2 <= n -> wf_scripts scripts -> reachable (init_scripts true n B scripts) s ->
  In (EInv b) (trace s) -> In a (rets_before b (trace s)) -> before a b (applied s).
Proof. intros Hn Hwf H. apply (r_rt _ (i_R _ (inv3_reachable _ _ _ _ Hn Hwf H))). Qed.

Lemma rets_before_spec a b t1 t2 t3 :
  ~ In (EInv b) (t1 ++ ERet a :: t2) -> In a (rets_before b (t1 ++ ERet a :: t2 ++ EInv b :: t3)).
Proof.
  induction t1 as [|e t1 IH]; cbn.
  - intros _. auto.
  - intros H. destruct e as [x|x|x]; cbn.
    + destruct (x =? b) eqn:E; [apply Z.eqb_eq in E; subst; tauto|]. apply IH. tauto.
    + right. apply IH. tauto.
    + apply IH. tauto.
Qed.

Corollary realtime_order_trace n B scripts s a b t1 t2 t3 l1 l2 :
  2 <= n -> wf_scripts scripts -> reachable (init_scripts true n B scripts) s ->
  trace s = t1 ++ ERet a :: t2 ++ EInv b :: t3 -> ~ In (EInv b) (t1 ++ ERet a :: t2) ->
  applied s = l1 ++ b :: l2 -> In a l1.
Proof.
  intros Hn Hwf H Ht Hni Ha.
  eapply (realtime_order _ _ _ _ a b Hn Hwf H); eauto.
  - rewrite Ht. apply in_or_app. right. right. apply in_or_app. right. left. auto.
  - rewrite Ht. apply rets_before_spec. auto.
Qed.

(* The original syncMutate (fixed = false) violates it: producer 1 reserves position 0 and stalls
   at 104; producer 0 reserves position 1, publishes and returns nil; then Set 5 is invoked, takes
   drainMu, finds cell 0 unpublished, applies 5 and returns; 3 and 1 are applied afterwards. *)
Definition rt_scripts : list (list op) := [[OSetAsync 1]; [OSetAsync 3]; [OWorker]; [OSet 5]].
Definition rt_sched : list nat :=
  [0;0;0; 1;1;1;1;1;1; 0;0;0;0;0;0;0; 3;3;3;3;3; 1;1;1;
   2;2;2;2;2;2;2;2;2;2;2;2;2;2;2;2;2;2;2;2;2;2;2;2;2;2;2]%nat.

Example realtime_order_refuted :
  let s := run_sched (init_scripts false 2 1 rt_scripts) rt_sched in
  trace s = [EInv 1; EInv 3; ERet 1; EInv 5; EApp 5; ERet 5; ERet 3; EApp 3; EApp 1]
  /\ applied s = [5; 3; 1]
  /\ In (EInv 5) (trace s) /\ In 1 (rets_before 5 (trace s)) /\ ~ before 1 5 (applied s).
Proof.
  vm_compute. repeat split; auto 10.
  intros H. specialize (H [] [3; 1] eq_refl). destruct H.
Qed.

(* on the repaired model the same schedule parks Set at 333; once position 0 is published Set
   drains both queued writes itself and only then applies 5 *)
Example realtime_order_fixed_run :
  let s := run_sched (init_scripts true 2 1 rt_scripts) (rt_sched ++ repeat 3%nat 32) in
  applied s = [3; 1; 5] /\ trace s = [EInv 1; EInv 3; ERet 1; EInv 5; ERet 3; EApp 3; EApp 1; EApp 5; ERet 5].
Proof. vm_compute. auto. Qed.

Definition wsetW (p : pcT) : bool :=
  match p with P302 | P311 | P303 | P121 | P122 | P123 | P124 | P125 | P126 | P312 | P313 => true | _ => false end.
Definition wsetN (p : pcT) : bool :=
  match p with P302 | P311 | P303 | P304 | P305 => true | _ => false end.
(* token holders that will look at the tail cell again before giving the token back *)
Definition cpcs (p : pcT) : bool :=
  match p with P121 | P122 | P123 | P124 | P125 | P126 | P312 | P313 | P333 => true | _ => false end.

Definition ready (s : gstate) : Prop := cseq (cell_at s (gtail s)) = gtail s + 1.

Definition ex_thr (s : gstate) (Q : thread -> Prop) : Prop := exists tid th, thr s tid th /\ Q th.

Definition QW (th : thread) : Prop := cur th = Some OWorker /\ wsetW (pc th) = true.
Definition QN (th : thread) : Prop := cur th = Some OWorker /\ wsetN (pc th) = true.
Definition QP (g : Z) (th : thread) : Prop := pc th = P106 /\ epos th = g.
Definition QC (th : thread) : Prop := cpcs (pc th) = true.

Definition Wdisj (s : gstate) : Prop := wakeTok s = true \/ ex_thr s QW.
Definition Ndisj (s : gstate) : Prop :=
  wakeTok s = true \/ ex_thr s QN \/ ex_thr s (QP (gtail s)) \/ ex_thr s QC.

Record invD (s : gstate) : Prop := {
  d_B : 1 <= gB s;
  d_ws : wakeState s = 0 \/ wakeState s = 1;
  d_closing : forall tid th, thr s tid th -> cur th = Some OWorker -> wclosing th = true -> closeCh s = true;
  d_308 : forall tid th, thr s tid th -> pc th = P308 -> closeCh s = true;
  d_tgt : forall tid th b, thr s tid th -> cur th = Some (OSet b) -> holder (pc th) = true -> starget th <= head s;
  d_333 : forall tid th, thr s tid th -> pc th = P333 -> tail s < starget th;
  d_W : wakeState s = 1 -> closeCh s = false -> Wdisj s;
  d_N : ready s -> closeCh s = false -> Ndisj s
}.

Lemma ex_thr_other s s' tid th1 (Q : thread -> Prop) t0 th0 :
  threads s' = upd (threads s) tid th1 -> t0 <> tid -> thr s t0 th0 -> Q th0 -> ex_thr s' Q.
Proof. intros Hthr N H HQ. exists t0, th0. split; auto. apply (thr_upd_other s s' tid th1); auto. Qed.

Lemma ex_thr_self s s' tid th th1 (Q : thread -> Prop) :
  threads s' = upd (threads s) tid th1 -> thr s tid th -> Q th1 -> ex_thr s' Q.
Proof.
  intros Hthr H HQ. exists tid, th1. split; auto. unfold thr. rewrite Hthr.
  apply nth_error_upd_eq. eapply nth_error_lt; eauto.
Qed.

Lemma ex_thr_step s s' tid th th1 (Q : thread -> Prop) :
  threads s' = upd (threads s) tid th1 -> thr s tid th -> ex_thr s Q -> (Q th -> Q th1) -> ex_thr s' Q.
Proof.
  intros Hthr H (t0 & th0 & H0 & HQ) Himp. destruct (Nat.eq_dec t0 tid) as [->|N].
  - rewrite (thr_det _ _ _ _ H0 H) in HQ. eapply ex_thr_self; eauto.
  - eapply ex_thr_other; eauto.
Qed.

Lemma ex_thr_skip s s' tid th th1 (Q : thread -> Prop) :
  threads s' = upd (threads s) tid th1 -> thr s tid th -> ex_thr s Q -> ~ Q th -> ex_thr s' Q.
Proof. intros Hthr H Hex Hn. eapply ex_thr_step; eauto. tauto. Qed.

Lemma wsetW_split p : wsetW p = true -> wsetN p = true \/ cpcs p = true.
Proof. destruct p; cbn; auto; discriminate. Qed.

Lemma holder125 s : invA s -> invB s -> tail s <> gtail s -> ex_thr s (fun th => pc th = P125).
Proof.
  intros (HT & HD & _) HB Hne.
  destruct (drainMu s) as [t|] eqn:E; [|exfalso; apply Hne; apply (b_notok _ HB E)].
  pose proof (HD t eq_refl) as Hlt.
  destruct (nth_error (threads s) t) as [th|] eqn:Et; [|apply nth_error_None in Et; arith].
  pose proof (proj1 (a_tok _ _ _ (HT _ _ Et)) E) as Hh.
  pose proof (t_tail _ _ (b_thr _ HB _ _ Et) Hh) as Htl.
  exists t, th. split; auto. destruct (pc th); auto; arith.
Qed.

Lemma holder125_C s : invA s -> invB s -> tail s <> gtail s -> ex_thr s QC.
Proof.
  intros HA HB Hne. destruct (holder125 s HA HB Hne) as (t & th & H & Hp).
  exists t, th. split; auto. unfold QC. rewrite Hp. reflexivity.
Qed.

Lemma W_to_N s : Wdisj s -> Ndisj s.
Proof.
  intros [H|(t & th & H & Hc & Hp)]; [left; auto|].
  destruct (wsetW_split _ Hp) as [X|X].
  - right. left. exists t, th. split; auto. split; auto.
  - right. right. right. exists t, th. split; auto.
Qed.

Lemma d_closing_frame s s' tid th th1 :
  invD s -> thr s tid th -> threads s' = upd (threads s) tid th1 ->
  (closeCh s = true -> closeCh s' = true) ->
  (cur th1 = Some OWorker -> wclosing th1 = true -> closeCh s' = true) ->
  forall t th', thr s' t th' -> cur th' = Some OWorker -> wclosing th' = true -> closeCh s' = true.
Proof.
  intros HD Hth Hthr Hc H1 t th' H Hcu Hw. apply (thr_upd_cases _ _ _ _ _ _ _ Hthr Hth) in H as [[-> ->]|[N H]].
  - auto.
  - apply Hc. eapply (d_closing _ HD); eauto.
Qed.

Lemma d_308_frame s s' tid th th1 :
  invD s -> thr s tid th -> threads s' = upd (threads s) tid th1 ->
  (closeCh s = true -> closeCh s' = true) ->
  (pc th1 = P308 -> closeCh s' = true) ->
  forall t th', thr s' t th' -> pc th' = P308 -> closeCh s' = true.
Proof.
  intros HD Hth Hthr Hc H1 t th' H Hp. apply (thr_upd_cases _ _ _ _ _ _ _ Hthr Hth) in H as [[-> ->]|[N H]].
  - auto.
  - apply Hc. eapply (d_308 _ HD); eauto.
Qed.

Lemma d_tgt_frame s s' tid th th1 :
  invD s -> thr s tid th -> threads s' = upd (threads s) tid th1 -> head s <= head s' ->
  (forall b, cur th1 = Some (OSet b) -> holder (pc th1) = true -> starget th1 <= head s') ->
  forall t th' b, thr s' t th' -> cur th' = Some (OSet b) -> holder (pc th') = true -> starget th' <= head s'.
Proof.
  intros HD Hth Hthr Hh H1 t th' b H Hc Hp. apply (thr_upd_cases _ _ _ _ _ _ _ Hthr Hth) in H as [[-> ->]|[N H]].
  - eauto.
  - pose proof (d_tgt _ HD _ _ _ H Hc Hp). arith.
Qed.

Lemma d_333_frame s s' tid th th1 :
  invA s -> invD s -> thr s tid th -> threads s' = upd (threads s) tid th1 ->
  (tail s' = tail s \/ holder (pc th) = true) ->
  (pc th1 = P333 -> tail s' < starget th1) ->
  forall t th', thr s' t th' -> pc th' = P333 -> tail s' < starget th'.
Proof.
  intros HA HD Hth Hthr Ht H1 t th' H Hp. apply (thr_upd_cases _ _ _ _ _ _ _ Hthr Hth) in H as [[-> ->]|[N H]].
  - auto.
  - destruct Ht as [Ht|Ht].
    + rewrite Ht. eapply (d_333 _ HD); eauto.
    + exfalso. apply N. eapply (holder_unique s t tid th' th); eauto. rewrite Hp. reflexivity.
Qed.

Lemma W_frame s s' tid th th1 :
  threads s' = upd (threads s) tid th1 -> thr s tid th ->
  (wakeTok s = true -> wakeTok s' = true) -> (QW th -> QW th1) -> Wdisj s -> Wdisj s'.
Proof.
  intros Hthr Hth Ht Hq [H|H]; [left; auto|right]. eapply ex_thr_step; eauto.
Qed.

Lemma N_step s s' tid th th1 :
  threads s' = upd (threads s) tid th1 -> thr s tid th -> gtail s' = gtail s ->
  (wakeTok s = true -> Ndisj s') -> (QN th -> Ndisj s') -> (QP (gtail s) th -> Ndisj s') ->
  (QC th -> Ndisj s') -> Ndisj s -> Ndisj s'.
Proof.
  intros Hthr Hth Hg H1 H2 H3 H4 [H|[(t0 & th0 & H0 & HQ)|[(t0 & th0 & H0 & HQ)|(t0 & th0 & H0 & HQ)]]]; auto.
  - destruct (Nat.eq_dec t0 tid) as [->|N]; [rewrite (thr_det _ _ _ _ H0 Hth) in HQ; auto|].
    right. left. eapply ex_thr_other; eauto.
  - destruct (Nat.eq_dec t0 tid) as [->|N]; [rewrite (thr_det _ _ _ _ H0 Hth) in HQ; auto|].
    right. right. left. rewrite Hg. eapply ex_thr_other; eauto.
  - destruct (Nat.eq_dec t0 tid) as [->|N]; [rewrite (thr_det _ _ _ _ H0 Hth) in HQ; auto|].
    right. right. right. eapply ex_thr_other; eauto.
Qed.

Lemma W_to_N_step s s' tid th th1 :
  threads s' = upd (threads s) tid th1 -> thr s tid th -> ~ QW th ->
  (wakeTok s = true -> wakeTok s' = true) -> Wdisj s -> Ndisj s'.
Proof.
  intros Hthr Hth Hn Ht [H|(t0 & th0 & H0 & Hc & Hp)]; [left; auto|].
  destruct (Nat.eq_dec t0 tid) as [->|N].
  { exfalso. apply Hn. rewrite (thr_det _ _ _ _ Hth H0). split; auto. }
  destruct (wsetW_split _ Hp) as [X|X].
  - right. left. eapply (ex_thr_other s s' tid th1 QN); eauto. split; auto.
  - right. right. right. eapply (ex_thr_other s s' tid th1 QC); eauto.
Qed.

Lemma C_lift s s' tid th th1 :
  threads s' = upd (threads s) tid th1 -> thr s tid th -> cpcs (pc th) = false -> ex_thr s QC -> Ndisj s'.
Proof.
  intros Hthr Hth Hn H. right. right. right. eapply ex_thr_skip; eauto.
  unfold QC. rewrite Hn. discriminate.
Qed.

Lemma ready_same_seq s s' e x :
  gn s' = gn s -> gtail s' = gtail s -> Z.of_nat (length (ring s)) = gn s -> 0 < gn s ->
  ring s' = upd (ring s) (idx s e) (mkCell (cseq (cell_at s e)) x) -> ready s' -> ready s.
Proof.
  unfold ready, cell_at, idx. intros Hn Hg Hl H0 Hr. rewrite Hg, Hn, Hr.
  destruct (Nat.eq_dec (Z.to_nat (e mod gn s)) (Z.to_nat (gtail s mod gn s))) as [E|E].
  - rewrite <- E. rewrite nth_upd_eq; auto.
    pose proof (Z.mod_pos_bound e (gn s) H0). arith.
  - rewrite nth_upd_ne; auto.
Qed.

Lemma ready_other_cell s s' e c :
  invB s -> gn s' = gn s -> gtail s' = gtail s -> ring s' = upd (ring s) (idx s e) c ->
  gtail s <= e < head s -> e <> gtail s -> ready s' -> ready s.
Proof.
  intros HB Hn Hg Hr He Hne. unfold ready. rewrite Hg.
  rewrite (cell_at_upd_ne s s' e (gtail s) c (gtail s)); auto.
  - pose proof (b_n _ HB). arith.
  - pose proof (b_hi _ HB). arith.
  - pose proof (b_n _ HB). arith.
Qed.

Lemma invD_init f n B scripts : 1 <= B -> invD (init_scripts f n B scripts).
Proof.
  intros HB. constructor; cbn; auto; try discriminate.
  - intros tid th H. unfold thr in H; cbn in H. apply nth_error_map_thread in H as (l & _ & ->). discriminate.
  - intros tid th H. unfold thr in H; cbn in H. apply nth_error_map_thread in H as (l & _ & ->). discriminate.
  - intros tid th b H. unfold thr in H; cbn in H. apply nth_error_map_thread in H as (l & _ & ->). discriminate.
  - intros tid th H. unfold thr in H; cbn in H. apply nth_error_map_thread in H as (l & _ & ->). discriminate.
  - unfold ready, cell_at, idx. cbn [gtail gn ring init_scripts init_state]. rewrite Zmod_0_l.
    unfold init_ring. destruct (Z.to_nat n); cbn; discriminate.
Qed.

(* steps that leave the wake words, closeCh, both positions and the tail cell alone: every clause is
   about the stepping thread only *)
Lemma invD_silent s s' tid th th1 :
  invA s -> invD s -> thr s tid th -> threads s' = upd (threads s) tid th1 ->
  gB s' = gB s -> wakeState s' = wakeState s -> wakeTok s' = wakeTok s -> closeCh s' = closeCh s ->
  head s' = head s -> tail s' = tail s -> gtail s' = gtail s -> (ready s' -> ready s) ->
  (cur th1 = Some OWorker -> wclosing th1 = true -> closeCh s = true) ->
  (pc th1 = P308 -> closeCh s = true) ->
  (forall b, cur th1 = Some (OSet b) -> holder (pc th1) = true -> starget th1 <= head s) ->
  (pc th1 = P333 -> tail s < starget th1) ->
  (QW th -> QW th1) ->
  (QN th \/ QP (gtail s) th \/ QC th -> QN th1 \/ QP (gtail s) th1 \/ QC th1) ->
  invD s'.
Proof.
  intros HA HD Hth Hthr Hb Hws Hwt Hcl Hh Ht Hg Hr C1 C2 C3 C4 HW HN.
  constructor.
  - rewrite Hb. apply (d_B _ HD).
  - rewrite Hws. apply (d_ws _ HD).
  - apply (d_closing_frame s s' tid th th1 HD Hth Hthr); rewrite Hcl; auto.
  - apply (d_308_frame s s' tid th th1 HD Hth Hthr); rewrite Hcl; auto.
  - apply (d_tgt_frame s s' tid th th1 HD Hth Hthr); rewrite Hh; auto. apply Z.le_refl.
  - apply (d_333_frame s s' tid th th1 HA HD Hth Hthr); [left; exact Ht|]. rewrite Ht. exact C4.
  - rewrite Hws, Hcl. intros A B.
    apply (W_frame s s' tid th th1 Hthr Hth); [rewrite Hwt; auto | exact HW | exact (d_W _ HD A B)].
  - rewrite Hcl. intros R C.
    assert (Hw : QN th \/ QP (gtail s) th \/ QC th -> Ndisj s').
    { intros W. destruct (HN W) as [Q|[Q|Q]]; [right; left|right; right; left; rewrite Hg|right; right; right];
        apply (ex_thr_self s s' tid th th1 _ Hthr Hth Q). }
    apply (N_step s s' tid th th1 Hthr Hth Hg); auto.
    + intros X. left. rewrite Hwt. exact X.
    + exact (d_N _ HD (Hr R) C).
Qed.

Lemma invD_step c s tid s' o :
  invA s -> invB s -> invD s -> lstepc c s tid = Some (s', o) -> invD s'.
Proof.
  intros HA HB HD Hs. apply lstepc_inv in Hs as (th & s1 & th1 & Hth & Hst & ->).
  pose proof (proj1 HA _ _ Hth) as [Hok Htok _ Hbuf Hwf].
  pose proof (b_thr _ HB _ _ Hth) as Tth.
  apply tstep_step in Hst; auto.
  step_pcs Hst Hok.
  all: try (match goal with E : script _ = _ :: _ |- _ => rewrite E in Hwf end).
  all: try (cbn in Hwf; discriminate Hwf).
  all: bool_hyps; zb.
  all: try (eapply (invD_silent _ _ tid th);
    [exact HA|exact HD|exact Hth|reflexivity|reflexivity|reflexivity|reflexivity|reflexivity|reflexivity|reflexivity|reflexivity
    |exact (fun X => X)
    |state_cbn; first [exact (d_closing _ HD _ _ Hth) | intros X; discriminate X | intros _ X; discriminate X
                      | intros _ _; exact (d_308 _ HD _ _ Hth Hpc)]
    |state_cbn; first [intros X; discriminate X | intros _; assumption]
    |state_cbn; intros b0 X Y;
       first [discriminate X | discriminate Y | eapply (d_tgt _ HD _ _ _ Hth X); rewrite Hpc; reflexivity
             | rewrite X in Hok; discriminate Hok | apply Z.le_refl]
    |state_cbn; intros X; first [discriminate X | assumption]
    |intros [Qa Qb]; rewrite Hpc in Qb; first [discriminate Qb | split; [exact Qa|reflexivity]]
    |intros [[Qa Qb]|[[Qa Qb]|Qc]]; [rewrite Hpc in Qb|rewrite Hpc in Qa|unfold QC in Qc; rewrite Hpc in Qc];
       first [discriminate
             | left; split; [first [exact Qa|assumption]|reflexivity]
             | right; right; reflexivity] ]; fail).
  all: op_kinds Hok.
  all: pose proof (t_tail _ _ Tth) as Ytl; pose proof (t_dpos _ _ Tth) as Ydp; rewrite Hpc in Ytl, Ydp; cbn [holder] in Ytl.
  all: constructor.
  (* d_B, d_ws *)
  all: try exact (d_B _ HD).
  all: try (state_cbn; first [exact (d_ws _ HD) | left; reflexivity | right; reflexivity]).
  (* d_closing, d_308 *)
  all: try (eapply (d_closing_frame _ _ tid th); [exact HD|exact Hth|reflexivity| state_cbn; auto | ];
            state_cbn; try rewrite Hcur;
            first [ intros X; discriminate X | intros _ X; discriminate X | reflexivity
                  | intros Y X; exact (d_closing _ HD _ _ Hth Y X)
                  | intros _ X; exact (d_closing _ HD _ _ Hth Hcur X)
                  | intros Y; injection Y as ->; discriminate Hok
                  | intros _ _; exact (d_308 _ HD _ _ Hth Hpc) ]).
  all: try (eapply (d_308_frame _ _ tid th); [exact HD|exact Hth|reflexivity| state_cbn; auto | ];
            state_cbn; first [ intros X; discriminate X | intros _; reflexivity | intros _; assumption ]).
  (* d_tgt, d_333 *)
  all: try (match goal with E : gfixed _ && _ = true |- _ => apply andb_true_iff in E; destruct E as [_ E]; apply Z.ltb_lt in E end).
  all: try (eapply (d_tgt_frame _ _ tid th); [exact HD|exact Hth|reflexivity
            | first [apply Z.le_refl | state_cbn; arith] | ];
            state_cbn; cbn [holder]; try rewrite Hcur; intros b0 X Y;
            first [ discriminate X | discriminate Y | apply Z.le_refl
                  | rewrite X in Hok; discriminate Hok
                  | injection X as <-; eapply (d_tgt _ HD _ _ _ Hth Hcur); rewrite Hpc; reflexivity ]).
  all: try (eapply (d_333_frame _ _ tid th); [exact HA|exact HD|exact Hth|reflexivity
            | first [left; reflexivity | right; rewrite Hpc; reflexivity] | ];
            state_cbn; intros X; first [discriminate X | arith]).
  (* d_W *)
  all: try (lazymatch goal with |- _ -> _ -> Wdisj _ => idtac end;
    state_cbn; intros Hws Hcl;
    first [ discriminate Hws | discriminate Hcl
          | right; eapply (ex_thr_self _ _ tid th); [reflexivity|exact Hth| split; [exact Hcur | reflexivity]]
          | exfalso; rewrite (d_closing _ HD _ _ Hth Hcur) in Hcl by assumption; discriminate Hcl
          | eapply (W_frame _ _ tid th); [reflexivity|exact Hth| state_cbn; auto
              | intros [Qa Qb]; rewrite Hpc in Qb; first [discriminate Qb | rewrite Hcur in Qa; discriminate Qa | split; [exact Qa | reflexivity]]
              | exact (d_W _ HD Hws Hcl)] ]).
  (* d_N *)
  all: lazymatch goal with |- _ -> _ -> Ndisj _ => idtac | _ => fail "unexpected goal" end.
  all: state_cbn; intros Hr Hcl; try discriminate Hcl.
  all: try (lazymatch goal with Hp : pc _ = P124 |- _ =>
              right; right; right; eapply (ex_thr_self _ _ tid th); [reflexivity|exact Hth|reflexivity] end).
  all: match goal with HBx : invB ?ss |- _ =>
    lazymatch goal with
    | Hp : pc _ = P105 |- _ =>
        destruct (t_own _ _ Tth) as (Oin & _); [rewrite Hpc; reflexivity|];
        destruct (Z.eq_dec (epos th) (gtail ss)) as [Ee|Ee];
        [ right; right; left; eapply (ex_thr_self _ _ tid th); [reflexivity|exact Hth|split; [reflexivity|exact Ee]]
        | assert (Hr0 : ready ss)
            by (match type of Hr with ready ?S' => eapply (ready_other_cell ss S' (epos th)); [exact HB|reflexivity|reflexivity|reflexivity|exact Oin|exact Ee|exact Hr] end) ]
    | Hp : pc _ = P104 |- _ =>
        assert (Hr0 : ready ss)
          by (match type of Hr with ready ?S' => eapply (ready_same_seq ss S' (epos th)); [reflexivity|reflexivity|exact (b_len _ HB)
                                                       |pose proof (b_n _ HB); arith|reflexivity|exact Hr] end)
    | _ => assert (Hr0 : ready ss) by exact Hr
    end
  end.
  all: eapply (N_step _ _ tid th); [reflexivity|exact Hth|reflexivity| | | | |exact (d_N _ HD Hr0 Hcl)].
  all: match goal with HBx : invB ?ss |- _ =>
    lazymatch goal with
    | |- wakeTok _ = true -> _ =>
        intros Htk;
        first [ left; exact Htk | left; reflexivity
              | right; left; eapply (ex_thr_self _ _ tid th); [reflexivity|exact Hth|split; [exact Hcur|reflexivity]] ]
    | |- QN _ -> _ =>
        intros [Qa Qb]; rewrite Hpc in Qb;
        first [ discriminate Qb
              | right; left; eapply (ex_thr_self _ _ tid th); [reflexivity|exact Hth|split; [exact Hcur|reflexivity]]
              | (* 304: not ready at tail *)
                destruct (Z.eq_dec (tail ss) (gtail ss)) as [Et|Et];
                [ exfalso; unfold ready in Hr0; rewrite <- Et in Hr0; contradiction
                | eapply (C_lift _ _ tid th); [reflexivity|exact Hth|rewrite Hpc; reflexivity|exact (holder125_C _ HA HB Et)] ]
              | (* 305: the re-arm CAS failed *)
                destruct (d_ws _ HD) as [W0|W1]; [contradiction|];
                eapply (W_to_N_step _ _ tid th); [reflexivity|exact Hth|intros [_ X]; rewrite Hpc in X; discriminate X
                                                 |state_cbn; auto|exact (d_W _ HD W1 Hcl)] ]
    | |- QP _ _ -> _ =>
        intros [Qa Qb]; rewrite Hpc in Qa;
        first [ discriminate Qa
              | match goal with E : _ && _ = false |- _ =>
                  apply andb_false_iff in E; destruct E as [E|E]; zb;
                  [ eapply (C_lift _ _ tid th); [reflexivity|exact Hth|rewrite Hpc; reflexivity|];
                    apply (holder125_C _ HA HB); rewrite <- Qb; exact E
                  | destruct (d_ws _ HD) as [W0|W1]; [contradiction|];
                    eapply (W_to_N_step _ _ tid th); [reflexivity|exact Hth|intros [_ X]; rewrite Hpc in X; discriminate X
                                                     |state_cbn; auto|exact (d_W _ HD W1 Hcl)] ]
                end ]
    | |- QC _ -> _ =>
        intros Qc; unfold QC in Qc; rewrite Hpc in Qc;
        first [ discriminate Qc
              | right; right; right; eapply (ex_thr_self _ _ tid th); [reflexivity|exact Hth|reflexivity]
              | exfalso; match goal with E : cseq _ <> _ |- _ => apply E end;
                rewrite (t_dpos _ _ Tth (or_introl Hpc)); exact Hr0
              | exfalso; match goal with E : max_of _ _ <= 0 |- _ => unfold max_of in E; rewrite Hcur in E; cbn in E;
                  exact (Z.lt_irrefl 0 (Z.lt_le_trans 0 1 0 eq_refl (Z.le_trans 1 _ 0 (d_B _ HD) E))) end ]
    end
  end.
Qed.

Definition always_enabled (p : pcT) : bool :=
  match p with
  | P101 | P102 | P103 | P104 | P105 | P106
  | P121 | P122 | P123 | P124 | P125 | P126
  | P302 | P303 | P304 | P305 | P308 | P313
  | P321 | P322 | P323 | P333 | P339 | P351 => true
  | _ => false
  end.

Lemma always_enabled_step c s tid th :
  cur_ok (pc th) (cur th) = true -> always_enabled (pc th) = true -> tstep c s tid th <> None.
Proof.
  intros Hok Hen. unfold tstep.
  destruct (pc th); try discriminate Hen; clear Hen.
  all: cbv beta iota zeta delta [start_op enq_ret cenqueue try_drain drain_start deq_retn deq_ret0 drain_ret
                                 finish_w finish park].
  all: repeat match goal with |- context [match ?x with _ => _ end] => destruct x end.
  all: first [discriminate | discriminate Hok].
Qed.

Lemma lstepc_enabled c s tid th : thr s tid th -> tstep c s tid th <> None -> lstepc c s tid <> None.
Proof.
  unfold lstepc, thr. intros -> H. destruct (tstep c s tid th) as [[[? ?] ?]|]; [discriminate|contradiction].
Qed.

Lemma enabled_mu_free c s tid th :
  cur_ok (pc th) (cur th) = true -> (pc th = P312 \/ pc th = P332) -> mu s = None -> tstep c s tid th <> None.
Proof.
  intros Hok Hp Hm. unfold tstep. destruct Hp as [Hp|Hp]; rewrite Hp in *; rewrite Hm; cbn [is_none].
  - unfold park. discriminate.
  - destruct (cur th) as [[]|]; cbn in Hok; try discriminate Hok. unfold finish_w, finish. discriminate.
Qed.

Lemma enabled_311 c s tid th : pc th = P311 -> drainMu s = None -> tstep c s tid th <> None.
Proof. intros Hp Hd. unfold tstep. rewrite Hp, Hd. cbn. discriminate. Qed.

Lemma enabled_301 c s tid th :
  pc th = P301 -> wakeTok s = true -> closeCh s = false -> tstep c s tid th <> None.
Proof. intros Hp Ht Hc. unfold tstep. rewrite Hp, Ht, Hc. destruct c; cbn; discriminate. Qed.

Definition responsible (s : gstate) (th : thread) : Prop :=
  cur th = Some OWorker \/ holder (pc th) = true \/ pc th = P351 \/ (pc th = P106 /\ epos th = gtail s).

Definition can_step (c : bool) (s : gstate) : Prop :=
  exists tid th, thr s tid th /\ responsible s th /\ lstepc c s tid <> None.

(* the token holder can step, or waits for the shard lock whose holder can step *)
Lemma holder_progress c s t :
  invA s -> drainMu s = Some t -> can_step c s.
Proof.
  intros HA E. pose proof HA as (HT & HDl & HMl).
  pose proof (HDl t E) as Hlt.
  destruct (nth_error (threads s) t) as [th|] eqn:Et; [|apply nth_error_None in Et; arith].
  pose proof (HT _ _ Et) as [Hok Htok Hmu _ _]. pose proof (proj1 Htok E) as Hh.
  destruct (always_enabled (pc th)) eqn:Hen.
  { exists t, th. split; auto. split; [right; left; auto|].
    apply (lstepc_enabled c s t th); auto. apply always_enabled_step; auto. }
  assert (Hp : pc th = P312 \/ pc th = P332) by (destruct (pc th); cbn in Hh, Hen; try discriminate; auto).
  destruct (mu s) as [m|] eqn:Em.
  - pose proof (HMl m eq_refl) as Hlm.
    destruct (nth_error (threads s) m) as [thm|] eqn:Etm; [|apply nth_error_None in Etm; arith].
    pose proof (HT _ _ Etm) as [Hok' _ Hmu' _ _]. pose proof (proj1 Hmu' Em) as Hpm.
    exists m, thm. split; auto. split; [right; right; left; auto|].
    apply (lstepc_enabled c s m thm); auto. apply always_enabled_step; auto. rewrite Hpm. reflexivity.
  - exists t, th. split; auto. split; [right; left; auto|].
    apply (lstepc_enabled c s t th); auto. apply enabled_mu_free; auto.
Qed.

Lemma worker_progress c s tid th :
  invA s -> thr s tid th -> cur th = Some OWorker -> closeCh s = false ->
  (pc th = P301 -> wakeTok s = true) -> can_step c s.
Proof.
  intros HA Hth Hc Hcl H301. pose proof (proj1 HA _ _ Hth) as [Hok Htok _ _ _].
  destruct (always_enabled (pc th)) eqn:Hen.
  { exists tid, th. split; auto. split; [left; auto|].
    apply (lstepc_enabled c s tid th); auto. apply always_enabled_step; auto. }
  rewrite Hc in Hok.
  destruct (pc th) eqn:Hp; cbn in Hok, Hen; try discriminate.
  - exists tid, th. split; auto. split; [left; auto|].
    apply (lstepc_enabled c s tid th); auto. apply enabled_301; auto.
  - destruct (drainMu s) as [t|] eqn:E; [eapply holder_progress; eauto|].
    exists tid, th. split; auto. split; [left; auto|].
    apply (lstepc_enabled c s tid th); auto. apply enabled_311; auto.
  - eapply holder_progress; eauto. apply Htok. reflexivity.
Qed.

Record inv4 (s : gstate) : Prop := { i4_A : invA s; i4_B : invB s; i4_D : invD s }.

Lemma inv4_reachable f n B scripts s :
  2 <= n -> 1 <= B -> wf_scripts scripts -> reachable (init_scripts f n B scripts) s -> inv4 s.
Proof.
  intros Hn HB Hwf H. induction H as [|s c tid s' o H IH Hs].
  - split; [apply invA_init; auto | apply invB_init; auto | apply invD_init; auto].
  - destruct IH as [HA HBB HD]. split;
      [eapply invA_step; eauto | eapply invB_step; eauto | eapply invD_step; eauto].
Qed.

Theorem no_lost_wake f n B scripts s :
  2 <= n -> 1 <= B -> wf_scripts scripts -> reachable (init_scripts f n B scripts) s ->
  cseq (cell_at s (tail s)) = tail s + 1 -> drainMu s = None -> closeCh s = false ->
  wakeTok s = true
  \/ (exists tid th, thr s tid th /\ cur th = Some OWorker /\ wsetN (pc th) = true)
  \/ (exists tid th, thr s tid th /\ pc th = P106 /\ epos th = tail s).
Proof.
  intros Hn HB Hwf H Hpub Hd Hcl. destruct (inv4_reachable _ _ _ _ _ Hn HB Hwf H) as [HA HBB HD].
  pose proof (b_notok _ HBB Hd) as Ht.
  assert (Hr : ready s) by (unfold ready; rewrite <- Ht; exact Hpub).
  destruct (d_N _ HD Hr Hcl) as [X|[X|[X|(t & th & Hth & Hq)]]]; auto.
  - right. right. rewrite Ht. exact X.
  - exfalso. pose proof (proj1 HA _ _ Hth) as [_ Htok _ _ _].
    assert (Hh : holder (pc th) = true) by (unfold QC in Hq; destruct (pc th); cbn in *; auto; discriminate).
    apply Htok in Hh. congruence.
Qed.

(* wakeState = 1 means a token is pending or a worker is on its way to clear it *)
Theorem wake_state_sound f n B scripts s :
  2 <= n -> 1 <= B -> wf_scripts scripts -> reachable (init_scripts f n B scripts) s ->
  wakeState s = 1 -> closeCh s = false ->
  wakeTok s = true \/ exists tid th, thr s tid th /\ cur th = Some OWorker /\ wsetW (pc th) = true.
Proof.
  intros Hn HB Hwf H. apply (d_W _ (i4_D _ (inv4_reachable _ _ _ _ _ Hn HB Hwf H))).
Qed.

(* a published command at the (effective) tail always has a responsible thread that can step:
   the worker, the token holder (or the reader whose shard lock it waits for), or the producer
   about to signal *)
Theorem progress f n B scripts s c :
  2 <= n -> 1 <= B -> wf_scripts scripts -> reachable (init_scripts f n B scripts) s ->
  ready s -> closeCh s = false -> (exists tid th, thr s tid th /\ cur th = Some OWorker) ->
  can_step c s.
Proof.
  intros Hn HB Hwf H Hr Hcl (tw & thw & Hw & Hcw).
  destruct (inv4_reachable _ _ _ _ _ Hn HB Hwf H) as [HA HBB HD].
  destruct (d_N _ HD Hr Hcl) as [X|[(t & th & Hth & Hc & Hp)|[(t & th & Hth & Hp & He)|(t & th & Hth & Hq)]]].
  - eapply worker_progress; eauto.
  - eapply (worker_progress c s t th); eauto. intros E. rewrite E in Hp. discriminate.
  - exists t, th. split; auto. split; [right; right; right; auto|].
    apply (lstepc_enabled c s t th); auto. apply always_enabled_step.
    + apply (a_cur _ _ _ (proj1 HA _ _ Hth)).
    + rewrite Hp. reflexivity.
  - pose proof (proj1 HA _ _ Hth) as [_ Htok _ _ _].
    assert (Hh : holder (pc th) = true) by (unfold QC in Hq; destruct (pc th); cbn in *; auto; discriminate).
    apply Htok in Hh. eapply holder_progress; eauto.
Qed.

Lemma drain_measure c s tid th s' o :
  invB s -> thr s tid th -> pc th = P125 -> lstepc c s tid = Some (s', o) ->
  tail s' = tail s + 1 /\ head s' = head s.
Proof.
  intros HB Hth Hpc Hs. apply lstepc_inv in Hs as (th0 & s1 & th1 & Hth0 & Hst & ->).
  rewrite (thr_det _ _ _ _ Hth0 Hth) in *. unfold tstep in Hst. rewrite Hpc in Hst.
  pose proof (b_thr _ HB _ _ Hth) as T.
  assert (E1 : dpos th = gtail s) by (apply (t_dpos _ _ T); tauto).
  assert (E2 : tail s = gtail s - 1) by (rewrite (t_tail _ _ T) by (rewrite Hpc; reflexivity); rewrite Hpc; arith).
  destruct (Z.of_nat (length (dbuf th)) <? max_of s th); unfold park in Hst; inversion Hst; subst; cbn; arith.
Qed.

(* Set's wait at 333 (repaired syncMutate) is bounded: the cell the consumer is stuck on is
   reserved by a producer between its head CAS and its publish, and that producer can always step *)
Theorem set_wait_bounded f n B scripts s tid th :
  2 <= n -> 1 <= B -> wf_scripts scripts -> reachable (init_scripts f n B scripts) s ->
  thr s tid th -> pc th = P333 ->
  tail s < starget th /\ starget th <= head s
  /\ (published s (tail s)
      \/ exists t' th', thr s t' th' /\ ownpc (pc th') = true /\ epos th' = tail s
                        /\ forall c, lstepc c s t' <> None).
Proof.
  intros Hn HB Hwf H Hth Hpc. destruct (inv4_reachable _ _ _ _ _ Hn HB Hwf H) as [HA HBB HD].
  pose proof (proj1 HA _ _ Hth) as [Hok _ _ _ _].
  rewrite Hpc in Hok. destruct (cur th) as [[]|] eqn:Hc; cbn in Hok; try discriminate.
  pose proof (d_333 _ HD _ _ Hth Hpc) as H1.
  assert (H2 : starget th <= head s) by (eapply (d_tgt _ HD); eauto; rewrite Hpc; reflexivity).
  assert (H3 : tail s = gtail s).
  { rewrite (t_tail _ _ (b_thr _ HBB _ _ Hth)) by (rewrite Hpc; reflexivity). rewrite Hpc. arith. }
  split; auto. split; auto. rewrite H3.
  destruct (b_cells _ HBB (gtail s)) as [C1 _]; [pose proof (b_n _ HBB); arith|].
  destruct C1 as [Hp|[_ (t' & th' & Ht' & Ho & He)]]; [arith|left; auto|].
  right. exists t', th'. repeat split; auto. intros c.
  apply (lstepc_enabled c s t' th'); auto. apply always_enabled_step.
  - apply (a_cur _ _ _ (proj1 HA _ _ Ht')).
  - destruct (pc th'); cbn in Ho; try discriminate; reflexivity.
Qed.

Lemma cack_cases cm a : In a (cack cm) -> cm = Barrier a \/ cm = ClearCmd a.
Proof. destruct cm; cbn; intros H; [destruct H|destruct H as [H|[]]|destruct H as [H|[]]]; subst; auto. Qed.

Theorem sync_fence f n B scripts s a :
  2 <= n -> wf_scripts scripts -> reachable (init_scripts f n B scripts) s ->
  In a (ackTok s) ->
  exists k, (k < length (qlog s))%nat
    /\ (nth k (resv s) (Write 0) = Barrier a \/ nth k (resv s) (Write 0) = ClearCmd a)
    /\ forall j id, (j < k)%nat -> nth j (resv s) (Write 0) = Write id -> In id (applied s).
Proof.
  intros Hn Hwf H Ha.
  destruct (exactly_once_fifo _ _ _ _ _ Hn Hwf H) as (Hpre & HM & _).
  destruct (inv2_reachable _ _ _ _ _ Hn Hwf H) as [_ HC].
  pose proof (c_ack _ HC _ Ha) as Hin. unfold cacks in Hin. apply in_flat_map in Hin as (cm & Hcm & Hac).
  apply (In_nth _ _ (Write 0)) in Hcm as (k & Hk & Hnth).
  exists k. split; auto. split.
  - rewrite (nth_pre _ _ _ _ _ Hpre Hk), Hnth. apply cack_cases; auto.
  - intros j id Hj Hr. destruct (Merge_incl _ _ _ HM) as [I1 _]. apply I1. apply wids_in.
    rewrite <- Hr. rewrite (nth_pre _ _ _ _ _ Hpre) by arith. apply nth_In. arith.
Qed.

Lemma worker_flag_step c s tid th s1 th1 :
  step c s tid th s1 th1 -> thread_is_worker th1 = true -> thread_is_worker th = true.
Proof.
  intros H. unfold thread_is_worker. step_cases H.
  all: try match goal with |- context [if ?b then _ else _] => destruct b end; thread_cbn.
  all: try exact (fun X => X).
  all: try (match goal with E : script _ = _ :: _ |- _ => rewrite E end; cbn [existsb]).
  all: try (match goal with E : cur _ = _ |- _ => rewrite E end).
  all: try (match goal with E : _ = OSync _ \/ _ |- _ => destruct E as [-> | ->] end).
  all: cbn [op_eqb_worker]; rewrite ?orb_false_r, ?orb_true_r; auto.
  all: intros ->; rewrite ?orb_true_r; reflexivity.
Qed.

Lemma existsb_nth_false {A} (f : A -> bool) l i x :
  existsb f l = false -> nth_error l i = Some x -> f x = false.
Proof.
  revert i; induction l as [|y l IH]; intros [|i] H E; cbn in *; try discriminate.
  - inversion E; subst. apply orb_false_iff in H. tauto.
  - apply orb_false_iff in H. eapply IH; eauto. tauto.
Qed.

Lemma existsb_upd_false {A} (f : A -> bool) l i x :
  existsb f l = false -> f x = false -> existsb f (upd l i x) = false.
Proof.
  revert i; induction l as [|y l IH]; intros [|i] H E; cbn in *; auto.
  - apply orb_false_iff in H. rewrite E. tauto.
  - apply orb_false_iff in H. destruct H as [-> H]. cbn. apply IH; auto.
Qed.

Lemma workers_done_keep s s' tid th th1 :
  thr s tid th -> threads s' = upd (threads s) tid th1 ->
  (thread_is_worker th1 = true -> thread_is_worker th = true) ->
  workers_done s = true -> workers_done s' = true.
Proof.
  unfold workers_done. intros Hth Hthr Himp H. apply negb_true_iff in H. apply negb_true_iff.
  rewrite Hthr. apply existsb_upd_false; auto.
  pose proof (existsb_nth_false _ _ _ _ H Hth) as X.
  destruct (thread_is_worker th1); auto. rewrite Himp in X; auto.
Qed.

Record invE (s : gstate) : Prop := {
  e_once : forall tid th a, thr s tid th -> cur th = Some (OClose a) -> onceHeld s = Some tid;
  e_343 : forall tid th, thr s tid th -> pc th = P343 -> workers_done s = true;
  e_done : onceDone s = true -> workers_done s = true
}.

Lemma invE_init f n B scripts : invE (init_scripts f n B scripts).
Proof.
  constructor; cbn; try discriminate.
  - intros tid th a H. unfold thr in H; cbn in H. apply nth_error_map_thread in H as (l & _ & ->). discriminate.
  - intros tid th H. unfold thr in H; cbn in H. apply nth_error_map_thread in H as (l & _ & ->). discriminate.
Qed.

Lemma e_once_frame s s' tid th th1 :
  invE s -> thr s tid th -> threads s' = upd (threads s) tid th1 ->
  (forall t, t <> tid -> onceHeld s = Some t -> onceHeld s' = Some t) ->
  (forall a, cur th1 = Some (OClose a) -> onceHeld s' = Some tid) ->
  forall t th' a, thr s' t th' -> cur th' = Some (OClose a) -> onceHeld s' = Some t.
Proof.
  intros HE Hth Hthr Ho H1 t th' a H Hc. apply (thr_upd_cases _ _ _ _ _ _ _ Hthr Hth) in H as [[-> ->]|[N H]].
  - eauto.
  - apply Ho; auto. eapply (e_once _ HE); eauto.
Qed.

Lemma e_343_frame s s' tid th th1 :
  invE s -> thr s tid th -> threads s' = upd (threads s) tid th1 ->
  (workers_done s = true -> workers_done s' = true) ->
  (pc th1 = P343 -> workers_done s' = true) ->
  forall t th', thr s' t th' -> pc th' = P343 -> workers_done s' = true.
Proof.
  intros HE Hth Hthr Hw H1 t th' H Hp. apply (thr_upd_cases _ _ _ _ _ _ _ Hthr Hth) in H as [[-> ->]|[N H]].
  - auto.
  - apply Hw. eapply (e_343 _ HE); eauto.
Qed.

Lemma invE_step c s tid s' o : invA s -> invE s -> lstepc c s tid = Some (s', o) -> invE s'.
Proof.
  intros HA HE Hs. apply lstepc_inv in Hs as (th & s1 & th1 & Hth & Hst & ->).
  destruct (proj1 HA _ _ Hth) as [Hok _ _ _ Hwf]. apply tstep_step in Hst; auto.
  pose proof (worker_flag_step _ _ _ _ _ _ Hst) as Hwk.
  destruct (step_frame _ _ _ _ _ _ Hst) as (Hthr & _).
  assert (Hkeep : workers_done s = true -> workers_done (set_threads s1 (upd (threads s1) tid th1)) = true).
  { apply (workers_done_keep s _ tid th th1); auto. cbn. rewrite Hthr. reflexivity. }
  assert (Hup : threads (set_threads s1 (upd (threads s1) tid th1)) = upd (threads s) tid th1)
    by (cbn; rewrite Hthr; reflexivity).
  assert (Hclose : pc th = P343 -> onceHeld s = Some tid).
  { intros E. rewrite E in Hok. destruct (cur th) as [[]|] eqn:Hc; try discriminate Hok.
    apply (e_once _ HE _ _ _ Hth Hc). }
  constructor.
  - apply (e_once_frame s _ tid th th1 HE Hth Hup); clear Hkeep Hwk Hup.
    + step_cases Hst; state_cbn; intros t N X; try exact X.
      all: try (destruct (is_none _); exact X).
      all: try specialize (Hclose ltac:(assumption)); congruence.
    + intros a0 X. step_cases Hst; state_cbn.
      all: try (destruct (closedFlag _)); try discriminate X.
      all: try (destruct (is_none _)); try exact (e_once _ HE _ _ _ Hth X).
      all: try reflexivity.
      all: match goal with E : _ = OSync _ \/ _ |- _ => destruct E as [-> | ->]; discriminate X end.
  - apply (e_343_frame s _ tid th th1 HE Hth Hup Hkeep).
    intros X. apply Hkeep. clear Hkeep Hwk Hup. revert X. step_cases Hst.
    all: try (destruct (closedFlag _)); thread_cbn; try discriminate.
    all: try (destruct (_ <? _)); try discriminate.
    all: auto.
  - intros X. apply Hkeep. clear Hkeep Hwk Hup. revert X. step_cases Hst; state_cbn.
    all: try (destruct (is_none _)); try exact (e_done _ HE).
    intros _. apply (e_343 _ HE _ _ Hth). assumption.
Qed.

Lemma invAE_reachable f n B scripts s :
  wf_scripts scripts -> reachable (init_scripts f n B scripts) s -> invA s /\ invE s.
Proof.
  intros Hwf H. induction H as [|s c tid s' o H IH Hs].
  - split; [apply invA_init; auto | apply invE_init].
  - destruct IH as [HA HE]. split; [eapply invA_step; eauto | eapply invE_step; eauto].
Qed.

(* once closeCh is closed a producer parked at 108 can step: it retries (only if a space token is
   pending and the select picks it) or returns ErrCacheClosed (Close's own flush barrier gives up
   and goes on to 339) *)
Theorem close_releases f n B scripts s c tid th :
  wf_scripts scripts -> reachable (init_scripts f n B scripts) s ->
  thr s tid th -> pc th = P108 -> closeCh s = true ->
  exists s' o, lstepc c s tid = Some (s', o)
    /\ ((o = [101; 0; 0] /\ spaceTok s = true /\ c = false)
        \/ o = [0; 3; 0]
        \/ (o = [339; 0; 0] /\ exists a, cur th = Some (OClose a))).
Proof.
  intros Hwf H Hth Hpc Hcl. destruct (invAE_reachable _ _ _ _ _ Hwf H) as [HA _].
  pose proof (a_cur _ _ _ (proj1 HA _ _ Hth)) as Hok. rewrite Hpc in Hok.
  unfold lstepc. rewrite Hth. unfold tstep. rewrite Hpc, Hcl.
  destruct (cur th) as [[]|] eqn:Hc; cbn in Hok; try discriminate Hok;
    destruct (spaceTok s), c; cbn;
    unfold enq_ret, park, finish_w, finish; rewrite ?Hc; cbn; eauto 10.
Qed.

(* after Close has returned (the Once is done) every worker thread has exited *)
Theorem close_waits_for_workers f n B scripts s :
  wf_scripts scripts -> reachable (init_scripts f n B scripts) s ->
  onceDone s = true -> workers_done s = true.
Proof. intros Hwf H. apply (e_done _ (proj2 (invAE_reachable _ _ _ _ _ Hwf H))). Qed.

(* sync.Once: at most one thread is inside Close; a second Close blocks while the first runs and
   returns at once, touching nothing, after it finished *)
Theorem close_exclusive f n B scripts s t1 t2 th1 th2 a1 a2 :
  wf_scripts scripts -> reachable (init_scripts f n B scripts) s ->
  thr s t1 th1 -> thr s t2 th2 -> cur th1 = Some (OClose a1) -> cur th2 = Some (OClose a2) -> t1 = t2.
Proof.
  intros Hwf H H1 H2 C1 C2. destruct (invAE_reachable _ _ _ _ _ Hwf H) as [_ HE].
  pose proof (e_once _ HE _ _ _ H1 C1). pose proof (e_once _ HE _ _ _ H2 C2). congruence.
Qed.

Lemma close_blocks c s tid th a r t :
  thr s tid th -> pc th = P0 -> cur th = None -> script th = OClose a :: r ->
  onceDone s = false -> onceHeld s = Some t -> lstepc c s tid = None.
Proof.
  intros Hth Hpc Hc Hs Hd Ho. unfold lstepc. rewrite Hth. unfold tstep. rewrite Hpc, Hc, Hs.
  unfold start_op. rewrite Hd, Ho. reflexivity.
Qed.

Lemma close_idempotent c s tid th a r :
  thr s tid th -> pc th = P0 -> cur th = None -> script th = OClose a :: r -> onceDone s = true ->
  lstepc c s tid
  = Some (set_threads s (upd (threads s) tid (set_dbuf (set_pc (set_cur (set_cur (set_script th r) (Some (OClose a))) None) P0) [])),
          [0; 0; 0]).
Proof.
  intros Hth Hpc Hc Hs Hd. unfold lstepc. rewrite Hth. unfold tstep. rewrite Hpc, Hc, Hs.
  unfold start_op. rewrite Hd. reflexivity.
Qed.

(* Blocking acquisitions are ordered drainMu then mu:
   - a thread blocked on drainMu.Lock (311, 331) holds neither lock;
   - a thread blocked on mu.Lock holds at most drainMu (312, 332), or nothing (343, 350);
   - the only thread that ever holds mu across a park point is the reader at 351, whose next step
     (the unlock) is always enabled, so it never waits for anything while holding mu;
   - every other use of the two locks on the inline / helper paths is a TryLock that never blocks
     (322, 323, the Get-miss helper and tryDrainShard at the end of an enqueue: all always enabled);
   - a thread blocked on a channel (108 space/closeCh, 301 wake/closeCh, 340 ack/closeCh) or in
     workers.Wait (341) holds neither drainMu nor mu; the Closer holds only the Once there. *)
Definition blocks_on_drainMu (p : pcT) : bool := match p with P311 | P331 => true | _ => false end.
Definition blocks_on_mu (p : pcT) : bool := match p with P312 | P332 | P343 | P350 => true | _ => false end.
Definition blocks_on_chan (p : pcT) : bool := match p with P108 | P301 | P340 | P341 => true | _ => false end.

Theorem lock_order f n B scripts s tid th :
  wf_scripts scripts -> reachable (init_scripts f n B scripts) s -> thr s tid th ->
  (blocks_on_drainMu (pc th) = true -> drainMu s <> Some tid /\ mu s <> Some tid)
  /\ (blocks_on_mu (pc th) = true -> mu s <> Some tid /\ (drainMu s = Some tid <-> (pc th = P312 \/ pc th = P332)))
  /\ (blocks_on_chan (pc th) = true -> drainMu s <> Some tid /\ mu s <> Some tid)
  /\ (mu s = Some tid -> pc th = P351 /\ forall c, lstepc c s tid <> None)
  /\ ((pc th = P322 \/ pc th = P323 \/ pc th = P106) -> forall c, lstepc c s tid <> None).
Proof.
  intros Hwf H Hth. destruct (invAE_reachable _ _ _ _ _ Hwf H) as [HA _].
  pose proof (proj1 HA _ _ Hth) as [Hok Htok Hmu _ _].
  assert (Hen : always_enabled (pc th) = true -> forall c, lstepc c s tid <> None).
  { intros X c. apply (lstepc_enabled c s tid th); auto. apply always_enabled_step; auto. }
  split; [|split; [|split; [|split]]].
  - intros X. split; intros Y.
    + apply Htok in Y. destruct (pc th); discriminate.
    + apply Hmu in Y. rewrite Y in X. discriminate.
  - intros X. split.
    + intros Y. apply Hmu in Y. rewrite Y in X. discriminate.
    + split.
      * intros Y. apply Htok in Y. destruct (pc th); cbn in *; try discriminate; auto.
      * intros [Y|Y]; apply Htok; rewrite Y; reflexivity.
  - intros X. split; intros Y.
    + apply Htok in Y. destruct (pc th); discriminate.
    + apply Hmu in Y. rewrite Y in X. discriminate.
  - intros Y. split; [apply Hmu; auto|]. apply Hen. apply Hmu in Y. rewrite Y. reflexivity.
  - intros [X|[X|X]]; apply Hen; rewrite X; reflexivity.
Qed.

Definition ex_scripts : list (list op) := [[OEnqueue 1; OEnqueue 2; OEnqueue 3]; [OEnqueue 4]; [OWorker]].

(* ring of 2: producer 0 fills the ring, its third enqueue parks at 108 (step disabled), the worker
   dequeues one command and signals space at 126, and the producer is released: it retries from 101
   and laps the ring (position 2 reuses cell 0) without overwriting anything *)
Definition ex_sched_backpressure : list nat :=
  (repeat 0 7 ++ repeat 0 7 ++ [0;0;0;0] ++ repeat 2 12 ++ [0;0;0;0;0;0;0])%nat.

Example backpressure_and_lap :
  let r := run_sched_obs (init_scripts true 2 1 ex_scripts) ex_sched_backpressure in
  snd r =
    [[101;0;0];[102;0;0];[103;0;0];[104;0;0];[105;0;0];[106;0;0];[0;0;0];
     [101;0;0];[102;0;0];[103;0;0];[104;0;0];[105;0;0];[106;0;0];[0;0;0];
     [101;0;0];[102;0;0];[108;0;0];[-2];
     [301;0;0];[302;0;0];[311;0;0];[121;0;0];[122;0;0];[123;0;0];[124;0;0];[125;0;0];[126;0;0];
     [312;0;0];[313;0;0];[121;0;0];
     [101;0;0];[102;0;0];[103;0;0];[104;0;0];[105;0;0];[106;0;0];[0;0;0]]
  /\ head (fst r) = 3 /\ tail (fst r) = 1 /\ applied (fst r) = [1] /\ overwrote (fst r) = false.
Proof. vm_compute. auto 10. Qed.

(* the re-arm CAS: the worker finds position 2 unpublished and goes to 303; the producer publishes;
   the worker clears wakeState (304), sees ready() (305), wins the re-arm CAS (302) and drains the
   command, while the producer's own wake attempt at 106 finds wakeState = 1 and sends nothing *)
Definition ex_sched_rearm : list nat :=
  (repeat 0 7 ++ repeat 0 7 ++ [0;0;0;0] ++ repeat 2 12 ++ [0;0;0;0;0]
   ++ repeat 2 9 ++ [2;2] ++ [0] ++ [2;2;2] ++ [0] ++ repeat 2 12)%nat.

Example rearm_cas :
  let r := run_sched_obs (init_scripts true 2 1 ex_scripts) ex_sched_rearm in
  skipn 42 (snd r) =
    [[121;0;0];[122;0;0];[303;0;0];[304;0;0];[106;0;0];[305;0;0];[302;0;0];[311;0;0];[0;0;0];
     [121;0;0];[122;0;0];[123;0;0];[124;0;0];[125;0;0];[126;0;0];[312;0;0];[313;0;0];[121;0;0];
     [122;0;0];[303;0;0];[304;0;0]]
  /\ applied (fst r) = [1;2;3] /\ wakeTok (fst r) = false /\ head (fst r) = 3 /\ tail (fst r) = 3.
Proof. vm_compute. auto 10. Qed.

Definition op_wid (o : op) : list Z :=
  match o with OSetAsync id | OEnqueue id | OSet id => [id] | _ => [] end.
Definition script_ids (l : list op) : list Z := flat_map op_wid l.
(* the current write is neither reserved nor applied yet *)
Definition pend_pc (p : pcT) : bool := match p with P104 | P105 | P106 => false | _ => true end.
Definition cur_pending (th : thread) : list Z :=
  match cur th with Some o => if pend_pc (pc th) then op_wid o else [] | None => [] end.
Definition th_ids (th : thread) : list Z := cur_pending th ++ script_ids (script th).
Definition remaining (s : gstate) : list Z := flat_map th_ids (threads s).

Notation cnt := (count_occ Z.eq_dec).

Definition invU (s : gstate) : Prop :=
  forall x, (cnt (wids (resv s)) x + cnt (dlog s) x + cnt (remaining s) x <= 1)%nat.

Lemma upd_split {A} (l1 l2 : list A) x y : upd (l1 ++ x :: l2) (length l1) y = l1 ++ y :: l2.
Proof. induction l1 as [|z l1 IH]; cbn; auto. f_equal. auto. Qed.

Lemma remaining_upd s s' tid th th1 x :
  thr s tid th -> threads s' = upd (threads s) tid th1 ->
  (cnt (remaining s') x + cnt (th_ids th) x = cnt (remaining s) x + cnt (th_ids th1) x)%nat.
Proof.
  unfold thr, remaining. intros Hth Hthr. rewrite Hthr.
  apply nth_error_split in Hth as (l1 & l2 & -> & <-). rewrite upd_split.
  rewrite !flat_map_app. cbn [flat_map]. rewrite !count_occ_app. arith.
Qed.

Lemma invU_frame s s' tid th th1 :
  invU s -> thr s tid th -> threads s' = upd (threads s) tid th1 ->
  (forall x, (cnt (wids (resv s')) x + cnt (dlog s') x + cnt (th_ids th1) x
              <= cnt (wids (resv s)) x + cnt (dlog s) x + cnt (th_ids th) x)%nat) ->
  invU s'.
Proof.
  intros HU Hth Hthr H x. specialize (HU x). specialize (H x).
  pose proof (remaining_upd s s' tid th th1 x Hth Hthr). arith.
Qed.

Lemma wid_cmd_of o : cur_ok P103 (Some o) = true -> wid (cmd_of o) = op_wid o.
Proof. destruct o; cbn; auto; discriminate. Qed.

Definition all_script_ids (scripts : list (list op)) : list Z := flat_map script_ids scripts.

Lemma invU_init f n B scripts : NoDup (all_script_ids scripts) -> invU (init_scripts f n B scripts).
Proof.
  intros H x. cbn. unfold remaining. cbn [threads init_scripts init_state].
  assert (E : flat_map th_ids (map thread_of scripts) = all_script_ids scripts).
  { clear H. unfold all_script_ids. induction scripts as [|l r IH]; cbn; auto.
    rewrite IH. reflexivity. }
  rewrite E. rewrite (NoDup_count_occ Z.eq_dec) in H. apply H.
Qed.

Lemma step_ids c s tid th s1 th1 :
  step c s tid th s1 th1 -> cur_ok (pc th) (cur th) = true ->
  forall x, (cnt (wids (resv s1)) x + cnt (dlog s1) x + cnt (th_ids th1) x
             <= cnt (wids (resv s)) x + cnt (dlog s) x + cnt (th_ids th) x)%nat.
Proof.
  intros H Hok x. unfold th_ids, cur_pending, script_ids. step_cases H; state_cbn.
  all: match goal with E : pc _ = _ |- _ => rewrite E in * end; cbn [pend_pc].
  all: try destruct (closedFlag _); try destruct (is_none _); try destruct (_ <? _); state_cbn; cbn [pend_pc].
  all: try (match goal with E : script _ = _ :: _ |- _ => rewrite E end).
  all: try (match goal with E : cur _ = _ |- _ => rewrite E in * end).
  all: try (match goal with E : _ = OSync _ \/ _ |- _ => destruct E as [-> | ->] end).
  all: cbn [flat_map op_wid app]; rewrite ?wids_app, ?count_occ_app; cbn [wids flat_map app].
  all: try apply Nat.le_refl.
  all: try arith.
  all: try rewrite (wid_cmd_of _ Hok); rewrite ?count_occ_app; cbn [count_occ]; try arith.
  all: try (match goal with X : barrier_op _ |- _ => destruct X as (? & [X|[X|X]]); rewrite X end).
  all: cbn [count_occ op_wid app]; repeat destruct (Z.eq_dec _ _); arith.
Qed.

Lemma invU_step c s tid s' o : invA s -> invU s -> lstepc c s tid = Some (s', o) -> invU s'.
Proof.
  intros HA HU Hs. apply lstepc_inv in Hs as (th & s1 & th1 & Hth & Hst & ->).
  destruct (proj1 HA _ _ Hth) as [Hok _ _ _ Hwf]. apply tstep_step in Hst; auto.
  destruct (step_frame _ _ _ _ _ _ Hst) as (Hthr & _).
  apply (invU_frame s _ tid th th1 HU Hth); [cbn; rewrite Hthr; reflexivity|].
  apply (step_ids _ _ _ _ _ _ Hst Hok).
Qed.

Lemma invAU_reachable f n B scripts s :
  wf_scripts scripts -> NoDup (all_script_ids scripts) ->
  reachable (init_scripts f n B scripts) s -> invA s /\ invU s.
Proof.
  intros Hwf Hnd H. induction H as [|s c tid s' o H IH Hs].
  - split; [apply invA_init; auto | apply invU_init; auto].
  - destruct IH as [HA HU]. split; [eapply invA_step; eauto | eapply invU_step; eauto].
Qed.

Theorem exactly_once f n B scripts s :
  2 <= n -> wf_scripts scripts -> NoDup (all_script_ids scripts) ->
  reachable (init_scripts f n B scripts) s -> NoDup (applied s).
Proof.
  intros Hn Hwf Hnd H.
  destruct (exactly_once_fifo _ _ _ _ _ Hn Hwf H) as (_ & _ & Himp & _). apply Himp.
  destruct (invAU_reachable _ _ _ _ _ Hwf Hnd H) as [_ HU].
  apply (NoDup_count_occ Z.eq_dec). intros x. specialize (HU x). rewrite count_occ_app. arith.
Qed.

