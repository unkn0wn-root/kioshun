(* IndexLts.v — executable model of the HTTP middleware's path index vs its backing cache.
   Model only (no proofs).  Theorems are in IndexLtsProofs.v.

   Go code modelled (httpcache/middleware.go), for keys that have a path and with pattern invalidation enabled (other
   keys bypass the index).  The locks that store and Clear take around their steps are not here but in IndexLocked.v:
   this file is the lock-free skeleton, and hypothesis H below is what the locks enforce.
     store(key,resp):   A: patternIdx.addKey(path,key,resp)         (index: key -> resp, overwrites)
                        B: cache.Set(key,resp)                      (outcome: accepted (+displaced victims) | rejected | error(closed))
                        B': on error: patternIdx.removeKeyByIdentity(path,key,resp)
     onCacheRemove(key,resp): removeKeyByIdentity  — run by ONE notifier goroutine (label LDeliver); modelled as one
                        FIFO queue (the cache stages removals per shard and delivers shard by shard, so only the
                        order within a shard is the order of removal)
     Invalidate(pattern): 1: snapshot of matching index keys; then one cache.Delete per snapshot key
     Clear():           1: cache.Clear() (silent)   2: patternIdx.clear()
     Close():           cache.Close(): closed flag + silent clear of the cache (Cache.Close -> clearDirect, no notifications)

   Keys and identities are Z.  Path matching is abstracted: OInvalidate carries the list ks of ALL universe keys whose
   path matches the pattern (matching is verified in TrieProofs). *)
From KV Require Import Base.

(* ------------------------------------------------------------------ *)
(* association lists as functional maps (at most one binding per key) *)

Definition amap := list (Z * Z).

Fixpoint get (k : Z) (m : amap) : option Z :=
  match m with
  | [] => None
  | (k', v) :: r => if k' =? k then Some v else get k r
  end.

Definition rem (k : Z) (m : amap) : amap := filter (fun p => negb (fst p =? k)) m.
Definition set (k v : Z) (m : amap) : amap := (k, v) :: rem k m.
Definition dom (m : amap) : list Z := map fst m.

Fixpoint memZ (k : Z) (l : list Z) : bool :=
  match l with [] => false | x :: r => (x =? k) || memZ k r end.

(* removeKeyByIdentity: delete only if the key still holds exactly this identity *)
Definition rem_id (k id : Z) (m : amap) : amap :=
  match get k m with
  | Some v => if v =? id then rem k m else m
  | None => m
  end.

(* ------------------------------------------------------------------ *)
(* scripts, threads, state *)

Inductive op :=
| OStore (k id : Z)
| ODelete (k : Z)
| OInvalidate (ks : list Z)
| OClear
| OClose.

Inductive pc :=
| PIdle                        (* between two operations *)
| PStoreB (k id : Z)           (* store: step A done, step B (cache.Set) pending *)
| PStoreB' (k id : Z)          (* store: Set returned an error, step B' (remove own identity) pending *)
| PInv (snap : list Z)         (* invalidate: snapshot taken, these Deletes pending *)
| PClear2.                     (* clear: cache cleared, index clear pending *)

Record thread := mkT { t_pc : pc; t_script : list op }.

Record state := mkS {
  idx : amap;                  (* pattern index: key -> identity *)
  cache : amap;                (* backing cache: key -> identity *)
  notes : list (Z * Z);        (* FIFO queue of pending removal notifications (key, identity) *)
  closed : bool;
  threads : list thread
}.

Inductive outcome := Accept (victims : list Z) | Reject.

Inductive label :=
| LT (tid : nat) (o : outcome)   (* thread tid performs its next atomic step; o is used only by step B *)
| LEvict (k : Z)                 (* environment: resident k leaves the cache (capacity / expiry) *)
| LDeliver.                      (* environment: the notifier delivers the head of the queue *)

(* ------------------------------------------------------------------ *)
(* primitive effects (shared by the LTS and the stream wrapper) *)

Definition set_threads (s : state) (ts : list thread) : state :=
  mkS (idx s) (cache s) (notes s) (closed s) ts.

(* index: addKey / removeKeyByIdentity / clear *)
Definition do_addkey (k id : Z) (s : state) : state :=
  mkS (set k id (idx s)) (cache s) (notes s) (closed s) (threads s).
Definition do_remid (k id : Z) (s : state) : state :=
  mkS (rem_id k id (idx s)) (cache s) (notes s) (closed s) (threads s).
Definition do_idxclear (s : state) : state :=
  mkS [] (cache s) (notes s) (closed s) (threads s).

(* cache: removal of a resident key with notification (Delete, eviction, expiry, displacement) *)
Definition do_remove (k : Z) (s : state) : state :=
  match get k (cache s) with
  | Some id => mkS (idx s) (rem k (cache s)) (notes s ++ [(k, id)]) (closed s) (threads s)
  | None => s
  end.
Definition resident (k : Z) (s : state) : bool :=
  match get k (cache s) with Some _ => true | None => false end.

(* displacement of the victims of an accepted Set of key k (the key itself is never its own victim) *)
Fixpoint do_displace (k : Z) (vs : list Z) (s : state) : state :=
  match vs with
  | [] => s
  | v :: r => if v =? k then do_displace k r s else do_displace k r (do_remove v s)
  end.

(* cache.Set accepted: victims displaced (notified), key holds id (old identity replaced silently) *)
Definition do_set_accept (k id : Z) (vs : list Z) (s : state) : state :=
  let s1 := do_displace k vs s in
  mkS (idx s1) (set k id (cache s1)) (notes s1) (closed s1) (threads s1).
(* cache.Set rejected by admission: old identity replaced silently, new one dropped with notification (allowed here
   whether or not k was resident: an over-approximation; the stream wrapper below has no op for it) *)
Definition do_set_reject (k id : Z) (s : state) : state :=
  mkS (idx s) (rem k (cache s)) (notes s ++ [(k, id)]) (closed s) (threads s).
(* cache.Clear: silent *)
Definition do_cacheclear (s : state) : state :=
  mkS (idx s) [] (notes s) (closed s) (threads s).
(* cache.Close: closed flag, silent clear *)
Definition do_close (s : state) : state :=
  mkS (idx s) [] (notes s) true (threads s).

(* notifier: pop the head, removeKeyByIdentity *)
Definition do_deliver (s : state) : option state :=
  match notes s with
  | [] => None
  | (k, id) :: r => Some (mkS (rem_id k id (idx s)) (cache s) r (closed s) (threads s))
  end.

(* getMatchingKeys: snapshot of the index keys among the matching universe keys *)
Definition snapshot (ks : list Z) (s : state) : list Z :=
  filter (fun k => memZ k ks) (dom (idx s)).

(* ------------------------------------------------------------------ *)
(* the transition function *)

Fixpoint upd {A} (i : nat) (x : A) (l : list A) : list A :=
  match l, i with
  | [], _ => []
  | _ :: r, O => x :: r
  | y :: r, S i' => y :: upd i' x r
  end.

(* one atomic step of a thread: new shared state (threads field untouched) and the thread's new local state *)
Definition tstep (s : state) (t : thread) (o : outcome) : option (state * thread) :=
  match t_pc t with
  | PIdle =>
      match t_script t with
      | [] => None
      | OStore k id :: r => Some (do_addkey k id s, mkT (PStoreB k id) r)          (* step A *)
      | ODelete k :: r => Some (do_remove k s, mkT PIdle r)
      | OInvalidate ks :: r => Some (s, mkT (PInv (snapshot ks s)) r)              (* step 1 *)
      | OClear :: r => Some (do_cacheclear s, mkT PClear2 r)                       (* step 1 *)
      | OClose :: r => Some (do_close s, mkT PIdle r)
      end
  | PStoreB k id =>                                                               (* step B *)
      if closed s then Some (s, mkT (PStoreB' k id) (t_script t))
      else match o with
           | Accept vs => Some (do_set_accept k id vs s, mkT PIdle (t_script t))
           | Reject => Some (do_set_reject k id s, mkT PIdle (t_script t))
           end
  | PStoreB' k id => Some (do_remid k id s, mkT PIdle (t_script t))               (* step B' *)
  | PInv [] => Some (s, mkT PIdle (t_script t))
  | PInv (k :: r) => Some (do_remove k s, mkT (PInv r) (t_script t))              (* one Delete *)
  | PClear2 => Some (do_idxclear s, mkT PIdle (t_script t))                       (* step 2 *)
  end.

Definition step (s : state) (l : label) : option state :=
  match l with
  | LT i o =>
      match nth_error (threads s) i with
      | None => None
      | Some t =>
          match tstep s t o with
          | None => None
          | Some (s1, t1) => Some (set_threads s1 (upd i t1 (threads s)))
          end
      end
  | LEvict k => if resident k s then Some (do_remove k s) else None
  | LDeliver => do_deliver s
  end.

Definition init (scripts : list (list op)) : state :=
  mkS [] [] [] false (map (mkT PIdle) scripts).

Inductive reachable (s0 : state) : state -> Prop :=
| R_init : reachable s0 s0
| R_step s l s' : reachable s0 s -> step s l = Some s' -> reachable s0 s'.

Fixpoint exec (s : state) (ls : list label) : option state :=
  match ls with
  | [] => Some s
  | l :: r => match step s l with Some s' => exec s' r | None => None end
  end.

(* ------------------------------------------------------------------ *)
(* hypothesis H: no two stores of the same key overlap; no store overlaps a Clear's two steps *)

Definition store_key (p : pc) : option Z :=
  match p with PStoreB k _ | PStoreB' k _ => Some k | _ => None end.
Definition is_clear2 (p : pc) : bool := match p with PClear2 => true | _ => false end.

(* p and q (local states of two DIFFERENT threads) violate H *)
Definition conflict (p q : pc) : bool :=
  match store_key p with
  | Some k => match store_key q with Some k' => k =? k' | None => is_clear2 q end
  | None => false
  end.

Definition H (s : state) : Prop :=
  forall i j ti tj, i <> j ->
    nth_error (threads s) i = Some ti -> nth_error (threads s) j = Some tj ->
    conflict (t_pc ti) (t_pc tj) = false.

(* executable version *)
Definition pc_at (s : state) (i : nat) : pc :=
  match nth_error (threads s) i with Some t => t_pc t | None => PIdle end.
Definition Hb (s : state) : bool :=
  let n := length (threads s) in
  forallb (fun i => forallb (fun j => (i =? j)%nat || negb (conflict (pc_at s i) (pc_at s j))) (seq 0 n)) (seq 0 n).

(* reachable through states that all satisfy H *)
Inductive reachableH (s0 : state) : state -> Prop :=
| RH_init : reachableH s0 s0
| RH_step s l s' : reachableH s0 s -> step s l = Some s' -> H s' -> reachableH s0 s'.

(* exec that also checks Hb after every step *)
Fixpoint execH (s : state) (ls : list label) : option state :=
  match ls with
  | [] => Some s
  | l :: r => match step s l with
              | Some s' => if Hb s' then execH s' r else None
              | None => None
              end
  end.

(* no store / invalidate / clear in flight: every thread is between two operations *)
Definition idle_pc (p : pc) : bool := match p with PIdle => true | _ => false end.
Definition all_idle (s : state) : bool := forallb (fun t => idle_pc (t_pc t)) (threads s).
Definition quiescent (s : state) : Prop := all_idle s = true /\ notes s = [].

(* identities are fresh per store *)
Definition op_ids (o : op) : list Z := match o with OStore _ id => [id] | _ => [] end.
Definition script_ids (sc : list op) : list Z := flat_map op_ids sc.
Definition wf_scripts (scripts : list (list op)) : Prop := NoDup (flat_map script_ids scripts).

(* ------------------------------------------------------------------ *)
(* stream wrapper for differential testing (sequential driver, no threads)

   ops:  [1;k;id]  store step A (addKey)                         output []
         [2;k;id]  store step B, outcome Accept []               output []   (on a closed cache: B error + B')
         [3]       deliver ALL pending notifications             output []
         [4;k]     cache.Delete k                                output [1] / [0]  (was resident)
         [5;k1;..] whole Invalidate, matching universe keys k1.. output [n] = number removed
         [6]       whole Clear                                   output []
         [7]       observation                                   output sorted (dom idx) ++ [-1] ++ sorted (dom cache)
         other     state unchanged                               output [-9]                                   *)

Fixpoint insertZ (x : Z) (l : list Z) : list Z :=
  match l with
  | [] => [x]
  | y :: r => if x <=? y then x :: l else y :: insertZ x r
  end.
Fixpoint sortZ (l : list Z) : list Z :=
  match l with [] => [] | x :: r => insertZ x (sortZ r) end.

(* drain the notification queue (fuel = queue length; each delivery pops one) *)
Fixpoint deliver_n (n : nat) (s : state) : state :=
  match n with
  | O => s
  | S n' => match do_deliver s with Some s' => deliver_n n' s' | None => s end
  end.
Definition deliver_all (s : state) : state := deliver_n (length (notes s)) s.

(* Invalidate's delete loop over a snapshot: final state and number removed *)
Fixpoint delete_loop (snap : list Z) (s : state) (n : Z) : state * Z :=
  match snap with
  | [] => (s, n)
  | k :: r => delete_loop r (do_remove k s) (if resident k s then n + 1 else n)
  end.
Definition invalidate (ks : list Z) (s : state) : state * Z := delete_loop (snapshot ks s) s 0.

Definition ix_init (cfg : list Z) : state := mkS [] [] [] false [].

Definition ix_step (s : state) (o : list Z) : state * list Z :=
  match o with
  | [1; k; id] => (do_addkey k id s, [])
  | [2; k; id] => if closed s then (do_remid k id s, []) else (do_set_accept k id [] s, [])
  | [3] => (deliver_all s, [])
  | [4; k] => (do_remove k s, [b2z (resident k s)])
  | 5 :: ks => let '(s', n) := invalidate ks s in (s', [n])
  | [6] => (do_idxclear (do_cacheclear s), [])
  | [7] => (s, sortZ (dom (idx s)) ++ [-1] ++ sortZ (dom (cache s)))
  | _ => (s, [-9])
  end.

Definition ix_run (cfg : list Z) (ops : list (list Z)) : list (list Z) := run_out ix_step (ix_init cfg) ops.
