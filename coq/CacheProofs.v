(* Cache-level theorems over CacheModel.v, on top of the shard-level libraries ClassicProofs.v (LRU / LFU / FIFO)
   and SieveProofs.v (SieveTinyLFU).  A shard satisfies PolicyOK whatever its policy; a cache satisfies CacheInv for an
   arbitrary fixed placement function shard_of.  Every operation is a composition of steps of single shards (ShStep)
   put back into the cache; the result is a successor (Next), which keeps CacheInv, the configuration and StatInv.
   The typed machine cop / cstep is the integer-encoded cache_step.  C01: results against the lossy-map reference
   [latest] (Agree); C03: budgets; C10: size, cost and the statistics counters. *)
Require Import KV.Base KV.Gen.Consts KV.ConfigModel KV.ConfigProofs KV.CacheModel KV.CacheLists.
Require KV.ClassicProofs KV.SieveProofs.
From Coq Require Import Permutation.
Module CP := KV.ClassicProofs.
Module SP := KV.SieveProofs.
Open Scope Z_scope.

(* reduce field projections of the model's record updaters, nothing else *)
Ltac sf :=
  cbn [cap costcap tabk lst lfu prob main hand pcap mcap pmin pmax size scost staged evs pend
       admits rejects ghosthits promos pevicts mevicts serr glog nlog
       sh_set sh_ghost sh_err sh_evs sh_stats sh_caps sh_lists set_hand bump].

(* Stat = static fields (nothing to do with StatInv / stat_step below, which are about the statistics counters): what no
   shard function changes, the two capacities and the queue of pending commands; an error code, once set, stays *)
Definition Stat (s s' : shard) : Prop :=
  cap s' = cap s /\ costcap s' = costcap s /\ pend s' = pend s /\ (serr s' = 0 -> serr s = 0).

Lemma Stat_refl s : Stat s s.
Proof. unfold Stat. tauto. Qed.
Lemma Stat_trans a b c : Stat a b -> Stat b c -> Stat a c.
Proof. unfold Stat. intros (A1 & A2 & A3 & A4) (B1 & B2 & B3 & B4). repeat split; try congruence. tauto. Qed.

Lemma Stat_err s c : c <> 0 -> Stat s (sh_err s c).
Proof.
  intros Hc. unfold Stat. sf. repeat split. destruct (serr s =? 0) eqn:E; [intros; contradiction|tauto].
Qed.
Lemma Stat_easy s s' : cap s' = cap s -> costcap s' = costcap s -> pend s' = pend s -> serr s' = serr s -> Stat s s'.
Proof. unfold Stat. intros -> -> -> ->. tauto. Qed.

Ltac stat_easy := apply Stat_easy; reflexivity.

(* A branch of a shard function returns a shard x reached from the input through the Stat facts collected so far, with
   fields other than cap / costcap / pend rewritten and possibly an error code set: Stat_refl, Stat_easy and Stat_err
   composed by transitivity.  stat_fin proves such a [Stat s x]; stat_ret closes the branch [(x, ..) = (s', ..) -> Stat s s']. *)
Ltac stat_fin :=
  first [ apply Stat_refl | stat_easy | (apply Stat_err; lia)
        | eapply Stat_trans; [|apply Stat_err; lia]; stat_fin
        | match goal with H : Stat ?a ?b |- Stat ?a _ => apply (Stat_trans a b _ H); stat_fin end ].
Ltac stat_ret :=
  match goal with |- _ = _ -> Stat _ ?x =>
    let H := fresh in intros H; repeat (apply (f_equal fst) in H; cbn [fst] in H); subst x; stat_fin end.

Lemma Stat_sieve_unlink s k : Stat s (sieve_unlink s k).
Proof. unfold sieve_unlink. destruct (has_key (main s) k); [stat_fin|]. destruct (has_key (prob s) k); stat_fin. Qed.

Lemma Stat_drop_item e s it r s' ok d : drop_item e s it r = (s', ok, d) -> Stat s s'.
Proof.
  unfold drop_item. destruct (negb (unpub it) && negb (memz (tabk s) (key it))); [stat_ret|].
  intros H; injection H as <- _ _. destruct (is_sieve s (e_pol e)); [|stat_easy].
  pose proof (Stat_sieve_unlink s (key it)) as (A & B & C & D). unfold Stat. sf. repeat split; assumption.
Qed.

Lemma Stat_pop_ev s kind s' a : 0 <= kind -> pop_ev s kind = (s', a) -> Stat s s'.
Proof. intros Hk. unfold pop_ev. destruct (evs s) as [|[k x] r]; [stat_ret|]. destruct (k =? kind); stat_ret. Qed.

Lemma Stat_apply_adapts fuel : forall s, Stat s (apply_adapts fuel s).
Proof.
  induction fuel as [|f IH]; intros s; cbn [apply_adapts]; [apply Stat_refl|].
  destruct (evs s) as [|[k a] r]; [apply Stat_refl|].
  destruct (k =? evAdapt); [|apply Stat_refl].
  destruct ((pmin s <=? a) && (a <=? pmax s)); [|stat_fin].
  eapply Stat_trans; [|apply IH]. stat_easy.
Qed.
Lemma Stat_adapts s : Stat s (adapts s).
Proof. apply Stat_apply_adapts. Qed.

Lemma Stat_evict_one e s s' d : evict_one e s = (s', d) -> Stat s s'.
Proof.
  unfold evict_one. destruct (e_pol e =? policyLFU).
  - destruct (lfu s) as [|b r] eqn:EL; [stat_ret|].
    destruct (pop_ev s evLfu) as [s1 v] eqn:EP. apply Stat_pop_ev in EP; [|unfold evLfu; lia].
    destruct v as [vk|]; [|stat_ret].
    destruct (negb (memz (lfu_min_bucket (lfu s1)) vk)); [stat_ret|]. cbv zeta. sf.
    match goal with |- context [find_item ?l vk] => destruct (find_item l vk) as [it|] end; [|stat_ret].
    match goal with |- context [drop_item ?e0 ?s0 it reasonCapacity] =>
      destruct (drop_item e0 s0 it reasonCapacity) as [[s3 ok] dd] eqn:ED end.
    apply Stat_drop_item in ED. intros H; injection H as <- _. eapply Stat_trans; [exact EP|]. eapply Stat_trans; [|exact ED]. stat_easy.
  - destruct (last_item (lst s)) as [it|]; [|stat_ret].
    match goal with |- context [drop_item ?e0 ?s0 it reasonCapacity] =>
      destruct (drop_item e0 s0 it reasonCapacity) as [[s3 ok] dd] eqn:ED end. apply Stat_drop_item in ED. stat_ret.
Qed.

Lemma Stat_evict_while fuel e pre add : forall s acc s' acc', evict_while fuel e s pre add acc = (s', acc') -> Stat s s'.
Proof.
  induction fuel as [|f IH]; intros s acc s' acc'; cbn [evict_while]; [stat_ret|].
  destruct ((if pre then would_over s add else over_capacity s) && (0 <? zlen (tabk s))); [|stat_ret].
  destruct (evict_one e s) as [s1 d] eqn:E1. intros H. eapply Stat_trans; [eapply Stat_evict_one; eauto|eapply IH; eauto].
Qed.

Lemma Stat_apply_classic e s k v ex c s' cm d : apply_classic e s k v ex c = (s', cm, d) -> Stat s s'.
Proof.
  unfold apply_classic. destruct (lookup s (e_pol e) k) as [old|].
  - cbv zeta.
    match goal with |- context [over_capacity ?s1] => set (s1' := s1) end.
    assert (S1 : Stat s s1') by stat_easy.
    destruct (over_capacity s1'); [|stat_ret].
    destruct (evict_while (S (length (tabk s1'))) e s1' false 0 0) as [s2 d2] eqn:EW. apply Stat_evict_while in EW. stat_ret.
  - destruct (evict_while (S (length (tabk s))) e s true c 0) as [s1 d1] eqn:EW. apply Stat_evict_while in EW. stat_ret.
Qed.

Lemma Stat_promote s it : Stat s (promote s it).
Proof. unfold promote. destruct (has_key (prob s) (key it) && (0 <? mcap s)); stat_fin. Qed.

Lemma Stat_find_victim n : forall s c force s' v, find_victim n s c force = (s', v) -> Stat s s'.
Proof.
  induction n as [|n IH]; intros s c force s' v; cbn [find_victim].
  - destruct force; [destruct (main_candidate s c) as [it|]|]; stat_ret.
  - destruct (main_candidate s c) as [it|]; [|stat_ret].
    destruct (visited it); [|stat_ret]. cbv zeta. intros H. apply IH in H. eapply Stat_trans; [|exact H]. stat_easy.
Qed.

Lemma Stat_find_main_victim s scan force s' v : find_main_victim s scan force = (s', v) -> Stat s s'.
Proof. unfold find_main_victim. destruct (main s); [stat_ret|apply Stat_find_victim]. Qed.

Lemma Stat_drop_prob_victim e s it s' ok d : drop_prob_victim e s it = (s', ok, d) -> Stat s s'.
Proof.
  unfold drop_prob_victim. destruct (drop_item e s it reasonCapacity) as [[s1 ok1] d1] eqn:ED.
  apply Stat_drop_item in ED. destruct ok1; stat_ret.
Qed.

Lemma Stat_evict_probation e s s' p d : evict_probation e s = (s', p, d) -> Stat s s'.
Proof.
  unfold evict_probation. destruct (last_item (prob s)) as [it|]; [|stat_ret].
  destruct ((probationPromotionReuse <=? reuse it) || visited it).
  - intros H; injection H as <- _ _. apply Stat_promote.
  - destruct (drop_prob_victim e s it) as [[s1 ok] d1] eqn:ED. apply Stat_drop_prob_victim in ED. stat_ret.
Qed.

Lemma Stat_evict_main e s inn tie scan force s' ok d : evict_main e s inn tie scan force = (s', ok, d) -> Stat s s'.
Proof.
  unfold evict_main.
  set (inn' := match inn with Some k => if owns s k then Some k else None | None => None end). clearbody inn'.
  destruct (find_main_victim s scan force) as [s1 v] eqn:EF. apply Stat_find_main_victim in EF.
  destruct v as [vk|].
  - match goal with |- (let '(_, _) := ?X in _) = _ -> _ => set (decide := X) end.
    assert (SD : Stat s (fst decide)).
    { unfold decide. destruct inn' as [k|]; [|exact EF]. destruct (k =? vk); [exact EF|].
      destruct (pop_ev s1 evAdmit) as [s2 a] eqn:EP. apply Stat_pop_ev in EP; [|unfold evAdmit; lia]. cbn [fst]. stat_fin. }
    destruct decide as [s2 adm]. cbn [fst] in SD. clear EF.
    destruct (negb adm).
    + destruct inn' as [k|]; [|stat_ret]. destruct (find_q s2 k) as [it|]; [|stat_ret].
      destruct (drop_item e s2 it reasonRejected) as [[s3 ok3] d3] eqn:ED. apply Stat_drop_item in ED. stat_ret.
    + destruct (find_q s2 vk) as [it|]; [|stat_ret].
      destruct (drop_item e s2 it reasonCapacity) as [[s3 ok3] d3] eqn:ED. apply Stat_drop_item in ED.
      destruct ok3; stat_ret.
  - destruct inn' as [k|]; [|stat_ret]. destruct force; [|stat_ret]. destruct (find_q s1 k) as [it|]; [|stat_ret].
    destruct (drop_item e s1 it reasonRejected) as [[s2 ok2] d2] eqn:ED. apply Stat_drop_item in ED. stat_ret.
Qed.

Lemma Stat_force_evict e s s' ok d : force_evict e s = (s', ok, d) -> Stat s s'.
Proof.
  unfold force_evict. destruct (last_item (prob s)) as [it|]; [apply Stat_drop_prob_victim|].
  destruct (main s) eqn:EM; [stat_ret|].
  destruct (find_main_victim s 1 true) as [s1 v] eqn:EF. apply Stat_find_main_victim in EF.
  destruct v as [vk|]; [|stat_ret]. destruct (find_q s1 vk) as [it|]; [|stat_ret].
  destruct (drop_item e s1 it reasonCapacity) as [[s2 ok2] d2] eqn:ED. apply Stat_drop_item in ED. destruct ok2; stat_ret.
Qed.

Lemma Stat_enforce_loop w e : forall s inn tie acc s' inn' tie' a',
  enforce_loop w e s inn tie acc = (s', inn', tie', a') -> Stat s s'.
Proof.
  induction w as [|w IH]; intros s inn tie acc s' inn' tie' a'; cbn [enforce_loop]; [stat_ret|].
  destruct (negb (over_capacity s)); [stat_ret|].
  destruct (evict_probation e s) as [[s1 p] d] eqn:EP. apply Stat_evict_probation in EP.
  destruct ((pcap s <? zlen (prob s)) && negb (zlen (prob s) =? 0)); [destruct p; intros H; apply IH in H; stat_fin|].
  destruct (negb (zlen (main s) =? 0));
    [|destruct (negb (zlen (prob s) =? 0)); [destruct p; intros H; apply IH in H; stat_fin|stat_ret]].
  clear EP. match goal with |- (let '(_, _) := ?X in _) = _ -> _ => set (pk := X) end.
  assert (SK : Stat s (fst pk)).
  { unfold pk. destruct (pop_ev s evKeep) as [s0 a] eqn:EP. apply Stat_pop_ev in EP; [|unfold evKeep; lia].
    destruct (in_probation_below_cap s inn); exact EP. }
  destruct pk as [s0 keep]. cbn [fst] in SK.
  destruct (evict_main e s0 (if keep then None else inn) (if keep then false else tie) defaultMainVictimScan false)
    as [[s2 ok] d2] eqn:EM. apply Stat_evict_main in EM.
  destruct ok; intros H; apply IH in H; stat_fin.
Qed.

Lemma Stat_force_loop fuel e : forall s acc s' a', force_loop fuel e s acc = (s', a') -> Stat s s'.
Proof.
  induction fuel as [|f IH]; intros s acc s' a'; cbn [force_loop]; [stat_ret|].
  destruct (over_capacity s && (0 <? zlen (tabk s))); [|stat_ret].
  destruct (force_evict e s) as [[s1 ok] d] eqn:EF. apply Stat_force_evict in EF.
  destruct ok; [intros H; apply IH in H; eapply Stat_trans; eauto|stat_ret].
Qed.

Lemma Stat_enforce e s inn tie s' d : enforce e s inn tie = (s', d) -> Stat s s'.
Proof.
  unfold enforce.
  destruct (enforce_loop (Z.to_nat maxEvictionWork) e s inn tie 0) as [[[s1 inn1] tie1] a1] eqn:EL.
  apply Stat_enforce_loop in EL.
  destruct (negb (over_capacity s1)); [stat_ret|].
  match goal with |- (match ?X with pair _ _ => _ end) = _ -> _ => set (st2 := X) end.
  assert (S2 : Stat s (fst (fst (fst st2)))).
  { unfold st2. destruct (negb (zlen (prob s1) =? 0)); [|exact EL].
    destruct (evict_probation e s1) as [[s2 p] d2] eqn:EP. apply Stat_evict_probation in EP.
    destruct p; cbn [fst]; stat_fin. }
  destruct st2 as [[[s2 inn2] tie2] a2]. cbn [fst] in S2. clear EL.
  destruct (negb (over_capacity s2)); [stat_ret|].
  match goal with |- (let '(_, _) := ?X in _) = _ -> _ => set (st3 := X) end.
  assert (S3 : Stat s (fst st3)).
  { unfold st3. destruct (negb (zlen (main s2) =? 0)); [|exact S2].
    destruct (evict_main e s2 inn2 tie2 defaultMainVictimScan true) as [[s3 ok3] d3] eqn:EM.
    apply Stat_evict_main in EM. cbn [fst]. stat_fin. }
  destruct st3 as [s3 a3]. cbn [fst] in S3.
  intros H. apply Stat_force_loop in H. stat_fin.
Qed.

Lemma Stat_record_update s k : Stat s (record_update s k).
Proof.
  unfold record_update. destruct (find_item (main s) k) as [it|]; [stat_easy|].
  destruct (find_item (prob s) k) as [it|]; [|apply Stat_refl]. cbv zeta.
  match goal with |- context [if ?b then _ else _] => destruct b end; [|stat_easy].
  eapply Stat_trans; [|apply Stat_promote]. stat_easy.
Qed.

Lemma Stat_apply_sieve e s k v ex c s' cm d : apply_sieve e s k v ex c = (s', cm, d) -> Stat s s'.
Proof.
  unfold apply_sieve. destruct (lookup s (e_pol e) k) as [prev|].
  - cbv zeta.
    match goal with |- context [over_capacity ?x] => set (s3 := x) end.
    assert (S3 : Stat s s3).
    { unfold s3. destruct (warmup s).
      - destruct (has_key (prob s) k); stat_easy.
      - eapply Stat_trans; [|apply Stat_record_update]. destruct (has_key (prob s) k); stat_easy. }
    clearbody s3. destruct (over_capacity s3); [|stat_ret].
    destruct (enforce e s3 None false) as [s4 d4] eqn:EE. apply Stat_enforce in EE. stat_ret.
  - destruct (pop_ev s evGhost) as [sp a] eqn:EP. apply Stat_pop_ev in EP; [|unfold evGhost; lia].
    cbv zeta.
    set (s0 := adapts sp). assert (S0 : Stat s s0) by (eapply Stat_trans; [exact EP|apply Stat_adapts]).
    clearbody s0. clear EP.
    set (gh := negb (warmup s) && match a with Some x => negb (x =? 0) | None => false end). clearbody gh.
    match goal with |- context [if negb (warmup s) || over_capacity ?x then _ else _] => set (s1 := x) end.
    assert (S1 : Stat s s1) by (unfold s1; destruct (gh && (0 <? mcap s0)); stat_fin).
    clearbody s1. clear S0.
    match goal with |- (let '(_, _) := ?X in _) = _ -> _ => set (r := X) end.
    assert (S2 : Stat s (fst r)).
    { unfold r. destruct (negb (warmup s) || over_capacity s1); [|exact S1].
      destruct (enforce e s1 (Some k) gh) as [s2 d2] eqn:EE. apply Stat_enforce in EE. cbn [fst]. stat_fin. }
    destruct r as [s2 d2]. cbn [fst] in S2. clear S1.
    destruct (owns s2 k); stat_ret.
Qed.

Lemma Stat_apply_set e s k v ex c s' cm d : apply_set e s k v ex c = (s', cm, d) -> Stat s s'.
Proof.
  unfold apply_set. destruct (is_sieve s (e_pol e)).
  - intros H. apply Stat_apply_sieve in H. eapply Stat_trans; [apply Stat_adapts|exact H].
  - apply Stat_apply_classic.
Qed.

(* what a reader can see of key k: (value, deadline, cost) *)
Definition view (pol : Z) (s : shard) (k : Z) : option (Z * Z * Z) :=
  match lookup s pol k with Some it => Some (val it, exp it, cost it) | None => None end.

(* The shard invariant for either family of policies; m is the cache's notification mask (which reasons are reported).
   Within budget: always for Sieve / LRU / FIFO; an LFU eviction asks the oracle for its victim (evLfu), and a refused
   event (serr <> 0) stops the eviction loop with the shard still over capacity, hence the guard on the last clause. *)
Definition PolicyOK (pol m : Z) (s : shard) : Prop :=
  0 <= cap s /\ 0 <= costcap s /\
  if is_sieve s pol
  then SP.SInv s /\ SP.Quiet s /\ SP.Ledger s /\ SP.NotifLog m s /\ over_capacity s = false
  else CP.Good pol m s /\ (pol <> policyLFU \/ serr s = 0 -> over_capacity s = false).

(* SieveProofs' lemmas take an env; most read only e_pol, so callers pass [senv policySieve false 0] where stats and mask do not matter *)
Definition senv (pol : Z) (st : bool) (m : Z) : env := {| e_pol := pol; e_stats := st; e_mask := m |}.

Lemma is_sieve_true_inv s pol : is_sieve s pol = true -> pol = policySieve /\ 1 <= cap s.
Proof. unfold is_sieve. lia. Qed.

Inductive PolCase (pol m : Z) (s : shard) : Prop :=
| PolSieve : pol = policySieve -> is_sieve s pol = true -> SP.SInv s -> SP.Quiet s -> SP.Ledger s -> SP.NotifLog m s ->
    over_capacity s = false -> PolCase pol m s
| PolClassic : is_sieve s pol = false -> CP.Good pol m s -> (pol <> policyLFU \/ serr s = 0 -> over_capacity s = false) ->
    PolCase pol m s.

Lemma PolicyOK_case pol m s : PolicyOK pol m s -> PolCase pol m s.
Proof.
  intros (_ & _ & H). destruct (is_sieve s pol) eqn:IS.
  - destruct H as (I & Q & L & N & O). exact (PolSieve _ _ _ (proj1 (is_sieve_true_inv _ _ IS)) IS I Q L N O).
  - destruct H as [G O]. exact (PolClassic _ _ _ IS G O).
Qed.

Lemma PolicyOK_step pol m s s' : PolicyOK pol m s -> cap s' = cap s -> costcap s' = costcap s ->
  (if is_sieve s pol
   then SP.SInv s' /\ SP.Quiet s' /\ SP.Ledger s' /\ SP.NotifLog m s' /\ over_capacity s' = false
   else CP.Good pol m s' /\ (pol <> policyLFU \/ serr s' = 0 -> over_capacity s' = false)) -> PolicyOK pol m s'.
Proof. intros (A & B & _) S1 S2 H. unfold PolicyOK. rewrite S1, S2, (CP.is_sieve_cap s s' pol S1). auto. Qed.

Lemma PolicyOK_pres m e s s' : e_mask e = m -> PolicyOK policySieve m s -> is_sieve s policySieve = true ->
  Stat s s' -> SP.Pres e s s' -> over_capacity s' = false -> PolicyOK policySieve m s'.
Proof.
  intros <- P IS (S1 & S2 & _) (I' & Q' & _ & L' & N') O'. apply (PolicyOK_step _ _ s s' P S1 S2). rewrite IS.
  destruct (PolicyOK_case _ _ _ P) as [_ _ _ Q L N _|IS' _ _]; [auto 6|congruence].
Qed.

Lemma lookup_frame pol s s' k : CP.Frame s s' -> lookup s' pol k = lookup s pol k.
Proof.
  intros [F1 F2 F3 F4 F5 F6 F7 F8 F9 F10 F11 F12 F13]. unfold lookup.
  rewrite F3, F4, F6, F7, (CP.is_sieve_cap s s' pol F1). reflexivity.
Qed.
Lemma view_frame pol s s' k : CP.Frame s s' -> view pol s' k = view pol s k.
Proof. intros F. unfold view. rewrite (lookup_frame pol s s' k F). reflexivity. Qed.

Lemma over_frame s s' : CP.Frame s s' -> over_capacity s' = over_capacity s.
Proof. intros F. apply over_capacity_frame; apply F. Qed.

Lemma tab_view pol m s k : PolicyOK pol m s -> (In k (tabk s) <-> view pol s k <> None).
Proof.
  intros P. unfold view. destruct (PolicyOK_case _ _ _ P) as [-> _ I Q _ _ _|_ (C & _) _].
  - pose proof (SP.lookup_spec (senv policySieve false 0) eq_refl s k I Q) as [_ E]. cbn [e_pol senv] in E.
    rewrite <- E. destruct (lookup s policySieve k); split; congruence.
  - pose proof (CP.lookup_spec pol s k C) as [_ E]. rewrite <- E.
    destruct (lookup s pol k) as [it|]; split; try congruence; [intros _; exists it; reflexivity|intros [x Hx]; discriminate].
Qed.

Definition Sub (pol : Z) (s s' : shard) : Prop := forall k x, view pol s' k = Some x -> view pol s k = Some x.
Lemma Sub_refl pol s : Sub pol s s. Proof. intros k x H; exact H. Qed.
Lemma Sub_trans pol a b c : Sub pol a b -> Sub pol b c -> Sub pol a c.
Proof. intros H1 H2 k x H. apply H1, H2, H. Qed.

Lemma sieve_view s k v ex c : SP.SInv s ->
  (view policySieve s k = Some (v, ex, c) <-> In (k, v, ex, c, false) (map SP.ess (SP.items s))).
Proof.
  intros I. unfold view. rewrite in_map_iff. split.
  - destruct (lookup s policySieve k) as [it|] eqn:L; [|discriminate]. intros X. injection X as <- <- <-.
    destruct (SP.lookup_some (senv policySieve false 0) eq_refl s k it I L) as (Hin & <- & U & _).
    exists it. split; [unfold SP.ess; rewrite U; reflexivity|exact Hin].
  - intros (it & E & Hin). unfold SP.ess in E. injection E as <- <- <- <- U.
    pose proof (SP.lookup_of_in (senv policySieve false 0) eq_refl s it I Hin U) as L. cbn [e_pol senv] in L.
    rewrite L. reflexivity.
Qed.

Lemma sieve_sub s s' : SP.SInv s -> SP.SInv s' -> incl (map SP.ess (SP.items s')) (map SP.ess (SP.items s)) ->
  Sub policySieve s s'.
Proof.
  intros I I' H k [[v ex] c] V. apply (sieve_view s' k v ex c I') in V. apply (sieve_view s k v ex c I), H, V.
Qed.

Lemma PolicyOK_sh_evs pol m s ev pe : PolicyOK pol m s -> PolicyOK pol m (sh_evs s ev pe).
Proof.
  intros P. apply (PolicyOK_step pol m s); [exact P|reflexivity|reflexivity|].
  destruct (PolicyOK_case _ _ _ P) as [_ -> I Q L N O | -> G O]; [auto 6|].
  split; [eapply CP.Good_frame; [apply CP.Frame_sh_evs|exact G]|exact O].
Qed.

(* what take_staged does to a shard: the staged notifications are handed to the notifier *)
Definition unstage (s : shard) : shard :=
  sh_set s (tabk s) (lst s) (lfu s) (prob s) (main s) (hand s) (size s) (scost s) [].

Lemma PolicyOK_unstage pol m s : PolicyOK pol m s -> PolicyOK pol m (unstage s).
Proof.
  intros P. unfold unstage. apply (PolicyOK_step pol m s); [exact P|reflexivity|reflexivity|].
  destruct (PolicyOK_case _ _ _ P) as [_ -> I Q L N O | -> (C & L & N) O]; [auto 6|].
  split; [|exact O]. split; [|split; [exact L|exact N]].
  destruct C as [C1 C2 C3 C4 C5 C6 C7 C8 C9 C10 C11]. constructor; sf; assumption.
Qed.

Lemma Stat_lfu pol s s' : Stat s s' -> pol <> policyLFU \/ serr s' = 0 -> pol <> policyLFU \/ serr s = 0.
Proof. intros (_ & _ & _ & E) [H|H]; [left; exact H|right; exact (E H)]. Qed.

Lemma adapts_frame s : CP.Frame s (adapts s).
Proof. apply CP.apply_adapts_frame. Qed.

Lemma PolicyOK_adapts pol m s : PolicyOK pol m s -> PolicyOK pol m (adapts s).
Proof.
  intros P. pose proof (over_frame _ _ (adapts_frame s)) as OF.
  destruct (PolicyOK_case _ _ _ P) as [-> IS I Q L N O|IS G O].
  - apply (PolicyOK_pres m (senv policySieve false m) s _ eq_refl P IS (Stat_adapts s) (SP.adapts_preserves _ s I)). congruence.
  - destruct (Stat_adapts s) as (S1 & S2 & _). apply (PolicyOK_step pol m s _ P S1 S2). rewrite IS, OF.
    split; [apply CP.adapts_good; exact G|]. intros E. exact (O (Stat_lfu pol _ _ (Stat_adapts s) E)).
Qed.

Lemma view_adapts pol s k : view pol (adapts s) k = view pol s k.
Proof. apply view_frame, adapts_frame. Qed.
Lemma lookup_adapts pol s k : lookup (adapts s) pol k = lookup s pol k.
Proof. apply lookup_frame, adapts_frame. Qed.
Lemma tabk_adapts s : tabk (adapts s) = tabk s.
Proof. apply adapts_frame. Qed.
Lemma glog_adapts s : glog (adapts s) = glog s.
Proof. apply adapts_frame. Qed.
Lemma nlog_adapts s : nlog (adapts s) = nlog s.
Proof. apply adapts_frame. Qed.
Lemma staged_adapts s : staged (adapts s) = staged s.
Proof. apply adapts_frame. Qed.
Lemma costcap_adapts s : costcap (adapts s) = costcap s.
Proof. apply adapts_frame. Qed.

(* apply_set on a well-formed shard: apply_sieve on the well-formed Sieve shard [adapts s], or apply_classic on s *)
Inductive SetCase (pol m : Z) (e : env) (s : shard) (k v ex c : Z) (r : shard * bool * Z) : Prop :=
| SetSieve : pol = policySieve -> is_sieve s pol = true ->
    SP.SInv (adapts s) -> SP.Quiet (adapts s) -> SP.Ledger (adapts s) -> SP.NotifLog m (adapts s) ->
    over_capacity (adapts s) = false -> apply_sieve e (adapts s) k v ex c = r -> SetCase pol m e s k v ex c r
| SetClassic : is_sieve s pol = false -> CP.Good pol m s -> CP.CInv pol s ->
    (pol <> policyLFU \/ serr s = 0 -> over_capacity s = false) ->
    apply_classic e s k v ex c = r -> SetCase pol m e s k v ex c r.

Lemma apply_set_case pol m e s k v ex c r :
  e_pol e = pol -> PolicyOK pol m s -> apply_set e s k v ex c = r -> SetCase pol m e s k v ex c r.
Proof.
  intros Hp P HS. unfold apply_set in HS. rewrite Hp in HS.
  destruct (PolicyOK_case _ _ _ P) as [Es IS _ _ _ _ _|IS G O]; rewrite IS in HS.
  - destruct (PolicyOK_case _ _ _ (PolicyOK_adapts _ _ _ P)) as [_ _ I Q L N O|IS' _ _].
    + exact (SetSieve _ _ _ _ _ _ _ _ _ Es IS I Q L N O HS).
    + rewrite (CP.is_sieve_cap s _ pol (proj1 (Stat_adapts s))) in IS'. congruence.
  - exact (SetClassic _ _ _ _ _ _ _ _ _ IS G (proj1 G) O HS).
Qed.

Lemma apply_set_view pol m e s k v ex c s' cm d :
  e_pol e = pol -> e_mask e = m -> PolicyOK pol m s -> 0 <= c -> apply_set e s k v ex c = (s', cm, d) ->
  forall k' x, view pol s' k' = Some x -> (k' = k /\ x = (v, ex, c)) \/ (k' <> k /\ view pol s k' = Some x).
Proof.
  intros Hp Hm P Hc HS k'. apply (apply_set_case _ _ _ _ _ _ _ _ _ Hp P) in HS. destruct HS as [-> _ I Q _ _ _ HS|_ G C _ HS].
  - (* what s' shows is, up to the flags, the new entry and some of the other items of [adapts s] *)
    intros [[v' ex'] c'] X. rewrite <- view_adapts.
    pose proof (SP.apply_sieve_sum e Hp true _ _ _ _ _ _ _ _ I Q Hc (SP.FuelHyp_true _ _) HS) as AS.
    unfold SP.ASum in AS. rewrite Hp in AS. cbv zeta in AS.
    (* of SP.ASum only the invariant I' and the clause PM are used: the new entry and the other entries of [adapts s] are,
       up to flags and order, the dropped entries dl and the entries of s' *)
    destruct AS as (I' & _ & _ & dl & _ & _ & _ & _ & _ & _ & _ & _ & _ & _ & PM & _).
    apply (sieve_view _ _ _ _ _ I'), in_map_iff in X. destruct X as (it' & E' & Hin).
    set (ins := SP.is_none (lookup (adapts s) policySieve k)) in *.
    pose proof (SP.ess_as_key k ins it') as EK.
    assert (A : In (SP.ess_as k ins it') ((k, v, ex, c, ins) :: map SP.ess (SP.others k (SP.items (adapts s))))).
    { apply (Permutation_in _ (Permutation_sym PM)), in_or_app. right. apply in_map, Hin. }
    unfold SP.ess_as in *. unfold SP.ess in E'. injection E' as <- <- <- <- U.
    destruct A as [A|A].
    + left. rewrite <- A in EK. cbn in EK. rewrite <- EK, Z.eqb_refl in A. split; congruence.
    + right. apply in_map_iff in A. destruct A as (it & Ei & Hi). apply filter_In in Hi. destruct Hi as [Hi NK].
      rewrite <- Ei in EK. replace (key it' =? k) with false in Ei by (cbn in EK; lia).
      split; [cbn in EK; lia|]. apply (sieve_view _ _ _ _ _ I), in_map_iff. exists it. split; [|exact Hi].
      rewrite Ei. unfold SP.ess. rewrite U. reflexivity.
  - intros x. unfold view. destruct (Z.eq_dec k' k) as [->|NK].
    + destruct (lookup s' pol k) as [it'|] eqn:L'; [|discriminate]. intros X. left. split; [reflexivity|].
      injection X as <-. enough (it' = CP.new_item k v ex c) as -> by reflexivity.
      destruct (lookup s pol k) as [old|] eqn:L0.
      * destruct (CP.update_effective pol e s k v ex c s' cm d old Hp C Hc L0 HS) as [[U|U] _]; congruence.
      * destruct (CP.apply_classic_spec pol e s k v ex c s' cm d Hp C Hc HS) as (_ & SPC).
        rewrite (CP.lookup_find _ _ _ C) in L0. rewrite L0 in SPC. destruct SPC as (l & s1 & _ & E1 & _).
        pose proof (CP.apply_classic_good pol m e s k v ex c s' cm d Hp Hm Hc G HS) as (C' & _).
        rewrite (CP.lookup_find _ _ _ C'), E1, CP.find_ins_state, Z.eqb_refl in L'. congruence.
    + destruct (CP.others_unchanged_or_lost pol e s k v ex c s' cm d k' Hp C Hc NK HS) as [U|U]; rewrite U; [|discriminate].
      intros X. right. split; assumption.
Qed.

Lemma apply_set_ok pol m e s k v ex c s' cm d :
  e_pol e = pol -> e_mask e = m -> PolicyOK pol m s -> 0 <= c -> (costcap s = 0 \/ c <= costcap s) ->
  apply_set e s k v ex c = (s', cm, d) ->
  PolicyOK pol m s' /\
  (forall k' x, view pol s' k' = Some x -> (k' = k /\ x = (v, ex, c)) \/ (k' <> k /\ view pol s k' = Some x)).
Proof.
  intros Hp Hm P Hc Hcc HS. split; [|exact (apply_set_view pol m e s k v ex c s' cm d Hp Hm P Hc HS)].
  destruct (Stat_apply_set _ _ _ _ _ _ _ _ _ HS) as (S1 & S2 & _). apply (PolicyOK_step _ _ s s' P S1 S2).
  apply (apply_set_case _ _ _ _ _ _ _ _ _ Hp P) in HS. destruct HS as [-> -> I Q L N O HS| -> G C O HS].
  - rewrite <- (costcap_adapts s) in Hcc.
    destruct (SP.apply_sieve_budget_strong e Hp _ _ _ _ _ _ _ _ I Q O Hc Hcc HS) as (I' & Q' & O' & _).
    subst m. pose proof (SP.apply_sieve_ledger e Hp _ _ _ _ _ _ _ _ I Q Hc L HS).
    pose proof (SP.apply_sieve_notiflog e Hp _ _ _ _ _ _ _ _ I Q Hc N HS). auto 6.
  - split; [exact (CP.apply_classic_good pol m e s k v ex c s' cm d Hp Hm Hc G HS)|].
    apply (CP.apply_classic_budget_strong pol e s k v ex c s' cm d Hp C Hc); [lia|apply P|exact HS].
Qed.

Definition notif1 (m k v r : Z) : list notif :=
  if mask_has m r then [{| nkey := k; nval := v; nreason := r |}] else [].

(* dropping the item found by lookup (expired in Get/Exists/Cleanup, Delete) *)
Lemma lookup_drop_ok pol m e s k it r s' ok d :
  e_pol e = pol -> e_mask e = m -> PolicyOK pol m s -> 0 <= r -> lookup s pol k = Some it ->
  drop_item e s it r = (s', ok, d) ->
  PolicyOK pol m s' /\ ok = true /\ d = (if e_stats e && (r =? reasonCapacity) then 1 else 0) /\ key it = k /\
  view pol s' k = None /\ Sub pol s s' /\
  tabk s' = remz (tabk s) k /\ size s' = size s - 1 /\ scost s' = scost s - cost it /\ 0 <= cost it /\ serr s' = serr s /\
  glog s' = glog s ++ [(10 + r, k, val it)] /\
  nlog s' = nlog s ++ notif1 m k (val it) r /\ staged s' = staged s ++ notif1 m k (val it) r.
Proof.
  intros Hp Hm P Hr LK HD. pose proof (Stat_drop_item _ _ _ _ _ _ _ HD) as ST. pose proof ST as (S1 & S2 & _).
  unfold notif1. destruct (PolicyOK_case _ _ _ P) as [-> IS I Q L N O|IS G O].
  - rewrite <- Hp in LK. destruct (SP.lookup_some e Hp s k it I LK) as (Hin & K & U & _).
    destruct (SP.drop_item_spec e Hp s it r I Hin) as [s2 (D' & _ & PM & T & Z1 & C & _ & GL & NL & SG & SE & _)].
    rewrite HD in D'. injection D' as <- -> ->.
    unfold SP.final_reason, SP.notif_of in *. rewrite U, Hm, K in *. cbn [andb] in *.
    pose proof I as [_ ND _ _ _ Cn _ _ _ _ _]. pose proof (Cn _ Hin) as C0.
    pose proof (proj2 (SP.drop_item_preserves e Hp s it r s' _ _ I Hin Hr HD)) as PR.
    assert (P' : PolicyOK policySieve m s').
    { apply (PolicyOK_pres m e s s' Hm P IS ST PR). unfold over_capacity in *. rewrite S1, S2, Z1, C. lia. }
    split; [exact P'|]. do 3 (split; [reflexivity|]). split.
    { destruct (view policySieve s' k) eqn:V; [|reflexivity].
      assert (H : In k (tabk s')) by (apply (tab_view _ _ _ _ P'); congruence).
      rewrite T in H. destruct (remz_not_self _ _ ND H). }
    split; [|auto 8]. apply (sieve_sub s s' I (proj1 PR)). intros y Hy. apply (Permutation_in _ (Permutation_sym PM)). right. exact Hy.
  - pose proof G as (CI & _). subst pol m.
    destruct (CP.lookup_drop_good e s k it r s' ok d Hr G LK HD) as (G' & -> & ->). pose proof G' as (CI' & _).
    destruct (CP.lookup_resident _ s k it CI LK) as (_ & K & Hkt & _ & C0 & U). rewrite <- K in Hkt.
    destruct (CP.drop_item_rel e s it r s' true _ IS U Hkt HD) as ([D1 D2 D3 D4 D5 D6 D7 D8 D9 D10 D11 D12 D13] & _ & _ & SE & _).
    unfold CP.mk_notif in *. rewrite K in *.
    assert (LK' : forall k', lookup s' (e_pol e) k' = if k' =? k then None else lookup s (e_pol e) k').
    { intros k'. rewrite (CP.lookup_find _ _ _ CI'), (CP.lookup_find _ _ _ CI), D4.
      destruct (Z.eqb_spec k' k) as [->|NK]; [apply CP.find_remove_same, (CP.ci_lst_nodup _ _ CI)|apply CP.find_remove_other, NK]. }
    split.
    { apply (PolicyOK_step _ _ s s' P S1 S2). rewrite IS. split; [exact G'|].
      rewrite SE. intros PP. specialize (O PP). unfold over_capacity in *. rewrite D1, D2, D9, D10. lia. }
    do 3 (split; [reflexivity|]). split; [unfold view; rewrite LK', Z.eqb_refl; reflexivity|].
    split; [|auto 8]. intros k' x. unfold view. rewrite LK'. destruct (k' =? k); [discriminate|tauto].
Qed.

Lemma lookup_drop_shrink pol m e s k it r s' ok d :
  e_pol e = pol -> e_mask e = m -> PolicyOK pol m s -> 0 <= r -> lookup s pol k = Some it ->
  drop_item e s it r = (s', ok, d) ->
  PolicyOK pol m s' /\ ok = true /\ view pol s' k = None /\ Sub pol s s'.
Proof.
  intros Hp Hm P Hr LK HD.
  destruct (lookup_drop_ok pol m e s k it r s' ok d Hp Hm P Hr LK HD) as (P' & OKT & _ & _ & VN & SB & _). auto.
Qed.

Lemma lookup_drop_log pol m e s k it r s' ok d :
  e_pol e = pol -> e_mask e = m -> PolicyOK pol m s -> 0 <= r -> lookup s pol k = Some it ->
  drop_item e s it r = (s', ok, d) ->
  d = (if e_stats e && (r =? reasonCapacity) then 1 else 0) /\ glog s' = glog s ++ [(10 + r, k, val it)].
Proof.
  intros Hp Hm P Hr LK HD.
  destruct (lookup_drop_ok pol m e s k it r s' ok d Hp Hm P Hr LK HD) as (_ & _ & D & _ & _ & _ & _ & _ & _ & _ & _ & G & _). auto.
Qed.

Lemma sub_tabk pol m s s' : PolicyOK pol m s -> PolicyOK pol m s' -> Sub pol s s' ->
  forall k, In k (tabk s') -> In k (tabk s).
Proof.
  intros P P' S k H. apply (tab_view _ _ _ _ P') in H. apply (tab_view _ _ _ _ P).
  destruct (view pol s' k) as [x|] eqn:V; [|congruence]. rewrite (S _ _ V). discriminate.
Qed.

(* the read-hit update of op_get *)
Definition touch (pol : Z) (s : shard) (k : Z) (it : item) : shard :=
  if is_sieve s pol then SP.get_touch s k it else CP.get_hit_upd pol s it k.

Lemma In_replace_item l n y : In y (replace_item l n) -> y = n \/ In y l.
Proof.
  induction l as [|a l IH]; cbn [replace_item]; [tauto|].
  destruct (key a =? key n); cbn [In]; intuition.
Qed.

(* touch only rearranges the policy's lists: with those blanked, the shard is the same *)
Lemma touch_fields pol s k it :
  let s' := touch pol s k it in
  CP.Frame (sh_lists (sh_set s (tabk s) [] [] (prob s) (main s) (hand s) (size s) (scost s) (staged s)) [] [] None)
           (sh_lists (sh_set s' (tabk s') [] [] (prob s') (main s') (hand s') (size s') (scost s') (staged s')) [] [] None) /\
  Stat s s' /\ evs s' = evs s.
Proof.
  cbv zeta. unfold touch, SP.get_touch, CP.get_hit_upd.
  destruct (is_sieve s pol); [destruct (warmup s); [|destruct (has_key (prob s) k)]
                             |destruct (pol =? policyLRU); [|destruct (pol =? policyLFU)]];
    (split; [constructor; reflexivity|split; [stat_fin|reflexivity]]).
Qed.

Lemma touch_ok pol m s k it :
  PolicyOK pol m s -> lookup s pol k = Some it ->
  PolicyOK pol m (touch pol s k it) /\ Sub pol s (touch pol s k it).
Proof.
  intros P LK. destruct (touch_fields pol s k it) as (F & ST & _). cbv zeta in *. pose proof ST as (S1 & S2 & _).
  pose proof (over_capacity_frame _ _ S1 S2 (CP.fr_size _ _ F) (CP.fr_scost _ _ F)) as OV. clear F.
  unfold touch in *. destruct (PolicyOK_case _ _ _ P) as [-> IS I Q L N O|IS G O]; rewrite IS in *.
  - pose proof (SP.get_touch_preserves (senv policySieve false m) eq_refl s k it I LK) as PR.
    split; [apply (PolicyOK_pres m (senv policySieve false m) s _ eq_refl P IS ST PR); congruence|].
    apply (sieve_sub s _ I (proj1 PR)). intros x Hx. apply in_map_iff in Hx. destruct Hx as (y & <- & Hy).
    destruct (SP.lookup_some (senv policySieve false 0) eq_refl s k it I LK) as (Hin & _).
    (* an item of the new queues is an old one or the touched copy of it, which differs from it in its flags only *)
    assert (E : y = set_flags it (reuse it) true (unpub it) \/ In y (SP.items s)).
    { revert Hy. unfold SP.get_touch, SP.items. destruct (warmup s); [tauto|]. cbv zeta.
      destruct (has_key (prob s) k); sf; rewrite !in_app_iff; intros [H|H]; try tauto; apply In_replace_item in H; tauto. }
    destruct E as [->|E]; [exact (in_map SP.ess _ _ Hin)|exact (in_map SP.ess _ _ E)].
  - pose proof (CP.get_hit_good pol m s k it G LK) as G'. split.
    + apply (PolicyOK_step _ _ s _ P S1 S2). rewrite IS, OV. split; [exact G'|].
      intros E. exact (O (Stat_lfu pol _ _ ST E)).
    + intros k' x. unfold view. pose proof G as (C & _). pose proof G' as (C' & _).
      rewrite (CP.lookup_find _ _ _ C'), (CP.lookup_find _ _ _ C).
      rewrite (CP.lookup_find _ _ _ C) in LK. destruct (find_item_some _ _ _ LK) as [_ K].
      unfold CP.get_hit_upd. destruct (pol =? policyLRU); [|destruct (pol =? policyLFU); sf; tauto].
      sf. cbn [find_item]. rewrite K. destruct (Z.eqb_spec k k') as [<-|NK].
      * rewrite LK. tauto.
      * rewrite CP.find_remove_other by congruence. tauto.
Qed.

Lemma clear_shard_ok pol m s : PolicyOK pol m s ->
  let s' := clear_shard pol s in
  PolicyOK pol m s' /\ tabk s' = [] /\ size s' = 0 /\ scost s' = 0 /\ Stat s s' /\ evs s' = evs s /\
  staged s' = staged s /\ nlog s' = nlog s /\ (forall k, view pol s' k = None).
Proof.
  intros P. cbv zeta. split.
  - apply (PolicyOK_step pol m s); [exact P|reflexivity|reflexivity|].
    assert (O' : over_capacity (clear_shard pol s) = false) by (unfold over_capacity, clear_shard; sf; lia).
    destruct (PolicyOK_case _ _ _ P) as [-> -> I Q L N _| -> G _].
    + destruct (SP.clear_shard_preserves (senv policySieve false m) eq_refl m s I Q) as (I' & Q' & L' & N' & _).
      cbn [e_pol senv] in *. auto 6.
    + split; [exact (CP.clear_shard_good pol m s G)|intros _; exact O'].
  - do 3 (split; [reflexivity|]). split; [stat_easy|]. do 2 (split; [reflexivity|]).
    split; [unfold clear_shard; sf; apply app_nil_r|reflexivity].
Qed.

(* Get on one shard: what the lookup finds, and the shard it leaves with the evictions it reports; an expired entry is
   dropped, a hit is touched; both run the pending adapt events afterwards, as op_get does *)
Inductive gout := GMiss | GExpired (it : item) | GHit (it : item).

Definition get_out (pol nw : Z) (s : shard) (k : Z) : gout :=
  match lookup s pol k with None => GMiss | Some it => if expired it nw then GExpired it else GHit it end.

Definition get_sh (e : env) (nw : Z) (s : shard) (k : Z) : shard * Z :=
  match get_out (e_pol e) nw s k with
  | GMiss => (s, 0)
  | GExpired it => let '(s1, _, d) := drop_item e s it reasonExpired in (adapts s1, d)
  | GHit it => (adapts (touch (e_pol e) s k it), 0)
  end.

Lemma get_sh_ok pol m e nw s k : e_pol e = pol -> e_mask e = m -> PolicyOK pol m s ->
  let s' := fst (get_sh e nw s k) in
  PolicyOK pol m s' /\ Sub pol s s' /\ Stat s s'.
Proof.
  intros Hp Hm P. cbv zeta. unfold get_sh, get_out. rewrite Hp.
  assert (AD : forall s1, PolicyOK pol m s1 /\ Sub pol s s1 /\ Stat s s1 ->
               PolicyOK pol m (adapts s1) /\ Sub pol s (adapts s1) /\ Stat s (adapts s1)).
  { intros s1 (P1 & SB & ST). split; [exact (PolicyOK_adapts _ _ _ P1)|].
    split; [intros k' x; rewrite view_adapts; apply SB|exact (Stat_trans _ _ _ ST (Stat_adapts s1))]. }
  destruct (lookup s pol k) as [it|] eqn:LK; [|exact (conj P (conj (Sub_refl _ _) (Stat_refl _)))].
  destruct (expired it nw).
  - destruct (drop_item e s it reasonExpired) as [[s1 ok] d] eqn:DI. apply AD.
    destruct (lookup_drop_shrink pol m e s k it reasonExpired s1 ok d Hp Hm P ltac:(discriminate) LK DI) as (P1 & _ & _ & SB).
    exact (conj P1 (conj SB (Stat_drop_item _ _ _ _ _ _ _ DI))).
  - apply AD. destruct (touch_ok pol m s k it P LK) as (P1 & SB). exact (conj P1 (conj SB (proj1 (proj2 (touch_fields pol s k it))))).
Qed.

(* ghost-log entries tagged 10 + r record a drop for removal reason r; gcnt counts them in one shard *)
Definition gtag (r : Z) (x : Z * Z * Z) : bool := fst (fst x) =? 10 + r.
Definition gcnt (r : Z) (s : shard) : Z := CP.cnt (gtag r) (glog s).

Lemma gcnt_app r s s' l : glog s' = glog s ++ l -> gcnt r s' = gcnt r s + CP.cnt (gtag r) l.
Proof. intros G. unfold gcnt. rewrite G. apply CP.cnt_app. Qed.

Lemma cnt_ext {A} (f g : A -> bool) l : Forall (fun x => f x = g x) l -> CP.cnt f l = CP.cnt g l.
Proof. induction 1 as [|x l E _ IH]; cbn [CP.cnt]; [reflexivity|]. rewrite E, IH. reflexivity. Qed.

Lemma cnt_none {A} (f : A -> bool) l : Forall (fun x => f x = false) l -> CP.cnt f l = 0.
Proof. induction 1 as [|x l E _ IH]; cbn [CP.cnt]; [reflexivity|]. rewrite E, IH. reflexivity. Qed.

Lemma gcnt_dents r dl : CP.cnt (gtag r) (map SP.dent dl) = Z.of_nat (length (filter (fun p => snd p =? r) dl)).
Proof.
  induction dl as [|p dl IH]; [reflexivity|]. cbn [map CP.cnt filter]. rewrite IH. unfold gtag, SP.dent. cbn [fst].
  destruct (Z.eqb_spec (snd p) r), (Z.eqb_spec (10 + snd p) (10 + r)); cbn [length]; lia.
Qed.

(* the ghost log of a Set: the entries of the write (tags 0, 1), and drops for capacity or, in Sieve, rejection *)
Lemma apply_set_counts pol m e s k v ex c s' cm d :
  e_pol e = pol -> e_mask e = m -> PolicyOK pol m s -> 0 <= c ->
  apply_set e s k v ex c = (s', cm, d) ->
  d = (if e_stats e then gcnt reasonCapacity s' - gcnt reasonCapacity s else 0) /\
  gcnt reasonExpired s' = gcnt reasonExpired s.
Proof.
  intros Hp Hm P Hc HS. apply (apply_set_case _ _ _ _ _ _ _ _ _ Hp P) in HS. destruct HS as [-> _ I Q _ _ _ HS|_ _ CI _ HS].
  - destruct (SP.apply_sieve_reasons e Hp _ _ _ _ _ _ _ _ I Q Hc HS) as (dl & G & _ & _ & R & D).
    rewrite glog_adapts in G. rewrite !(gcnt_app _ _ _ _ G), !CP.cnt_app.
    assert (W : forall r, 0 <= r -> CP.cnt (gtag r) (match lookup (adapts s) (e_pol e) k with
                   | Some prev => [(1, k, val prev); (0, k, v)] | None => [(0, k, v)] end) = 0).
    { intros r Hr. destruct (lookup (adapts s) (e_pol e) k); unfold gtag; cbn [CP.cnt fst];
        rewrite !(proj2 (Z.eqb_neq _ _)) by lia; reflexivity. }
    rewrite !W by discriminate. split; [rewrite D, gcnt_dents; destruct (e_stats e); lia|].
    rewrite cnt_none; [lia|]. apply Forall_map. eapply Forall_impl; [|exact R].
    intros p ([X|X] & _); unfold gtag, SP.dent; cbn [fst]; rewrite X; reflexivity.
  - destruct (CP.apply_classic_counters pol e s k v ex c s' cm d Hp CI Hc HS) as (delta & G & D & F & _).
    (* a drop logged by a classic Set is a capacity drop *)
    rewrite !(gcnt_app _ _ _ _ G), (cnt_none (gtag reasonExpired) delta), (cnt_ext (gtag reasonCapacity) CP.is_dropped delta).
    + split; [rewrite D; destruct (e_stats e); lia|lia].
    + eapply Forall_impl; [|exact F]. intros [[t k0] v0] H. unfold gtag, CP.is_dropped in *. cbn [fst] in *.
      destruct (Z.leb_spec 10 t); [rewrite H by reflexivity; apply Z.eqb_refl|apply Z.eqb_neq; unfold reasonCapacity; lia].
    + eapply Forall_impl; [|exact F]. intros [[t k0] v0] H. unfold gtag, CP.is_dropped in *. cbn [fst] in *.
      apply Z.eqb_neq. intros ->. discriminate (H eq_refl).
Qed.

Lemma drop_counts pol m e s k it r s' ok d :
  e_pol e = pol -> e_mask e = m -> PolicyOK pol m s -> 0 < r -> lookup s pol k = Some it ->
  drop_item e s it r = (s', ok, d) ->
  d = 0 /\ gcnt reasonCapacity s' = gcnt reasonCapacity s /\
  gcnt reasonExpired s' = gcnt reasonExpired s + (if r =? reasonExpired then 1 else 0).
Proof.
  intros Hp Hm P Hr LK HD.
  destruct (lookup_drop_log pol m e s k it r s' ok d Hp Hm P (Z.lt_le_incl _ _ Hr) LK HD) as (D & G).
  rewrite !(gcnt_app _ _ _ _ G). unfold gtag, reasonCapacity, reasonExpired in *. cbn [CP.cnt fst].
  split; [rewrite D; replace (r =? 0) with false by lia; rewrite andb_false_r; reflexivity|].
  replace (10 + r =? 10 + 0) with false by lia. split; [lia|].
  destruct (Z.eqb_spec r 2), (Z.eqb_spec (10 + r) (10 + 2)); lia.
Qed.

Lemma gcnt_adapts r s : gcnt r (adapts s) = gcnt r s.
Proof. unfold gcnt. rewrite glog_adapts. reflexivity. Qed.

Lemma gcnt_touch r pol s k it : gcnt r (touch pol s k it) = gcnt r s.
Proof. exact (f_equal (CP.cnt (gtag r)) (CP.fr_glog _ _ (proj1 (touch_fields pol s k it)))). Qed.

Lemma get_sh_counts pol m e nw s k : e_pol e = pol -> e_mask e = m -> PolicyOK pol m s ->
  snd (get_sh e nw s k) = 0 /\
  gcnt reasonCapacity (fst (get_sh e nw s k)) = gcnt reasonCapacity s /\
  gcnt reasonExpired (fst (get_sh e nw s k)) =
    gcnt reasonExpired s + (match get_out pol nw s k with GExpired _ => 1 | _ => 0 end).
Proof.
  intros Hp Hm P. unfold get_sh, get_out. rewrite Hp. destruct (lookup s pol k) as [it|] eqn:LK; [|cbn [fst snd]; lia].
  destruct (expired it nw).
  - destruct (drop_item e s it reasonExpired) as [[s1 ok] d] eqn:DI. cbn [fst snd].
    destruct (drop_counts pol m e s k it reasonExpired s1 ok d Hp Hm P eq_refl LK DI) as (A & B & C).
    rewrite !gcnt_adapts, Z.eqb_refl in *. auto.
  - cbn [fst snd]. rewrite !gcnt_adapts, !gcnt_touch. lia.
Qed.

(* Cleanup of one shard: each step keeps the relation of the accumulator to the shard the fold started from *)
Lemma cleanup_fold_ok pol m e nw : e_pol e = pol -> e_mask e = m ->
  forall ks s ev ex s' ev' ex', PolicyOK pol m s ->
  fold_left (cleanup_shard e nw) ks (s, ev, ex) = (s', ev', ex') ->
  PolicyOK pol m s' /\ Sub pol s s' /\ Stat s s' /\
  ev' = ev /\ gcnt reasonCapacity s' = gcnt reasonCapacity s /\
  ex' = ex + (if e_stats e then gcnt reasonExpired s' - gcnt reasonExpired s else 0).
Proof.
  intros Hp Hm ks s ev ex s' ev' ex' P H.
  set (Q := fun a : shard * Z * Z => let '(s1, ev1, ex1) := a in
    PolicyOK pol m s1 /\ Sub pol s s1 /\ Stat s s1 /\ ev1 = ev /\ gcnt reasonCapacity s1 = gcnt reasonCapacity s /\
    ex1 = ex + (if e_stats e then gcnt reasonExpired s1 - gcnt reasonExpired s else 0)).
  assert (STEP : forall a k, Q a -> Q (cleanup_shard e nw a k)).
  { intros [[s1 ev1] ex1] k QA. unfold cleanup_shard. rewrite Hp.
    destruct (lookup s1 pol k) as [it|] eqn:LK; [|exact QA]. destruct (expired it nw); [|exact QA].
    destruct QA as (P1 & SB & ST & EV & GC & EX). destruct (drop_item e s1 it reasonExpired) as [[s2 ok] d] eqn:DI.
    destruct (lookup_drop_shrink pol m e s1 k it reasonExpired _ _ _ Hp Hm P1 ltac:(discriminate) LK DI) as (P2 & -> & _ & SB2).
    destruct (drop_counts pol m e s1 k it reasonExpired s2 _ d Hp Hm P1 eq_refl LK DI) as (-> & B & C).
    rewrite Z.eqb_refl in C. split; [exact P2|]. split; [exact (Sub_trans _ _ _ _ SB SB2)|].
    split; [exact (Stat_trans _ _ _ ST (Stat_drop_item _ _ _ _ _ _ _ DI))|]. split; [lia|]. split; [congruence|].
    cbn [andb]. destruct (e_stats e); lia. }
  assert (Q0 : Q (s, ev, ex)).
  { split; [exact P|]. split; [apply Sub_refl|]. split; [apply Stat_refl|]. destruct (e_stats e); repeat split; lia. }
  change (Q (s', ev', ex')). rewrite <- H. clear H. revert Q0. generalize (s, ev, ex).
  induction ks as [|k ks IH]; intros a QA; [exact QA|exact (IH _ (STEP _ _ QA))].
Qed.

Lemma gcnt_clear r pol s : r >= 0 -> gcnt r (clear_shard pol s) = gcnt r s.
Proof.
  intros Hr. rewrite (gcnt_app r s (clear_shard pol s) _ eq_refl), cnt_none; [lia|].
  apply Forall_map, Forall_forall. intros it _. unfold gtag. cbn [fst]. apply Z.eqb_neq. lia.
Qed.

Lemma length_set_nth {A} (l : list A) i x : length (set_nth l i x) = length l.
Proof. revert i; induction l as [|a l IH]; intros [|i]; cbn [set_nth length]; auto. Qed.

Lemma nth_error_set_nth_neq {A} (l : list A) i j x : i <> j -> nth_error (set_nth l i x) j = nth_error l j.
Proof.
  revert i j; induction l as [|a l IH]; intros [|i] [|j] N; cbn [set_nth nth_error]; try reflexivity; try congruence.
  apply IH. congruence.
Qed.

Lemma In_set_nth {A} (l : list A) i x y : In y (set_nth l i x) -> y = x \/ In y l.
Proof.
  revert i; induction l as [|a l IH]; intros [|i]; cbn [set_nth In]; try tauto.
  - intuition.
  - intros [H|H]; [tauto|]. destruct (IH _ H); tauto.
Qed.

Lemma map_set_nth {A B} (f : A -> B) (l : list A) i x y :
  nth_error l i = Some y -> f x = f y -> map f (set_nth l i x) = map f l.
Proof.
  revert i; induction l as [|a l IH]; intros [|i]; cbn [set_nth nth_error map]; try discriminate.
  - intros H E; injection H as ->. rewrite E. reflexivity.
  - intros H E. rewrite (IH _ H E). reflexivity.
Qed.

Lemma set_nth_same {A} (l : list A) i y : nth_error l i = Some y -> set_nth l i y = l.
Proof.
  revert i; induction l as [|a l IH]; intros [|i]; cbn [set_nth nth_error]; try discriminate.
  - intros H; injection H as ->. reflexivity.
  - intros H. rewrite (IH _ H). reflexivity.
Qed.

Record Cfg (c c' : cache) : Prop := {
  cf_policy : policy c' = policy c; cf_nshards : nshards c' = nshards c; cf_defttl : defttl c' = defttl c;
  cf_stats : statsOn c' = statsOn c; cf_mask : mask c' = mask c; cf_track : trackCost c' = trackCost c;
  cf_len : length (shards c') = length (shards c);
  cf_caps : map cap (shards c') = map cap (shards c);
  cf_costcaps : map costcap (shards c') = map costcap (shards c) }.

Lemma Cfg_refl c : Cfg c c.
Proof. constructor; reflexivity. Qed.
Lemma Cfg_trans a b c : Cfg a b -> Cfg b c -> Cfg a c.
Proof. intros [] []. constructor; congruence. Qed.

Lemma Cfg_put c sh s s1 h m ev ex :
  get_shard c sh = Some s -> cap s1 = cap s -> costcap s1 = costcap s -> Cfg c (put_shard c sh s1 h m ev ex).
Proof.
  intros G C1 C2. unfold get_shard in G. constructor; cbn [put_shard policy nshards defttl statsOn mask trackCost shards]; try reflexivity.
  - apply length_set_nth.
  - eapply map_set_nth; eauto.
  - eapply map_set_nth; eauto.
Qed.

Lemma Cfg_with_shards c l cl t :
  length l = length (shards c) -> map cap l = map cap (shards c) -> map costcap l = map costcap (shards c) ->
  Cfg c (with_shards c l cl t).
Proof. intros. constructor; cbn; auto. Qed.

Lemma get_put_other c sh s1 h m ev ex j : Z.to_nat sh <> j ->
  nth_error (shards (put_shard c sh s1 h m ev ex)) j = nth_error (shards c) j.
Proof. intros N. cbn [put_shard shards]. apply nth_error_set_nth_neq. exact N. Qed.

Lemma get_put_eq c sh s s1 h m ev ex : get_shard c sh = Some s ->
  nth_error (shards (put_shard c sh s1 h m ev ex)) (Z.to_nat sh) = Some s1.
Proof. intros G. cbn [put_shard shards]. eapply nth_error_set_nth_eq. exact G. Qed.

Lemma sumZ_set_nth (f : shard -> Z) l i s s1 : nth_error l i = Some s ->
  sumZ (map f (set_nth l i s1)) = sumZ (map f l) - f s + f s1.
Proof.
  revert i; induction l as [|a l IH]; intros [|i]; cbn [nth_error set_nth map sumZ]; try discriminate.
  - intros H; injection H as ->. lia.
  - intros H. rewrite (IH _ H). lia.
Qed.

Lemma sumZ_map_ext {A} (f g : A -> Z) l : (forall x, In x l -> f x = g x) -> sumZ (map f l) = sumZ (map g l).
Proof.
  induction l as [|a l IH]; intros H; cbn [map sumZ]; [reflexivity|].
  rewrite (H a (or_introl eq_refl)), IH; [reflexivity|]. intros x Hx. apply H. right. exact Hx.
Qed.

Lemma put_shard_id c sh s : get_shard c sh = Some s ->
  put_shard c sh s (hits c) (misses c) (evictions c) (expirations c) = c.
Proof. intros G. unfold put_shard. rewrite (set_nth_same _ _ _ G). destruct c; reflexivity. Qed.

Lemma set_nth_set_nth {A} (l : list A) i x y : set_nth (set_nth l i x) i y = set_nth l i y.
Proof. revert i; induction l as [|a l IH]; intros [|i]; cbn [set_nth]; try reflexivity. rewrite IH. reflexivity. Qed.

Lemma put_put c sh s1 s2 h1 m1 e1 x1 h2 m2 e2 x2 :
  put_shard (put_shard c sh s1 h1 m1 e1 x1) sh s2 h2 m2 e2 x2 = put_shard c sh s2 h2 m2 e2 x2.
Proof. unfold put_shard. cbn. rewrite set_nth_set_nth. reflexivity. Qed.

Lemma sh_evs_id s : pend s = [] -> sh_evs s (evs s) [] = s.
Proof. intros E. destruct s; cbn in *. subst. reflexivity. Qed.

(* the queued commands of one shard, applied to the shard itself *)
Fixpoint drain_sh (e : env) (nw : Z) (s : shard) (cmds : list (list Z)) : shard * Z :=
  match cmds with
  | [] => (s, 0)
  | [k; v; ttl; cst] :: r =>
      let '(s1, _, d) := apply_set e s k v (stamp ttl nw) cst in
      let '(s2, d2) := drain_sh e nw s1 r in (s2, d + d2)
  | _ :: r => drain_sh e nw s r
  end.

Lemma apply_cmd_eq c sh k v ttl cst s : get_shard c sh = Some s ->
  apply_cmd c sh k v ttl cst =
  put_shard c sh (fst (fst (apply_set (env_of c) s k v (stamp ttl (now c)) cst))) (hits c) (misses c)
            (evictions c + snd (apply_set (env_of c) s k v (stamp ttl (now c)) cst)) (expirations c).
Proof.
  intros G. unfold apply_cmd. rewrite G.
  destruct (apply_set (env_of c) s k v (stamp ttl (now c)) cst) as [[s1 cm] d]. reflexivity.
Qed.

Lemma drain_cmds_eq : forall cmds c sh s, get_shard c sh = Some s ->
  drain_cmds c sh cmds =
  put_shard c sh (fst (drain_sh (env_of c) (now c) s cmds)) (hits c) (misses c)
            (evictions c + snd (drain_sh (env_of c) (now c) s cmds)) (expirations c).
Proof.
  induction cmds as [|cmd r IH]; intros c sh s G.
  - cbn [drain_cmds drain_sh fst snd]. rewrite Z.add_0_r. symmetry. apply put_shard_id. exact G.
  - destruct cmd as [|k [|v [|ttl [|cst [|x y]]]]]; cbn [drain_cmds drain_sh]; try (apply IH; exact G).
    rewrite (apply_cmd_eq c sh k v ttl cst s G).
    destruct (apply_set (env_of c) s k v (stamp ttl (now c)) cst) as [[s1 cm] d] eqn:E. cbn [fst snd].
    rewrite (IH _ sh s1) by (eapply CP.get_put_same; exact G).
    rewrite put_put. unfold env_of. cbn [put_shard policy statsOn mask now hits misses evictions expirations].
    destruct (drain_sh {| e_pol := policy c; e_stats := statsOn c; e_mask := mask c |} (now c) s1 r) as [s2 d2].
    cbn [fst snd]. rewrite Z.add_assoc. reflexivity.
Qed.

Definition drained (c : cache) (s : shard) : shard * Z :=
  drain_sh (env_of c) (now c) (sh_evs s (evs s) []) (pend s).

Lemma drain_shard_eq c sh s : get_shard c sh = Some s ->
  drain_shard c sh = put_shard c sh (fst (drained c s)) (hits c) (misses c) (evictions c + snd (drained c s)) (expirations c).
Proof.
  intros G. unfold drain_shard, drained. rewrite G. destruct (pend s) as [|cmd r] eqn:E.
  - cbn [drain_sh fst snd]. rewrite Z.add_0_r. rewrite sh_evs_id by exact E. symmetry. apply put_shard_id. exact G.
  - rewrite (drain_cmds_eq _ _ sh (sh_evs s (evs s) [])) by (eapply CP.get_put_same; exact G).
    rewrite put_put. reflexivity.
Qed.

Lemma Stat_drain_sh e nw : forall cmds s, Stat s (fst (drain_sh e nw s cmds)).
Proof.
  induction cmds as [|cmd r IH]; intros s; [apply Stat_refl|].
  destruct cmd as [|k [|v [|ttl [|cst [|x y]]]]]; cbn [drain_sh]; try apply IH.
  destruct (apply_set e s k v (stamp ttl nw) cst) as [[s1 cm] d] eqn:E.
  pose proof (IH s1) as S2. destruct (drain_sh e nw s1 r) as [s2 d2]. cbn [fst] in *.
  eapply Stat_trans; [eapply Stat_apply_set; eauto|exact S2].
Qed.

Lemma Stat_drained c s : cap (fst (drained c s)) = cap s /\ costcap (fst (drained c s)) = costcap s /\
  pend (fst (drained c s)) = [] /\ (serr (fst (drained c s)) = 0 -> serr s = 0).
Proof. destruct (Stat_drain_sh (env_of c) (now c) (pend s) (sh_evs s (evs s) [])) as (A & B & C & D). auto. Qed.

Lemma drained_quiet c s : pend s = [] -> drained c s = (s, 0).
Proof. intros E. unfold drained. rewrite E. cbn [drain_sh]. rewrite sh_evs_id by exact E. reflexivity. Qed.

Lemma env_of_put c sh s h m ev ex : env_of (put_shard c sh s h m ev ex) = env_of c.
Proof. reflexivity. Qed.

Lemma op_set_form c k v ttl cst sh s : get_shard c sh = Some s -> set_check c sh cst = 0 ->
  let AS := apply_set (env_of c) (fst (drained c s)) k v (stamp (norm_ttl c ttl) (now c)) cst in
  op_set c k v ttl cst sh =
  (put_shard c sh (fst (fst AS)) (hits c) (misses c) (evictions c + snd (drained c s) + snd AS) (expirations c), 0).
Proof.
  intros G R. cbv zeta. unfold op_set. rewrite R. cbn [Z.eqb negb].
  rewrite (drain_shard_eq c sh s G).
  rewrite (apply_cmd_eq _ sh k v _ cst (fst (drained c s))) by (eapply CP.get_put_same; exact G).
  rewrite put_put, env_of_put. reflexivity.
Qed.

Lemma op_set_fail c k v ttl cst sh : set_check c sh cst <> 0 -> op_set c k v ttl cst sh = (c, set_check c sh cst).
Proof. intros R. unfold op_set. destruct (set_check c sh cst =? 0) eqn:E; [lia|reflexivity]. Qed.

Lemma op_set_async_form c k v ttl cst sh s : get_shard c sh = Some s -> set_check c sh cst = 0 ->
  op_set_async c k v ttl cst sh =
  (put_shard c sh (sh_evs s (evs s) (pend s ++ [[k; v; norm_ttl c ttl; cst]])) (hits c) (misses c) (evictions c) (expirations c), 0).
Proof. intros G R. unfold op_set_async. rewrite R, G. reflexivity. Qed.

Lemma op_set_async_fail c k v ttl cst sh : set_check c sh cst <> 0 -> op_set_async c k v ttl cst sh = (c, set_check c sh cst).
Proof. intros R. unfold op_set_async. destruct (set_check c sh cst =? 0) eqn:E; [lia|reflexivity]. Qed.

(* the shard Get works on: Sieve misses drain the queue first *)
Definition get_pre (c : cache) (k : Z) (s0 : shard) : shard * Z :=
  if is_sieve s0 (policy c) && negb (memz (tabk s0) k) then drained c s0 else (s0, 0).

(* op_get after the (optional) drain: c0 is the cache it continues with, s the key's shard in c0 *)
Lemma op_get_tail c k sh s0 c0 s : closed c = false -> get_shard c sh = Some s0 ->
  (if is_sieve s0 (policy c) && negb (memz (tabk s0) k) then drain_shard c sh else c) = c0 ->
  get_shard c0 sh = Some s -> is_sieve s0 (policy c) = is_sieve s (policy c0) ->
  let o := get_out (policy c0) (now c0) s k in
  let st := statsOn c0 in
  op_get c k sh =
  (put_shard c0 sh (fst (get_sh (env_of c0) (now c0) s k))
     (match o with GHit _ => if st then hits c0 + 1 else hits c0 | _ => hits c0 end)
     (match o with GHit _ => misses c0 | _ => if st then misses c0 + 1 else misses c0 end)
     (evictions c0 + snd (get_sh (env_of c0) (now c0) s k))
     (match o with GExpired _ => if st then expirations c0 + 1 else expirations c0 | _ => expirations c0 end),
   match o with GHit _ => true | _ => false end,
   match o with GHit it => val it | _ => 0 end,
   match o with GHit it => if exp it =? 0 then -1 else exp it - now c0 | _ => 0 end).
Proof.
  intros CL G E0 G0 ES. cbv zeta. unfold op_get. rewrite CL, G. cbv zeta. rewrite E0, G0, ES.
  unfold get_sh, get_out, touch, SP.get_touch, CP.get_hit_upd. cbn [e_pol env_of].
  destruct (lookup s (policy c0) k) as [it|]; [|cbn [fst snd]; rewrite Z.add_0_r; reflexivity].
  destruct (expired it (now c0)); [destruct (drop_item (env_of c0) s it reasonExpired) as [[s1 ok] d]; reflexivity|].
  cbn [fst snd]. rewrite Z.add_0_r. reflexivity.
Qed.

Lemma op_get_form c k sh s0 : closed c = false -> get_shard c sh = Some s0 ->
  let s := fst (get_pre c k s0) in
  let D := snd (get_pre c k s0) in
  let o := get_out (policy c) (now c) s k in
  let st := statsOn c in
  let G := get_sh (env_of c) (now c) s k in
  op_get c k sh =
  (put_shard c sh (fst G)
     (match o with GHit _ => if st then hits c + 1 else hits c | _ => hits c end)
     (match o with GHit _ => misses c | _ => if st then misses c + 1 else misses c end)
     (evictions c + D + snd G)
     (match o with GExpired _ => if st then expirations c + 1 else expirations c | _ => expirations c end),
   match o with GHit _ => true | _ => false end,
   match o with GHit it => val it | _ => 0 end,
   match o with GHit it => if exp it =? 0 then -1 else exp it - now c | _ => 0 end).
Proof.
  intros CL G. cbv zeta.
  set (c0 := put_shard c sh (fst (get_pre c k s0)) (hits c) (misses c) (evictions c + snd (get_pre c k s0)) (expirations c)).
  rewrite (op_get_tail c k sh s0 c0 (fst (get_pre c k s0)) CL G).
  - unfold c0. rewrite put_put, env_of_put. reflexivity.
  - unfold c0, get_pre. destruct (is_sieve s0 (policy c) && negb (memz (tabk s0) k)).
    + apply drain_shard_eq. exact G.
    + cbn [fst snd]. rewrite Z.add_0_r. symmetry. apply put_shard_id. exact G.
  - eapply CP.get_put_same. exact G.
  - symmetry. apply CP.is_sieve_cap. unfold get_pre. destruct (is_sieve s0 (policy c) && negb (memz (tabk s0) k)); [|reflexivity].
    apply Stat_drained.
Qed.

Lemma op_exists_form c k sh s : closed c = false -> get_shard c sh = Some s ->
  op_exists c k sh =
  match get_out (policy c) (now c) s k with
  | GMiss => (c, false)
  | GHit _ => (c, true)
  | GExpired it =>
     (put_shard c sh (fst (fst (drop_item (env_of c) s it reasonExpired))) (hits c) (misses c)
                (evictions c + snd (drop_item (env_of c) s it reasonExpired))
                (if statsOn c then expirations c + 1 else expirations c), false)
  end.
Proof.
  intros CL G. unfold op_exists, get_out. rewrite CL, G. destruct (lookup s (policy c) k) as [it|]; [|reflexivity].
  destruct (expired it (now c)); [|reflexivity].
  destruct (drop_item (env_of c) s it reasonExpired) as [[s1 ok] d]. reflexivity.
Qed.

Lemma op_delete_form c k sh s0 : closed c = false -> get_shard c sh = Some s0 ->
  let s := fst (drained c s0) in
  let D := snd (drained c s0) in
  op_delete c k sh =
  match lookup s (policy c) k with
  | None => (put_shard c sh s (hits c) (misses c) (evictions c + D) (expirations c), false)
  | Some it =>
     (put_shard c sh (fst (fst (drop_item (env_of c) s it reasonDeleted))) (hits c) (misses c)
                (evictions c + D + snd (drop_item (env_of c) s it reasonDeleted)) (expirations c),
      snd (fst (drop_item (env_of c) s it reasonDeleted)))
  end.
Proof.
  intros CL G. cbv zeta. unfold op_delete. rewrite CL, (drain_shard_eq c sh s0 G).
  rewrite (CP.get_put_same c sh s0 _ _ _ _ _ G). cbn [policy put_shard].
  destruct (lookup (fst (drained c s0)) (policy c) k) as [it|]; [|reflexivity].
  rewrite env_of_put. destruct (drop_item (env_of c) (fst (drained c s0)) it reasonDeleted) as [[s1 ok] d].
  cbn [fst snd]. rewrite put_put. reflexivity.
Qed.

(* the state after [finish]: adapts on every shard, staged notifications taken (only at quiescent points) *)
Definition settle (c : cache) : cache :=
  if quiescent c then fst (take_staged (with_shards c (map adapts (shards c)) (closed c) (now c))) else c.

Lemma finish_state c res : fst (finish c res) = settle c.
Proof.
  unfold finish, settle. destruct (quiescent c); [|reflexivity].
  destruct (take_staged (with_shards c (map adapts (shards c)) (closed c) (now c))) as [c1 ns]. reflexivity.
Qed.

Lemma attach_events_ind (P : cache -> Prop) :
  (forall c sh s kind a, get_shard c sh = Some s -> P c ->
     P (put_shard c sh (sh_evs s (evs s ++ [(kind, a)]) (pend s)) (hits c) (misses c) (evictions c) (expirations c))) ->
  forall l c, P c -> P (attach_events c l).
Proof.
  intros H. assert (K : forall n l c, (length l <= n)%nat -> P c -> P (attach_events c l)).
  { induction n as [|n IH]; intros l c Hl Pc.
    - destruct l; [exact Pc|cbn in Hl; lia].
    - destruct l as [|kind [|sh [|a r]]]; cbn [attach_events]; try exact Pc.
      destruct (get_shard c sh) as [s|] eqn:G.
      + apply IH; [cbn in Hl; lia|]. apply H; assumption.
      + apply IH; [cbn in Hl; lia|exact Pc]. }
  intros l c. apply (K (length l)). apply le_n.
Qed.

Inductive cop :=
| CSet (k v ttl cst sh : Z) | CGet (k sh : Z) | CGetTTL (k sh : Z) | CExists (k sh : Z) | CDelete (k sh : Z)
| CKeys | CClear | CCleanup | CAdvance (d : Z) | CStats | CSetAsync (k v ttl cst sh : Z) | CSync | CClose
| CSieveStats | CShardSizes.

Inductive cres :=
| RCode (r : Z) | RGet (ok : bool) (v : Z) | RGetTTL (ok : bool) (v t : Z) | RBool (b : bool)
| RKeys (l : list Z) | RUnit | RNow (t : Z) | RNums (l : list Z).

(* one operation, preceded by the oracle events recorded for it *)
Definition cstep (c : cache) (op : cop) (ev : list Z) : cache * cres :=
  let c0 := attach_events c ev in
  match op with
  | CSet k v ttl cst sh => let '(c1, r) := op_set c0 k v ttl cst sh in (c1, RCode r)
  | CGet k sh => let '(c1, ok, v, _) := op_get c0 k sh in (c1, RGet ok v)
  | CGetTTL k sh => let '(c1, ok, v, t) := op_get c0 k sh in (c1, RGetTTL ok v (if ok then t else 0))
  | CExists k sh => let '(c1, b) := op_exists c0 k sh in (c1, RBool b)
  | CDelete k sh => let '(c1, b) := op_delete c0 k sh in (c1, RBool b)
  | CKeys => (c0, RKeys (sort_z (op_keys c0)))
  | CClear => (op_clear c0, RUnit)
  | CCleanup => (op_cleanup c0, RUnit)
  | CAdvance d => let c2 := with_shards c0 (shards c0) (closed c0) (now c0 + d) in (c2, RNow (now c2))
  | CStats => (c0, RNums [total_size c0; total_cost c0; hits c0; misses c0; evictions c0; expirations c0])
  | CSetAsync k v ttl cst sh => let '(c1, r) := op_set_async c0 k v ttl cst sh in (c1, RCode r)
  | CSync => if closed c0 then (c0, RCode 3) else (drain_all c0, RCode 0)
  | CClose => (op_close c0, RUnit)
  | CSieveStats => (c0, RNums [sumZ (map admits (shards c0)); sumZ (map rejects (shards c0)); sumZ (map ghosthits (shards c0));
                               sumZ (map promos (shards c0)); sumZ (map pevicts (shards c0)); sumZ (map mevicts (shards c0))])
  | CShardSizes => (c0, RNums (flat_map (fun s => [size s; scost s]) (shards c0)))
  end.

Definition encode_op (op : cop) (ev : list Z) : list Z :=
  match op with
  | CSet k v ttl cst sh => 1 :: k :: v :: ttl :: cst :: sh :: ev
  | CGet k sh => 2 :: k :: sh :: ev
  | CGetTTL k sh => 3 :: k :: sh :: ev
  | CExists k sh => 4 :: k :: sh :: ev
  | CDelete k sh => 5 :: k :: sh :: ev
  | CKeys => 6 :: ev
  | CClear => 7 :: ev
  | CCleanup => 8 :: ev
  | CAdvance d => 9 :: d :: ev
  | CStats => 10 :: ev
  | CSetAsync k v ttl cst sh => 11 :: k :: v :: ttl :: cst :: sh :: ev
  | CSync => 12 :: ev
  | CClose => 13 :: ev
  | CSieveStats => 15 :: ev
  | CShardSizes => 16 :: ev
  end.

Definition encode_res (r : cres) : list Z :=
  match r with
  | RCode r => [r] | RGet ok v => [b2z ok; v] | RGetTTL ok v t => [b2z ok; v; t] | RBool b => [b2z b]
  | RKeys l => l | RUnit => [] | RNow t => [t] | RNums l => l
  end.

Theorem cache_step_cstep c op ev :
  cache_step c (encode_op op ev) = let '(c1, r) := cstep c op ev in finish c1 (encode_res r).
Proof.
  destruct op; cbn [encode_op]; unfold cache_step, cstep; cbn [split_args firstn skipn].
  - destruct (op_set (attach_events c ev) k v ttl cst sh) as [c1 r]. reflexivity.
  - destruct (op_get (attach_events c ev) k sh) as [[[c1 ok] v] t]. reflexivity.
  - destruct (op_get (attach_events c ev) k sh) as [[[c1 ok] v] t]. reflexivity.
  - destruct (op_exists (attach_events c ev) k sh) as [c1 b]. reflexivity.
  - destruct (op_delete (attach_events c ev) k sh) as [c1 b]. reflexivity.
  - reflexivity.
  - reflexivity.
  - reflexivity.
  - reflexivity.
  - reflexivity.
  - destruct (op_set_async (attach_events c ev) k v ttl cst sh) as [c1 r]. reflexivity.
  - destruct (closed (attach_events c ev)); reflexivity.
  - reflexivity.
  - reflexivity.
  - reflexivity.
Qed.

Definition cstep_full (c : cache) (op : cop) (ev : list Z) : cache * cres :=
  let '(c1, r) := cstep c op ev in (settle c1, r).

Corollary cache_step_state c op ev : fst (cache_step c (encode_op op ev)) = fst (cstep_full c op ev).
Proof.
  rewrite cache_step_cstep. unfold cstep_full. destruct (cstep c op ev) as [c1 r]. rewrite finish_state. reflexivity.
Qed.

(* what one operation adds to Hits / Misses: a Get or GetWithTTL on an open cache (cl: the cache was closed before it) *)
Definition is_close (op : cop) : bool := match op with CClose => true | _ => false end.
Definition hit1 (cl : bool) (op : cop) (r : cres) : Z :=
  if cl then 0 else match op, r with CGet _ _, RGet true _ | CGetTTL _ _, RGetTTL true _ _ => 1 | _, _ => 0 end.
Definition miss1 (cl : bool) (op : cop) (r : cres) : Z :=
  if cl then 0 else match op, r with CGet _ _, RGet false _ | CGetTTL _ _, RGetTTL false _ _ => 1 | _, _ => 0 end.

Lemma set_nth_comm {A} (l : list A) i j x y : i <> j -> set_nth (set_nth l i x) j y = set_nth (set_nth l j y) i x.
Proof.
  revert i j; induction l as [|a l IH]; intros [|i] [|j] N; cbn [set_nth]; try reflexivity; try congruence.
  rewrite IH by congruence. reflexivity.
Qed.

(* run a shard function on shard sh and put the result back, adding the evictions it reports:
   drain_shard, apply_cmd and the enqueueing of SetAsync all have this form *)
Definition on_shard (c : cache) (sh : Z) (f : shard -> shard * Z) : cache :=
  match get_shard c sh with
  | Some s => put_shard c sh (fst (f s)) (hits c) (misses c) (evictions c + snd (f s)) (expirations c)
  | None => c
  end.

(* apply_cmd's shard function: the shard after the Set and the evictions it reports *)
Definition set_sh (e : env) (nw k v ttl cst : Z) (s : shard) : shard * Z :=
  (fst (fst (apply_set e s k v (stamp ttl nw) cst)), snd (apply_set e s k v (stamp ttl nw) cst)).

Definition enq (c : cache) (sh : Z) (cmd : list Z) : cache :=
  on_shard c sh (fun s => (sh_evs s (evs s) (pend s ++ [cmd]), 0)).

Lemma drain_shard_on c sh : drain_shard c sh = on_shard c sh (drained c).
Proof.
  unfold on_shard. destruct (get_shard c sh) as [s|] eqn:G; [exact (drain_shard_eq c sh s G)|].
  unfold drain_shard. rewrite G. reflexivity.
Qed.

Lemma apply_cmd_on c sh k v ttl cst : apply_cmd c sh k v ttl cst = on_shard c sh (set_sh (env_of c) (now c) k v ttl cst).
Proof.
  unfold on_shard. destruct (get_shard c sh) as [s|] eqn:G; [exact (apply_cmd_eq c sh k v ttl cst s G)|].
  unfold apply_cmd. rewrite G. reflexivity.
Qed.

Lemma on_shard_env c sh f : env_of (on_shard c sh f) = env_of c /\ now (on_shard c sh f) = now c.
Proof. unfold on_shard. destruct (get_shard c sh); split; reflexivity. Qed.

Lemma drained_on c sh f : drained (on_shard c sh f) = drained c.
Proof. unfold drained. destruct (on_shard_env c sh f) as [-> ->]. reflexivity. Qed.

Lemma on_shard_idx c a b f : Z.to_nat a = Z.to_nat b -> on_shard c a f = on_shard c b f.
Proof. unfold on_shard, get_shard, put_shard. intros ->. reflexivity. Qed.

Lemma on_shard_ext c sh f g : (forall s, f s = g s) -> on_shard c sh f = on_shard c sh g.
Proof. intros E. unfold on_shard. destruct (get_shard c sh); [rewrite E|]; reflexivity. Qed.

Lemma get_on_other c a b f : Z.to_nat a <> Z.to_nat b -> get_shard (on_shard c a f) b = get_shard c b.
Proof. intros N. unfold on_shard. destruct (get_shard c a); [|reflexivity]. unfold get_shard. apply get_put_other. exact N. Qed.

Lemma on_shard_on c sh f g : on_shard (on_shard c sh f) sh g =
  on_shard c sh (fun s => (fst (g (fst (f s))), snd (f s) + snd (g (fst (f s))))).
Proof.
  unfold on_shard. destruct (get_shard c sh) as [s|] eqn:G; [|rewrite G; reflexivity].
  rewrite (CP.get_put_same c sh s _ _ _ _ _ G), put_put. cbn [fst snd put_shard hits misses evictions expirations].
  rewrite Z.add_assoc. reflexivity.
Qed.

Lemma on_shard_comm c a b f g : Z.to_nat a <> Z.to_nat b ->
  on_shard (on_shard c a f) b g = on_shard (on_shard c b g) a f.
Proof.
  intros N. unfold on_shard at 1 3. rewrite (get_on_other c a b f N), (get_on_other c b a g) by congruence.
  unfold on_shard. destruct (get_shard c a) as [sa|]; destruct (get_shard c b) as [sb|]; try reflexivity.
  unfold put_shard. cbn [shards policy nshards defttl statsOn mask trackCost now closed hits misses evictions expirations].
  rewrite set_nth_comm by exact N. f_equal. lia.
Qed.

(* draining other shards commutes with a step on shard sh whose function depends on the cache through env and clock only *)
Lemma fold_drain_on (F : cache -> shard -> shard * Z) sh : (forall c i g, F (on_shard c i g) = F c) ->
  forall l c, (forall i, In i l -> Z.to_nat i <> Z.to_nat sh) ->
  fold_left drain_shard l (on_shard c sh (F c)) = on_shard (fold_left drain_shard l c) sh (F (fold_left drain_shard l c)).
Proof.
  intros HF. induction l as [|i l IH]; intros c H; cbn [fold_left]; [reflexivity|].
  rewrite !drain_shard_on, drained_on, on_shard_comm by (apply not_eq_sym, H; left; reflexivity).
  rewrite <- (HF c i (drained c)). apply IH. intros j Hj. apply H. right. exact Hj.
Qed.

Lemma fold_drain_get_other l : forall c sh, (forall i, In i l -> Z.to_nat i <> Z.to_nat sh) ->
  get_shard (fold_left drain_shard l c) sh = get_shard c sh.
Proof.
  induction l as [|i l IH]; intros c sh H; cbn [fold_left]; [reflexivity|].
  rewrite IH by (intros j Hj; apply H; right; exact Hj). rewrite drain_shard_on. apply get_on_other, H. left. reflexivity.
Qed.

Lemma drain_sh_app e nw : forall q s k v ttl cst,
  drain_sh e nw s (q ++ [[k; v; ttl; cst]]) =
  (fst (fst (apply_set e (fst (drain_sh e nw s q)) k v (stamp ttl nw) cst)),
   snd (drain_sh e nw s q) + snd (apply_set e (fst (drain_sh e nw s q)) k v (stamp ttl nw) cst)).
Proof.
  induction q as [|cmd q IH]; intros s k v ttl cst.
  - cbn [app drain_sh fst snd]. destruct (apply_set e s k v (stamp ttl nw) cst) as [[s1 cm] d]. cbn. f_equal. lia.
  - destruct cmd as [|k0 [|v0 [|t0 [|c0 [|x y]]]]]; cbn [app drain_sh]; try apply IH.
    destruct (apply_set e s k0 v0 (stamp t0 nw) c0) as [[s1 cm] d]. rewrite IH.
    destruct (drain_sh e nw s1 q) as [s2 d2]. cbn [fst snd]. f_equal. lia.
Qed.

Lemma drain_enq_same c sh k v ttl cst :
  drain_shard (enq c sh [k; v; ttl; cst]) sh = apply_cmd (drain_shard c sh) sh k v ttl cst.
Proof.
  unfold enq. rewrite apply_cmd_on, !drain_shard_on, drained_on, !on_shard_on.
  destruct (on_shard_env c sh (drained c)) as [-> ->]. apply on_shard_ext. intros s. cbn [fst snd].
  unfold drained at 1 2. cbn [sh_evs pend evs]. rewrite drain_sh_app. reflexivity.
Qed.

Lemma zseq_split : forall n z j, (j < n)%nat ->
  zseq z n = zseq z j ++ (z + Z.of_nat j) :: zseq (z + Z.of_nat j + 1) (n - S j).
Proof.
  induction n as [|n IH]; intros z j J; [lia|]. destruct j as [|j].
  - replace (S n - 1)%nat with n by lia. cbn [zseq app Z.of_nat]. f_equal; [lia|f_equal; lia].
  - replace (S n - S (S j))%nat with (n - S j)%nat by lia. cbn [zseq app]. f_equal.
    rewrite (IH (z + 1) j ltac:(lia)). f_equal. f_equal; [lia|]. f_equal; lia.
Qed.

(* the value a queued command list will eventually write for k (last matching command) *)
Fixpoint pend_last (q : list (list Z)) (k : Z) : option Z :=
  match q with
  | [] => None
  | cmd :: r =>
    match pend_last r k with
    | Some v => Some v
    | None => match cmd with [k'; v; _; _] => if k' =? k then Some v else None | _ => None end
    end
  end.

Definition vmap (pol : Z) (s : shard) (k : Z) : option Z :=
  match view pol s k with Some x => Some (fst (fst x)) | None => None end.

(* what the shard will show for k once its queue is drained, if nothing is lost *)
Definition amap (pol : Z) (s : shard) (k : Z) : option Z :=
  match pend_last (pend s) k with Some v => Some v | None => vmap pol s k end.

Definition ASub (pol : Z) (s s' : shard) : Prop := forall k v, amap pol s' k = Some v -> amap pol s k = Some v.

Lemma ASub_refl pol s : ASub pol s s. Proof. intros k v H; exact H. Qed.
Lemma ASub_trans pol a b c : ASub pol a b -> ASub pol b c -> ASub pol a c.
Proof. intros H1 H2 k v H. apply H1, H2, H. Qed.

Lemma ASub_of_Sub pol s s' : pend s' = pend s -> Sub pol s s' -> ASub pol s s'.
Proof.
  intros PE SB k v. unfold amap, vmap. rewrite PE. destruct (pend_last (pend s) k); [tauto|].
  destruct (view pol s' k) as [x|] eqn:V; [|discriminate]. rewrite (SB _ _ V). tauto.
Qed.

Lemma amap_resident pol s k it : lookup s pol k = Some it ->
  exists v, amap pol s k = Some v /\ (pend_last (pend s) k = None -> v = val it).
Proof.
  intros LK. unfold amap, vmap, view. rewrite LK.
  destruct (pend_last (pend s) k) as [v'|]; [exists v'; split; [reflexivity|discriminate]|exists (val it); auto].
Qed.

Lemma pend_last_app q cmd k :
  pend_last (q ++ [cmd]) k =
  match (match cmd with [k'; v; _; _] => if k' =? k then Some v else None | _ => None end) with
  | Some v => Some v | None => pend_last q k end.
Proof.
  induction q as [|c q IH]; cbn [app pend_last].
  - destruct cmd as [|k' [|v [|t [|cs [|x y]]]]]; try reflexivity. destruct (k' =? k); reflexivity.
  - rewrite IH. destruct cmd as [|k' [|v [|t [|cs [|x y]]]]]; try reflexivity. destruct (k' =? k); [reflexivity|].
    reflexivity.
Qed.

Definition upd (L : Z -> option Z) (k : Z) (x : option Z) : Z -> option Z := fun k' => if k' =? k then x else L k'.

(* the shard's eventual map after k was set to x (or deleted, x = None), up to losses *)
Definition AUpd (pol : Z) (s s' : shard) (k : Z) (x : option Z) : Prop :=
  forall k' v', amap pol s' k' = Some v' -> if k' =? k then x = Some v' else amap pol s k' = Some v'.

(* sd is the drained s; s2 comes from sd by a write or a removal at k that may lose other entries *)
Lemma AUpd_drained pol s sd s2 k x : ASub pol s sd -> pend sd = [] -> pend s2 = [] ->
  (forall k' y, view pol s2 k' = Some y -> (k' = k /\ x = Some (fst (fst y))) \/ (k' <> k /\ view pol sd k' = Some y)) ->
  AUpd pol s s2 k x.
Proof.
  intros AS PD P2 V k' v' AM. unfold amap in AM. rewrite P2 in AM. cbn [pend_last] in AM. unfold vmap in AM.
  destruct (view pol s2 k') as [y|] eqn:VY; [|discriminate]. injection AM as <-.
  destruct (V _ _ VY) as [[-> ->]|[NK V0]]; [rewrite Z.eqb_refl; reflexivity|].
  replace (k' =? k) with false by lia. apply AS. unfold amap, vmap. rewrite PD, V0. reflexivity.
Qed.

(* One history entry's effect on the reference map.  An accepted SetAsync (code 0) writes at once although the command is
   only queued: Agree compares L with the queued value too (amap).  A Delete erases whatever it returns, also on a closed
   cache (which holds nothing).  A refused Set / SetAsync changes nothing. *)
Definition lat_step (L : Z -> option Z) (e : cop * cres) : Z -> option Z :=
  match e with
  | (CSet k v _ _ _, RCode r) | (CSetAsync k v _ _ _, RCode r) => if r =? 0 then upd L k (Some v) else L
  | (CDelete k _, _) => upd L k None
  | (CClear, _) | (CClose, _) => fun _ => None
  | _ => L
  end.

(* value of the most recent successful Set/SetAsync of the key; erased by Delete, Clear, Close *)
Definition latest (h : list (cop * cres)) : Z -> option Z := fold_left lat_step h (fun _ => None).

Lemma latest_snoc h e : latest (h ++ [e]) = lat_step (latest h) e.
Proof. unfold latest. rewrite fold_left_app. reflexivity. Qed.

Definition gsum (r : Z) (c : cache) : Z := sumZ (map (gcnt r) (shards c)).

Lemma gsum_put r c sh s s1 h m ev ex : get_shard c sh = Some s ->
  gsum r (put_shard c sh s1 h m ev ex) = gsum r c - gcnt r s + gcnt r s1.
Proof. intros G. unfold gsum. cbn [put_shard shards]. apply sumZ_set_nth. exact G. Qed.

(* statsOn: evictions / expirations count the capacity / expired drops of the ghost logs; stats off: all four stay 0 *)
Definition StatInv (c : cache) : Prop :=
  if statsOn c then evictions c = gsum reasonCapacity c /\ expirations c = gsum reasonExpired c
  else hits c = 0 /\ misses c = 0 /\ evictions c = 0 /\ expirations c = 0.

Lemma op_cleanup_fields c : policy (op_cleanup c) = policy c /\ nshards (op_cleanup c) = nshards c /\
  defttl (op_cleanup c) = defttl c /\ statsOn (op_cleanup c) = statsOn c /\ mask (op_cleanup c) = mask c /\
  trackCost (op_cleanup c) = trackCost c /\ now (op_cleanup c) = now c /\ closed (op_cleanup c) = closed c /\
  hits (op_cleanup c) = hits c /\ misses (op_cleanup c) = misses c.
Proof.
  unfold op_cleanup. destruct (closed c) eqn:CL; [rewrite CL; repeat split; reflexivity|].
  match goal with |- context [fold_left ?f ?l ?a] => destruct (fold_left f l a) as [[l' ev] ex] end.
  cbn. repeat split; try reflexivity.
Qed.

Lemma op_cleanup_counts c : closed c = false -> (forall s, In s (shards c) -> PolicyOK (policy c) (mask c) s) ->
  evictions (op_cleanup c) = evictions c /\
  expirations (op_cleanup c) = expirations c + (if statsOn c then gsum reasonExpired (op_cleanup c) - gsum reasonExpired c else 0) /\
  gsum reasonCapacity (op_cleanup c) = gsum reasonCapacity c.
Proof.
  intros CL POK. pose proof (CP.op_cleanup_shards c CL) as SH. unfold gsum. rewrite SH. clear SH.
  unfold op_cleanup. rewrite CL.
  match goal with |- context [fold_left ?st (shards c) _] => set (step := st) end.
  set (f := CP.cleanup_of (env_of c) (now c)).
  assert (K : forall ss l ev ex, (forall s, In s ss -> PolicyOK (policy c) (mask c) s) ->
     snd (fst (fold_left step ss (l, ev, ex))) = ev /\
     snd (fold_left step ss (l, ev, ex)) =
       ex + (if statsOn c then sumZ (map (gcnt reasonExpired) (map f ss)) - sumZ (map (gcnt reasonExpired) ss) else 0) /\
     sumZ (map (gcnt reasonCapacity) (map f ss)) = sumZ (map (gcnt reasonCapacity) ss)).
  { induction ss as [|s ss IH]; intros l ev ex HP; cbn [fold_left map sumZ fst snd].
    - repeat split; try reflexivity. destruct (statsOn c); lia.
    - unfold step at 2 4.
      pose proof (CP.cleanup_fold_indep (env_of c) (now c) (tabk s) s ev ex 0 0) as E.
      destruct (fold_left (cleanup_shard (env_of c) (now c)) (tabk s) (s, ev, ex)) as [[s1 ev1] ex1] eqn:F1.
      cbn [fst] in E.
      assert (FS : f s = s1) by (unfold f, CP.cleanup_of; rewrite <- E; reflexivity).
      destruct (cleanup_fold_ok (policy c) (mask c) (env_of c) (now c) eq_refl eq_refl _ _ _ _ _ _ _ (HP s (or_introl eq_refl)) F1) as (_ & _ & _ & A & B & C).
      destruct (IH (l ++ [s1]) ev1 ex1 (fun x Hx => HP x (or_intror Hx))) as (A2 & B2 & C2).
      rewrite A2, B2, C2, FS, A, B, C. cbn [e_stats env_of]. repeat split; try reflexivity. destruct (statsOn c); lia. }
  specialize (K (shards c) [] (evictions c) (expirations c) POK).
  destruct (fold_left step (shards c) ([], evictions c, expirations c)) as [[l ev] ex]. cbn [fst snd] in K.
  cbn [evictions expirations]. exact K.
Qed.

Lemma set_check_static c c' sh cst : Cfg c c' -> closed c' = closed c -> set_check c' sh cst = set_check c sh cst.
Proof.
  intros CF CL. unfold set_check. rewrite CL. unfold get_shard.
  pose proof (cf_costcaps _ _ CF) as CC.
  assert (E : option_map costcap (nth_error (shards c') (Z.to_nat sh)) = option_map costcap (nth_error (shards c) (Z.to_nat sh))).
  { rewrite <- !nth_error_map, CC. reflexivity. }
  destruct (nth_error (shards c') (Z.to_nat sh)) as [s'|], (nth_error (shards c) (Z.to_nat sh)) as [s|]; cbn in E; try discriminate; [|reflexivity].
  injection E as ->. reflexivity.
Qed.

Section Placement.
Variable shard_of : Z -> Z.

(* a queued command as set_check accepted it when SetAsync enqueued it: four fields, a cost within the shard's cost
   capacity, a key routed to this shard *)
Definition cmd_ok (i : Z) (s : shard) (cmd : list Z) : Prop :=
  exists k v ttl cst, cmd = [k; v; ttl; cst] /\ 0 <= cst /\ (costcap s = 0 \/ cst <= costcap s) /\ shard_of k = i.

Definition ShardOK (pol m i : Z) (s : shard) : Prop :=
  PolicyOK pol m s /\ Forall (cmd_ok i s) (pend s) /\ (forall k, In k (tabk s) -> shard_of k = i).

(* Clause 3: a closed cache holds nothing and has nothing queued.  op_close drains and clears every shard, and afterwards
   set_check refuses every write; in the Go code a drainer that began before Close could still apply a write to the
   closed cache (finding F15, fixed in the tree the model follows). *)
Definition CacheInv (c : cache) : Prop :=
  Z.of_nat (length (shards c)) = nshards c /\
  (forall i s, nth_error (shards c) i = Some s -> ShardOK (policy c) (mask c) (Z.of_nat i) s) /\
  (closed c = true -> forall s, In s (shards c) -> tabk s = [] /\ pend s = []).

Lemma cmd_ok_costcap i s s' cmd : costcap s' = costcap s -> cmd_ok i s cmd -> cmd_ok i s' cmd.
Proof. unfold cmd_ok. intros ->. tauto. Qed.

Lemma ShardOK_step pol m i s s' :
  ShardOK pol m i s -> PolicyOK pol m s' -> costcap s' = costcap s -> pend s' = pend s ->
  (forall k, In k (tabk s') -> In k (tabk s)) -> ShardOK pol m i s'.
Proof.
  intros (P & F & T) P' C PE TS. split; [exact P'|]. split.
  - rewrite PE. eapply Forall_impl; [|exact F]. intros cmd. apply cmd_ok_costcap. exact C.
  - intros k H. apply T, TS, H.
Qed.

Lemma ShardOK_pend pol m i s ev pe :
  ShardOK pol m i s -> Forall (cmd_ok i s) pe -> ShardOK pol m i (sh_evs s ev pe).
Proof.
  intros (P & F & T) F'. split; [apply PolicyOK_sh_evs; exact P|]. split; [exact F'|exact T].
Qed.

(* One step of one shard (index i, statistics flag st): the shard stays well-formed and keeps its capacities, and the
   evictions d and expirations x that the step reports are, with statistics on, exactly the capacity and expiry drops it
   appended to the ghost log.  Every operation is a composition of such steps put back into the cache. *)
Definition ShStep (pol m : Z) (st : bool) (i : Z) (s s' : shard) (d x : Z) : Prop :=
  ShardOK pol m i s' /\ cap s' = cap s /\ costcap s' = costcap s /\
  d = (if st then gcnt reasonCapacity s' - gcnt reasonCapacity s else 0) /\
  x = (if st then gcnt reasonExpired s' - gcnt reasonExpired s else 0).

Lemma ShStep_refl pol m st i s : ShardOK pol m i s -> ShStep pol m st i s s 0 0.
Proof. intros OK. split; [exact OK|]. repeat split; destruct st; lia. Qed.

Lemma ShStep_trans pol m st i a b c d1 x1 d2 x2 :
  ShStep pol m st i a b d1 x1 -> ShStep pol m st i b c d2 x2 -> ShStep pol m st i a c (d1 + d2) (x1 + x2).
Proof.
  intros (_ & A1 & A2 & A3 & A4) (B0 & B1 & B2 & B3 & B4). split; [exact B0|].
  repeat split; try congruence; destruct st; lia.
Qed.

Lemma ShStep_shrink pol m (st : bool) i s s' d x :
  ShardOK pol m i s -> PolicyOK pol m s' -> Sub pol s s' -> Stat s s' ->
  d = (if st then gcnt reasonCapacity s' - gcnt reasonCapacity s else 0) ->
  x = (if st then gcnt reasonExpired s' - gcnt reasonExpired s else 0) -> ShStep pol m st i s s' d x /\ ASub pol s s'.
Proof.
  intros OK P' SB (S1 & S2 & S3 & _) D X. split; [|exact (ASub_of_Sub pol s s' S3 SB)]. split; [|auto].
  apply (ShardOK_step pol m i s s' OK P' S2 S3). apply (sub_tabk pol m s s' (proj1 OK) P' SB).
Qed.

Lemma ShStep_silent pol m st i s s' :
  ShardOK pol m i s -> PolicyOK pol m s' -> Sub pol s s' -> Stat s s' -> glog s' = glog s ->
  ShStep pol m st i s s' 0 0 /\ ASub pol s s'.
Proof. intros OK P' SB ST G. apply ShStep_shrink; try assumption; unfold gcnt; rewrite G; destruct st; lia. Qed.

Lemma sh_evs_step pol m st i s ev pe : ShardOK pol m i s -> Forall (cmd_ok i s) pe -> ShStep pol m st i s (sh_evs s ev pe) 0 0.
Proof.
  intros OK F. split; [exact (ShardOK_pend pol m i s ev pe OK F)|].
  repeat split; destruct st; unfold gcnt; cbn [sh_evs glog]; lia.
Qed.

Lemma adapts_step pol m st i s : ShardOK pol m i s -> ShStep pol m st i s (adapts s) 0 0 /\ ASub pol s (adapts s).
Proof.
  intros OK. apply ShStep_silent; [exact OK|apply PolicyOK_adapts, OK| |apply Stat_adapts|apply glog_adapts].
  intros k x. rewrite view_adapts. tauto.
Qed.

Lemma unstage_step pol m st i s : ShardOK pol m i s -> ShStep pol m st i s (unstage s) 0 0 /\ ASub pol s (unstage s).
Proof.
  intros OK. apply ShStep_silent; [exact OK|apply PolicyOK_unstage, OK|intros k x H; exact H|apply Stat_easy; reflexivity|reflexivity].
Qed.

Lemma clear_step pol m st i s : ShardOK pol m i s ->
  ShStep pol m st i s (clear_shard pol s) 0 0 /\ ASub pol s (clear_shard pol s).
Proof.
  intros OK. destruct (clear_shard_ok pol m s (proj1 OK)) as (P' & _ & _ & _ & ST & _ & _ & _ & V).
  apply (ShStep_shrink pol m st i s _ 0 0 OK P'); [intros k x; rewrite V; discriminate|exact ST| |];
    rewrite gcnt_clear by (unfold reasonCapacity, reasonExpired; lia); destruct st; lia.
Qed.

Lemma drop_step pol m i e s k it r s' ok d :
  e_pol e = pol -> e_mask e = m -> ShardOK pol m i s -> 0 < r -> lookup s pol k = Some it ->
  drop_item e s it r = (s', ok, d) ->
  ShStep pol m (e_stats e) i s s' d (if e_stats e then (if r =? reasonExpired then 1 else 0) else 0) /\ ASub pol s s'.
Proof.
  intros Hp Hm OK Hr LK HD. pose proof OK as (P & _).
  destruct (lookup_drop_shrink pol m e s k it r s' ok d Hp Hm P (Z.lt_le_incl _ _ Hr) LK HD) as (P' & _ & _ & SB).
  destruct (drop_counts pol m e s k it r s' ok d Hp Hm P Hr LK HD) as (A & B & C).
  apply (ShStep_shrink pol m _ i s s' _ _ OK P' SB (Stat_drop_item _ _ _ _ _ _ _ HD)); rewrite ?A, ?B, ?C; destruct (e_stats e); lia.
Qed.

Lemma get_sh_step pol m i e nw s k : e_pol e = pol -> e_mask e = m -> ShardOK pol m i s ->
  ShStep pol m (e_stats e) i s (fst (get_sh e nw s k)) (snd (get_sh e nw s k))
         (if e_stats e then match get_out pol nw s k with GExpired _ => 1 | _ => 0 end else 0) /\
  ASub pol s (fst (get_sh e nw s k)).
Proof.
  intros Hp Hm OK. pose proof OK as (P & _).
  destruct (get_sh_ok pol m e nw s k Hp Hm P) as (P' & SB & ST). destruct (get_sh_counts pol m e nw s k Hp Hm P) as (A & B & C).
  apply (ShStep_shrink pol m _ i s _ _ _ OK P' SB ST); rewrite ?A, ?B, ?C; destruct (e_stats e); lia.
Qed.

Lemma apply_set_step pol m i e s k v ex c s' cm d :
  e_pol e = pol -> e_mask e = m -> ShardOK pol m i s -> 0 <= c -> (costcap s = 0 \/ c <= costcap s) -> shard_of k = i ->
  apply_set e s k v ex c = (s', cm, d) -> ShStep pol m (e_stats e) i s s' d 0.
Proof.
  intros Hp Hm OK Hc Hcc Hk HS. pose proof OK as (P & F & T).
  destruct (apply_set_ok pol m e s k v ex c s' cm d Hp Hm P Hc Hcc HS) as (P' & V).
  pose proof (Stat_apply_set _ _ _ _ _ _ _ _ _ HS) as (S1 & S2 & S3 & S4).
  destruct (apply_set_counts pol m e s k v ex c s' cm d Hp Hm P Hc HS) as (A & B).
  split; [|split; [exact S1|split; [exact S2|split; [exact A|rewrite B; destruct (e_stats e); lia]]]].
  split; [exact P'|]. split.
  - rewrite S3. eapply Forall_impl; [|exact F]. intros cmd. apply cmd_ok_costcap. exact S2.
  - intros k' H. apply (tab_view _ _ _ _ P') in H. destruct (view pol s' k') as [x|] eqn:E; [|congruence].
    destruct (V _ _ E) as [[-> _]|[_ V0]]; [exact Hk|]. apply T. apply (tab_view _ _ _ _ P). congruence.
Qed.

(* induction over a well-formed queue: every command is one apply_set on a well-formed shard *)
Lemma drain_sh_ind pol m i e nw (P : list (list Z) -> shard -> shard -> Z -> Prop) :
  e_pol e = pol -> e_mask e = m ->
  (forall s, ShardOK pol m i s -> P [] s s 0) ->
  (forall k v ttl cst r s s1 cm d s2 d2,
     ShardOK pol m i s -> 0 <= cst -> (costcap s = 0 \/ cst <= costcap s) -> shard_of k = i ->
     apply_set e s k v (stamp ttl nw) cst = (s1, cm, d) -> P r s1 s2 d2 -> P ([k; v; ttl; cst] :: r) s s2 (d + d2)) ->
  forall cmds s, ShardOK pol m i s -> Forall (cmd_ok i s) cmds ->
  P cmds s (fst (drain_sh e nw s cmds)) (snd (drain_sh e nw s cmds)).
Proof.
  intros Hp Hm P0 PS. induction cmds as [|cmd r IH]; intros s OK F; [apply P0; exact OK|].
  apply Forall_cons_iff in F. destruct F as [(k & v & ttl & cst & -> & Hc & Hcc & Hk) F2].
  cbn [drain_sh]. destruct (apply_set e s k v (stamp ttl nw) cst) as [[s1 cm] d] eqn:E.
  destruct (apply_set_step pol m i e s k v _ cst s1 cm d Hp Hm OK Hc Hcc Hk E) as (OK1 & _ & S2 & _).
  assert (F2' : Forall (cmd_ok i s1) r) by (eapply Forall_impl; [|exact F2]; intros cmd; apply cmd_ok_costcap; exact S2).
  specialize (IH s1 OK1 F2'). destruct (drain_sh e nw s1 r) as [s2 d2]. cbn [fst snd] in *.
  exact (PS k v ttl cst r s s1 cm d s2 d2 OK Hc Hcc Hk E IH).
Qed.

Lemma drained_step c i s : ShardOK (policy c) (mask c) i s ->
  ShStep (policy c) (mask c) (statsOn c) i s (fst (drained c s)) (snd (drained c s)) 0.
Proof.
  intros OK. pose proof (sh_evs_step _ _ (statsOn c) _ s (evs s) [] OK (Forall_nil _)) as S0.
  refine (ShStep_trans _ _ _ _ _ _ _ _ _ _ _ S0 _). unfold drained.
  apply (drain_sh_ind (policy c) (mask c) i (env_of c) (now c)
           (fun _ s s' d => ShStep (policy c) (mask c) (statsOn c) i s s' d 0) eq_refl eq_refl).
  - intros s1. apply ShStep_refl.
  - intros k v ttl cst r s1 s2 cm d s3 d3 OK1 Hc Hcc Hk E IH.
    exact (ShStep_trans _ _ _ _ _ _ _ _ _ _ _ (apply_set_step _ _ _ (env_of c) _ k v _ cst s2 cm d eq_refl eq_refl OK1 Hc Hcc Hk E) IH).
  - exact (proj1 S0).
  - exact (proj1 (proj2 OK)).
Qed.

Lemma drained_ok c i s : ShardOK (policy c) (mask c) i s -> ShardOK (policy c) (mask c) i (fst (drained c s)).
Proof. intros OK. apply (drained_step c i s OK). Qed.

(* draining: the drained shard shows, for each key, the last queued value or the old visible value — or nothing *)
Lemma drain_sh_amap pol m i e nw : e_pol e = pol -> e_mask e = m ->
  forall cmds s, ShardOK pol m i s -> Forall (cmd_ok i s) cmds ->
  forall k v, vmap pol (fst (drain_sh e nw s cmds)) k = Some v ->
              match pend_last cmds k with Some v' => Some v' | None => vmap pol s k end = Some v.
Proof.
  intros Hp Hm cmds s OK F.
  apply (drain_sh_ind pol m i e nw (fun cmds s s' _ => forall k v, vmap pol s' k = Some v ->
           match pend_last cmds k with Some v' => Some v' | None => vmap pol s k end = Some v) Hp Hm); [auto| |exact OK|exact F].
  clear cmds s OK F. intros k0 v0 ttl cst r s s1 cm d s2 _ (P & _) Hc Hcc _ E IH k v H. specialize (IH k v H).
  cbn [pend_last]. destruct (pend_last r k) as [v'|]; [exact IH|].
  destruct (apply_set_ok pol m e s k0 v0 _ cst s1 cm d Hp Hm P Hc Hcc E) as (_ & V).
  unfold vmap in IH. destruct (view pol s1 k) as [x|] eqn:V1; [|discriminate].
  destruct (V _ _ V1) as [[-> ->]|[NK V0]].
  - rewrite Z.eqb_refl. exact IH.
  - replace (k0 =? k) with false by lia. unfold vmap. rewrite V0. exact IH.
Qed.

Lemma drained_ASub c i s : ShardOK (policy c) (mask c) i s -> ASub (policy c) s (fst (drained c s)).
Proof.
  intros OK k v. unfold amap. destruct (Stat_drained c s) as (_ & _ & PE & _). rewrite PE. cbn [pend_last].
  intros H. unfold drained in H.
  exact (drain_sh_amap (policy c) (mask c) i (env_of c) (now c) eq_refl eq_refl (pend s) (sh_evs s (evs s) [])
           (ShardOK_pend _ _ _ _ _ _ OK (Forall_nil _)) (proj1 (proj2 OK)) k v H).
Qed.

Lemma get_pre_step c k i s0 : ShardOK (policy c) (mask c) i s0 ->
  ShStep (policy c) (mask c) (statsOn c) i s0 (fst (get_pre c k s0)) (snd (get_pre c k s0)) 0 /\
  ASub (policy c) s0 (fst (get_pre c k s0)).
Proof.
  intros OK. unfold get_pre. destruct (is_sieve s0 (policy c) && negb (memz (tabk s0) k)).
  - split; [apply drained_step|eapply drained_ASub]; exact OK.
  - split; [apply ShStep_refl; exact OK|apply ASub_refl].
Qed.

Lemma CacheInv_get c i s : CacheInv c -> get_shard c i = Some s ->
  ShardOK (policy c) (mask c) (Z.of_nat (Z.to_nat i)) s.
Proof. intros (_ & H & _) G. apply H. exact G. Qed.

Lemma CacheInv_In c s : CacheInv c -> In s (shards c) -> exists i, ShardOK (policy c) (mask c) i s.
Proof. intros (_ & OKS & _) H. apply In_nth_error in H. destruct H as [i Hi]. exists (Z.of_nat i). apply (OKS _ _ Hi). Qed.

Lemma closed_shard c s sh : CacheInv c -> closed c = true -> get_shard c sh = Some s -> tabk s = [] /\ pend s = [].
Proof. intros (_ & _ & CL) E G. apply (CL E). unfold get_shard in G. eapply nth_error_In; eauto. Qed.

Lemma CacheInv_ext c c' :
  shards c' = shards c -> nshards c' = nshards c -> policy c' = policy c -> mask c' = mask c -> closed c' = closed c ->
  CacheInv c -> CacheInv c'.
Proof. unfold CacheInv. intros -> -> -> -> ->. tauto. Qed.

Lemma CacheInv_put c sh s s1 h m ev ex :
  CacheInv c -> get_shard c sh = Some s ->
  ShardOK (policy c) (mask c) (Z.of_nat (Z.to_nat sh)) s1 ->
  (closed c = true -> tabk s1 = [] /\ pend s1 = []) ->
  CacheInv (put_shard c sh s1 h m ev ex).
Proof.
  intros (L & H & CL) G OK1 CL1. split; [|split].
  - cbn [put_shard shards nshards]. rewrite length_set_nth. exact L.
  - intros i s2 N. change (policy (put_shard c sh s1 h m ev ex)) with (policy c).
    change (mask (put_shard c sh s1 h m ev ex)) with (mask c).
    destruct (Nat.eq_dec (Z.to_nat sh) i) as [<-|NE].
    + rewrite (get_put_eq _ _ _ _ _ _ _ _ G) in N. injection N as <-. exact OK1.
    + rewrite get_put_other in N by exact NE. apply H. exact N.
  - change (closed (put_shard c sh s1 h m ev ex)) with (closed c). intros E s2 I2.
    cbn [put_shard shards] in I2. apply In_set_nth in I2. destruct I2 as [->|I2]; [apply CL1; exact E|apply CL; assumption].
Qed.

Lemma CacheInv_map c f cl t :
  CacheInv c ->
  (forall i s, ShardOK (policy c) (mask c) i s -> ShardOK (policy c) (mask c) i (f s)) ->
  (cl = true -> forall s, In s (shards c) -> tabk (f s) = [] /\ pend (f s) = []) ->
  CacheInv (with_shards c (map f (shards c)) cl t).
Proof.
  intros (L & H & CL) HF HC. split; [|split].
  - cbn. rewrite map_length. exact L.
  - intros i s N. cbn in N |- *. rewrite nth_error_map in N. destruct (nth_error (shards c) i) as [s0|] eqn:E; [|discriminate].
    injection N as <-. apply HF. apply H. exact E.
  - cbn. intros E s I. apply in_map_iff in I. destruct I as [s0 [<- I0]]. apply HC; assumption.
Qed.

(* soundness only, the cache being a lossy map: whatever a shard holds or has queued for k is L's value for k;
   L k = Some v does not make k resident *)
Definition Agree (L : Z -> option Z) (c : cache) : Prop :=
  forall k s v, get_shard c (shard_of k) = Some s -> amap (policy c) s k = Some v -> L k = Some v.

Lemma Agree_ext L c c' : shards c' = shards c -> policy c' = policy c -> Agree L c -> Agree L c'.
Proof. intros E1 E2 A k s v G. unfold get_shard in G. rewrite E1 in G. rewrite E2. apply A. exact G. Qed.

Lemma Agree_put L L' c sh s s1 h m e x :
  Agree L c -> get_shard c sh = Some s ->
  (forall k v, Z.to_nat (shard_of k) = Z.to_nat sh -> amap (policy c) s1 k = Some v -> L' k = Some v) ->
  (forall k v, Z.to_nat (shard_of k) <> Z.to_nat sh -> L k = Some v -> L' k = Some v) ->
  Agree L' (put_shard c sh s1 h m e x).
Proof.
  intros A G H1 H2 k s2 v G2 AM. unfold get_shard in G, G2. cbn [put_shard shards policy] in *.
  destruct (Nat.eq_dec (Z.to_nat sh) (Z.to_nat (shard_of k))) as [E|NE].
  - rewrite <- E in G2. rewrite (nth_error_set_nth_eq _ _ _ _ G) in G2. injection G2 as <-. apply H1; auto.
  - rewrite nth_error_set_nth_neq in G2 by exact NE. apply H2; [auto|]. eapply A; eauto.
Qed.

Lemma Agree_put_sub c sh s s1 h m e x :
  get_shard c sh = Some s -> ASub (policy c) s s1 -> forall L, Agree L c -> Agree L (put_shard c sh s1 h m e x).
Proof.
  intros G SB L A. apply (Agree_put L L c sh s s1 h m e x A G); [|auto].
  intros k v E AM. apply (A k s v); [|apply SB; exact AM]. unfold get_shard in *. rewrite E. exact G.
Qed.

Lemma Agree_put_upd c sh s s1 k x h m e y :
  get_shard c sh = Some s -> shard_of k = Z.of_nat (Z.to_nat sh) -> AUpd (policy c) s s1 k x ->
  forall L, Agree L c -> Agree (upd L k x) (put_shard c sh s1 h m e y).
Proof.
  intros G E U L A. apply (Agree_put L _ c sh s s1 _ _ _ _ A G); intros k' v'; unfold upd.
  - intros E' AM. specialize (U k' v' AM). destruct (k' =? k); [exact U|].
    apply (A k' s v'); [unfold get_shard in *; rewrite E'; exact G|exact U].
  - intros NE H. destruct (Z.eqb_spec k' k) as [->|_]; [exfalso; apply NE; rewrite E; apply Nat2Z.id|exact H].
Qed.

Lemma Agree_map c f cl t : (forall s, In s (shards c) -> ASub (policy c) s (f s)) ->
  forall L, Agree L c -> Agree L (with_shards c (map f (shards c)) cl t).
Proof.
  intros H L A k s v G AM. unfold get_shard in G. cbn [with_shards shards policy] in *.
  rewrite nth_error_map in G. destruct (nth_error (shards c) (Z.to_nat (shard_of k))) as [s0|] eqn:E; [|discriminate].
  injection G as <-. apply (A k s0 v E). apply H; [eapply nth_error_In; eauto|exact AM].
Qed.

Lemma Agree_empty L c : (forall s, In s (shards c) -> tabk s = [] /\ pend s = []) -> CacheInv c -> Agree L c.
Proof.
  intros H I k s v G AM. exfalso. pose proof (CacheInv_get _ _ _ I G) as (P & _).
  unfold get_shard in G. destruct (H s (nth_error_In _ _ G)) as [T PE].
  unfold amap, vmap in AM. rewrite PE in AM. cbn [pend_last] in AM.
  destruct (view (policy c) s k) eqn:V; [|discriminate].
  assert (In k (tabk s)) by (apply (tab_view _ _ _ _ P); congruence). rewrite T in H0. destruct H0.
Qed.

(* c' is a successor of c: the invariant, the configuration and the meaning of the counters carry over, and the reference
   map moves by F; cl: the step closes the cache; dh, dm: the hits and misses it counts when statistics are on *)
Definition Next (cl : bool) (dh dm : Z) (F : (Z -> option Z) -> Z -> option Z) (c c' : cache) : Prop :=
  CacheInv c' /\ Cfg c c' /\ closed c' = closed c || cl /\
  hits c' = hits c + (if statsOn c then dh else 0) /\ misses c' = misses c + (if statsOn c then dm else 0) /\
  (StatInv c -> StatInv c') /\ (forall L, Agree L c -> Agree (F L) c').

Lemma Next_agree cl dh dm F c c' L : Next cl dh dm F c c' -> Agree L c -> Agree (F L) c'.
Proof. intros (_ & _ & _ & _ & _ & _ & A). apply A. Qed.

Lemma Next_refl cl c : CacheInv c -> (cl = true -> closed c = true) -> Next cl 0 0 (fun L => L) c c.
Proof.
  intros I CL. split; [exact I|]. split; [apply Cfg_refl|]. split.
  - destruct cl; [rewrite (CL eq_refl); reflexivity|symmetry; apply orb_false_r].
  - repeat split; try (destruct (statsOn c); lia); auto.
Qed.

Lemma Next_trans cl1 a1 b1 F1 cl2 a2 b2 F2 c c1 c2 :
  Next cl1 a1 b1 F1 c c1 -> Next cl2 a2 b2 F2 c1 c2 -> Next (cl1 || cl2) (a1 + a2) (b1 + b2) (fun L => F2 (F1 L)) c c2.
Proof.
  intros (_ & C1 & L1 & H1 & M1 & S1 & A1) (I2 & C2 & L2 & H2 & M2 & S2 & A2). rewrite (cf_stats _ _ C1) in H2, M2.
  split; [exact I2|]. split; [eapply Cfg_trans; eauto|]. split; [rewrite L2, L1, orb_assoc; reflexivity|].
  repeat split; try (destruct (statsOn c); lia); auto.
Qed.

Lemma Next_pre cl a b F c c1 c2 : Next false 0 0 (fun L => L) c c1 -> Next cl a b F c1 c2 -> Next cl a b F c c2.
Proof. exact (Next_trans false 0 0 (fun L => L) cl a b F c c1 c2). Qed.

Lemma Next_post cl a b F c c1 c2 : Next cl a b F c c1 -> Next false 0 0 (fun L => L) c1 c2 -> Next cl a b F c c2.
Proof. intros N1 N2. pose proof (Next_trans _ _ _ _ _ _ _ _ _ _ _ N1 N2) as N. rewrite orb_false_r, !Z.add_0_r in N. exact N. Qed.

Lemma Next_wipe cl a b F G c c' : Next cl a b F c c' -> (forall s, In s (shards c') -> tabk s = [] /\ pend s = []) ->
  Next cl a b G c c'.
Proof.
  intros (I' & C' & L' & H' & M' & S' & _) E. repeat (split; [assumption|]). intros L _. apply Agree_empty; assumption.
Qed.

(* on a closed cache every shard is empty: it agrees with any reference map *)
Lemma closed_next c cl G : CacheInv c -> closed c = true -> Next cl 0 0 G c c.
Proof.
  intros I CL. apply (Next_wipe _ _ _ (fun L => L)); [apply Next_refl; [exact I|intros _; exact CL]|].
  destruct I as (_ & _ & CLI). exact (CLI CL).
Qed.

(* the one lifting lemma: a step of shard sh, put back with the counters it reports, is a successor *)
Lemma Next_put c sh s s1 d x h m ev ex dh dm F :
  CacheInv c -> get_shard c sh = Some s ->
  ShStep (policy c) (mask c) (statsOn c) (Z.of_nat (Z.to_nat sh)) s s1 d x ->
  (closed c = true -> tabk s1 = [] /\ pend s1 = []) ->
  h = hits c + (if statsOn c then dh else 0) -> m = misses c + (if statsOn c then dm else 0) ->
  ev = evictions c + d -> ex = expirations c + x ->
  (forall L, Agree L c -> Agree (F L) (put_shard c sh s1 h m ev ex)) ->
  Next false dh dm F c (put_shard c sh s1 h m ev ex).
Proof.
  intros I G (OK & C1 & C2 & -> & ->) CL -> -> -> -> HA.
  split; [exact (CacheInv_put c sh s s1 _ _ _ _ I G OK CL)|].
  split; [exact (Cfg_put c sh s s1 _ _ _ _ G C1 C2)|]. split; [symmetry; apply orb_false_r|].
  split; [reflexivity|]. split; [reflexivity|]. split; [|exact HA].
  unfold StatInv. rewrite !(gsum_put _ c sh s s1 _ _ _ _ G).
  cbn [put_shard statsOn hits misses evictions expirations]. destruct (statsOn c); lia.
Qed.

Lemma Next_put0 c sh s s1 d x ev ex F :
  CacheInv c -> get_shard c sh = Some s ->
  ShStep (policy c) (mask c) (statsOn c) (Z.of_nat (Z.to_nat sh)) s s1 d x ->
  (closed c = true -> tabk s1 = [] /\ pend s1 = []) -> ev = evictions c + d -> ex = expirations c + x ->
  (forall L, Agree L c -> Agree (F L) (put_shard c sh s1 (hits c) (misses c) ev ex)) ->
  Next false 0 0 F c (put_shard c sh s1 (hits c) (misses c) ev ex).
Proof. intros I G S CL E1 E2. apply (Next_put c sh s s1 d x _ _ _ _ 0 0 F I G S CL); try assumption; destruct (statsOn c); lia. Qed.

(* the same for an operation that works on every shard, reports nothing and only loses entries *)
Lemma Next_map c f b cl t : CacheInv c -> b = closed c || cl ->
  (forall i s, ShardOK (policy c) (mask c) i s ->
     ShStep (policy c) (mask c) (statsOn c) i s (f s) 0 0 /\ ASub (policy c) s (f s)) ->
  (b = true -> forall s, In s (shards c) -> tabk (f s) = [] /\ pend (f s) = []) ->
  Next cl 0 0 (fun L => L) c (with_shards c (map f (shards c)) b t).
Proof.
  intros I -> HF HC.
  assert (E : forall s, In s (shards c) -> cap (f s) = cap s /\ costcap (f s) = costcap s /\ ASub (policy c) s (f s) /\
            (statsOn c = true -> gcnt reasonCapacity (f s) = gcnt reasonCapacity s /\ gcnt reasonExpired (f s) = gcnt reasonExpired s)).
  { intros s Hs. destruct (CacheInv_In c s I Hs) as [i OK]. destruct (HF i s OK) as ((_ & A & B & D & X) & AS).
    split; [exact A|]. split; [exact B|]. split; [exact AS|]. intros ST. rewrite ST in D, X. lia. }
  split; [apply CacheInv_map; [exact I|intros i s OK; apply (HF i s OK)|exact HC]|].
  split; [apply Cfg_with_shards; [apply map_length| |]; rewrite map_map; apply map_ext_in; intros s Hs; apply (E s Hs)|].
  split; [reflexivity|]. cbn [with_shards hits misses]. repeat split; try (destruct (statsOn c); lia).
  2:{ apply Agree_map. intros s Hs. apply (E s Hs). }
  unfold StatInv, gsum. cbn [with_shards statsOn hits misses evictions expirations shards]. rewrite !map_map.
  destruct (statsOn c) eqn:ST; [|tauto].
  rewrite (sumZ_map_ext (fun s => gcnt reasonCapacity (f s)) (gcnt reasonCapacity)), (sumZ_map_ext (fun s => gcnt reasonExpired (f s)) (gcnt reasonExpired));
    [tauto| |]; intros s Hs; apply (E s Hs); reflexivity.
Qed.

Lemma attach_events_next c ev : CacheInv c -> Next false 0 0 (fun L => L) c (attach_events c ev).
Proof.
  intros I. apply (attach_events_ind (Next false 0 0 (fun L => L) c)); [|apply Next_refl; [exact I|discriminate]].
  intros c1 sh s kind a G N. apply (Next_post _ _ _ _ _ _ _ N). destruct N as (I1 & _).
  pose proof (CacheInv_get _ _ _ I1 G) as OK.
  apply (Next_put0 c1 sh s _ 0 0 _ _ _ I1 G (sh_evs_step _ _ _ _ s _ _ OK (proj1 (proj2 OK)))); [|lia|lia|].
  - intros E. exact (closed_shard c1 s sh I1 E G).
  - apply (Agree_put_sub c1 sh s _ _ _ _ _ G). intros k v H. exact H.
Qed.

Lemma drain_shard_next c sh : CacheInv c -> Next false 0 0 (fun L => L) c (drain_shard c sh).
Proof.
  intros I. destruct (get_shard c sh) as [s|] eqn:G; [|unfold drain_shard; rewrite G; apply Next_refl; [exact I|discriminate]].
  rewrite (drain_shard_eq c sh s G). pose proof (CacheInv_get _ _ _ I G) as OK.
  apply (Next_put0 c sh s _ _ 0 _ _ _ I G (drained_step c _ s OK)); [|reflexivity|lia|].
  - intros E. destruct (closed_shard c s sh I E G) as [T PE]. rewrite (drained_quiet c s PE). auto.
  - apply (Agree_put_sub c sh s _ _ _ _ _ G). exact (drained_ASub c _ s OK).
Qed.

Lemma drain_fold_next l : forall c, CacheInv c -> Next false 0 0 (fun L => L) c (fold_left drain_shard l c).
Proof.
  induction l as [|a l IH]; intros c I; cbn [fold_left]; [apply Next_refl; [exact I|discriminate]|].
  pose proof (drain_shard_next c a I) as N. exact (Next_pre _ _ _ _ _ _ _ N (IH _ (proj1 N))).
Qed.

Lemma drain_all_next c : CacheInv c ->
  Next false 0 0 (fun L => L) c (drain_all c) /\ (forall s, In s (shards (drain_all c)) -> pend s = []).
Proof.
  intros I. unfold drain_all. split; [apply drain_fold_next; exact I|].
  intros s Hs. apply In_nth_error in Hs. destruct Hs as [j Hj].
  (* shard j is drained at step j and left alone afterwards *)
  assert (J : (j < length (shards c))%nat).
  { rewrite <- (cf_len _ _ (proj1 (proj2 (drain_fold_next (zseq 0 (length (shards c))) c I)))). apply nth_error_Some. congruence. }
  rewrite <- (Nat2Z.id j) in Hj. fold (get_shard (fold_left drain_shard (zseq 0 (length (shards c))) c) (Z.of_nat j)) in Hj.
  set (n := length (shards c)) in *. rewrite (zseq_split n 0 j J), fold_left_app in Hj. cbn [fold_left Z.add] in Hj.
  rewrite fold_drain_get_other in Hj by (intros i Hi; apply zseq_In in Hi; lia).
  destruct (get_shard (fold_left drain_shard (zseq 0 j) c) (Z.of_nat j)) as [s1|] eqn:G1.
  - rewrite (drain_shard_eq _ _ s1 G1), (CP.get_put_same _ _ s1 _ _ _ _ _ G1) in Hj. injection Hj as <-. apply Stat_drained.
  - exfalso. apply (nth_error_None (shards (fold_left drain_shard (zseq 0 j) c)) (Z.to_nat (Z.of_nat j))) in G1.
    rewrite (cf_len _ _ (proj1 (proj2 (drain_fold_next (zseq 0 j) c I)))) in G1. fold n in G1. lia.
Qed.

(* the caller passed the shard index that shard_of assigns to the key, and it is one of the n shards: the hypothesis of the
   operations that take a key (wf_op and wf_req unfold to it) *)
Definition routed (n k sh : Z) : Prop := sh = shard_of k /\ 0 <= sh < n.

Lemma routed_idx k sh n : routed n k sh -> shard_of k = Z.of_nat (Z.to_nat sh).
Proof. intros [-> H]. lia. Qed.

Lemma routed_get c k sh : CacheInv c -> routed (nshards c) k sh -> exists s, get_shard c sh = Some s.
Proof.
  intros (L & _) [_ H]. unfold get_shard. destruct (nth_error (shards c) (Z.to_nat sh)) eqn:E; [eauto|].
  apply nth_error_None in E. lia.
Qed.

Lemma set_check_ok c sh cst : CacheInv c -> set_check c sh cst = 0 ->
  exists s, get_shard c sh = Some s /\ 0 <= cst /\ (costcap s = 0 \/ cst <= costcap s) /\ closed c = false.
Proof.
  intros I. unfold set_check. destruct (Z.ltb_spec cst 0); [discriminate|].
  destruct (get_shard c sh) as [s|] eqn:G; [|discriminate].
  destruct ((0 <? costcap s) && (costcap s <? cst)) eqn:E; [discriminate|].
  destruct (closed c); [discriminate|]. intros _. exists s.
  destruct (CacheInv_get _ _ _ I G) as ((_ & B & _) & _). repeat split; try assumption; lia.
Qed.

Lemma op_set_next c k v ttl cst sh : CacheInv c -> routed (nshards c) k sh ->
  Next false 0 0 (fun L => if snd (op_set c k v ttl cst sh) =? 0 then upd L k (Some v) else L) c (fst (op_set c k v ttl cst sh)).
Proof.
  intros I W. pose proof (routed_idx _ _ _ W) as Hk. destruct (Z.eq_dec (set_check c sh cst) 0) as [R|R].
  2:{ rewrite (op_set_fail _ _ _ _ _ _ R). cbn [fst snd]. replace (set_check c sh cst =? 0) with false by lia.
      apply Next_refl; [exact I|discriminate]. }
  destruct (set_check_ok c sh cst I R) as (s & G & Hc & Hcc & CL). rewrite (op_set_form c k v ttl cst sh s G R).
  pose proof (CacheInv_get _ _ _ I G) as OK.
  pose proof (drained_step c _ s OK) as D. pose proof D as (OKd & _ & D2 & _). rewrite <- D2 in Hcc.
  destruct (Stat_drained c s) as (_ & _ & D3 & _).
  destruct (apply_set (env_of c) (fst (drained c s)) k v (stamp (norm_ttl c ttl) (now c)) cst) as [[s2 cm] d] eqn:E.
  cbn [fst snd Z.eqb]. pose proof (Stat_apply_set _ _ _ _ _ _ _ _ _ E) as (_ & _ & S3 & _).
  destruct (apply_set_ok (policy c) (mask c) (env_of c) _ k v _ cst s2 cm d eq_refl eq_refl (proj1 OKd) Hc Hcc E) as (_ & V).
  apply (Next_put0 c sh s s2 _ _ _ _ _ I G (ShStep_trans _ _ _ _ _ _ _ _ _ _ _ D
           (apply_set_step _ _ _ (env_of c) _ k v _ cst s2 cm d eq_refl eq_refl OKd Hc Hcc Hk E)));
    [intros E'; congruence|lia|lia|].
  apply (Agree_put_upd c sh s s2 k _ _ _ _ _ G Hk).
  apply (AUpd_drained _ s _ s2 k _ (drained_ASub c _ s OK) D3 (eq_trans S3 D3)).
  intros k' y VY. destruct (V k' y VY) as [[-> ->]|N]; [left; split; reflexivity|right; exact N].
Qed.

Lemma op_set_async_next c k v ttl cst sh : CacheInv c -> routed (nshards c) k sh ->
  Next false 0 0 (fun L => if snd (op_set_async c k v ttl cst sh) =? 0 then upd L k (Some v) else L) c
       (fst (op_set_async c k v ttl cst sh)).
Proof.
  intros I W. pose proof (routed_idx _ _ _ W) as Hk. destruct (Z.eq_dec (set_check c sh cst) 0) as [R|R].
  2:{ rewrite (op_set_async_fail _ _ _ _ _ _ R). cbn [fst snd]. replace (set_check c sh cst =? 0) with false by lia.
      apply Next_refl; [exact I|discriminate]. }
  destruct (set_check_ok c sh cst I R) as (s & G & Hc & Hcc & CL). rewrite (op_set_async_form c k v ttl cst sh s G R).
  cbn [fst snd Z.eqb]. pose proof (CacheInv_get _ _ _ I G) as OK.
  apply (Next_put0 c sh s _ 0 0 _ _ _ I G); [|intros E; congruence|lia|lia|].
  - apply sh_evs_step; [exact OK|]. apply Forall_app. split; [apply OK|]. constructor; [|constructor].
    exists k, v, (norm_ttl c ttl), cst. repeat split; assumption.
  - apply (Agree_put_upd c sh s _ k _ _ _ _ _ G Hk).
    intros k' v' AM. unfold amap in *. cbn [sh_evs pend] in AM. rewrite pend_last_app, (Z.eqb_sym k k') in AM.
    destruct (k' =? k); [congruence|exact AM].
Qed.

Lemma op_get_next c k sh : CacheInv c -> routed (nshards c) k sh ->
  let ok := snd (fst (fst (op_get c k sh))) in
  Next false (if closed c then 0 else if ok then 1 else 0) (if closed c then 0 else if ok then 0 else 1) (fun L => L) c
       (fst (fst (fst (op_get c k sh)))).
Proof.
  intros I W. cbv zeta. destruct (closed c) eqn:CL; [unfold op_get; rewrite CL; apply Next_refl; [exact I|discriminate]|].
  destruct (routed_get c k sh I W) as [s0 G].
  rewrite (op_get_form c k sh s0 CL G). cbn [fst snd].
  destruct (get_pre_step c k _ s0 (CacheInv_get _ _ _ I G)) as (D & AD).
  destruct (get_sh_step (policy c) (mask c) _ (env_of c) (now c) _ k eq_refl eq_refl (proj1 D)) as (S & AS).
  set (o := get_out (policy c) (now c) (fst (get_pre c k s0)) k) in *. change (e_stats (env_of c)) with (statsOn c) in S.
  apply (Next_put c sh s0 _ _ _ _ _ _ _ _ _ _ I G (ShStep_trans _ _ _ _ _ _ _ _ _ _ _ D S)).
  - intros E. congruence.
  - destruct o, (statsOn c); lia.
  - destruct o, (statsOn c); lia.
  - lia.
  - destruct o, (statsOn c); lia.
  - apply (Agree_put_sub c sh s0 _ _ _ _ _ G). exact (ASub_trans _ _ _ _ AD AS).
Qed.

Lemma op_exists_next c k sh : CacheInv c -> Next false 0 0 (fun L => L) c (fst (op_exists c k sh)).
Proof.
  intros I. assert (T : Next false 0 0 (fun L => L) c c) by (apply Next_refl; [exact I|discriminate]).
  destruct (closed c) eqn:CL; [unfold op_exists; rewrite CL; exact T|].
  destruct (get_shard c sh) as [s|] eqn:G; [|unfold op_exists; rewrite CL, G; exact T].
  rewrite (op_exists_form c k sh s CL G). unfold get_out.
  destruct (lookup s (policy c) k) as [it|] eqn:LK; [|exact T]. destruct (expired it (now c)); [|exact T].
  destruct (drop_item (env_of c) s it reasonExpired) as [[s1 ok] d] eqn:DI. cbn [fst snd].
  destruct (drop_step (policy c) (mask c) _ (env_of c) s k it reasonExpired s1 ok d eq_refl eq_refl (CacheInv_get _ _ _ I G) eq_refl LK DI) as (DS & DA).
  apply (Next_put0 c sh s s1 _ _ _ _ _ I G DS);
    [intros E; congruence|reflexivity|cbn [e_stats env_of]; destruct (statsOn c); cbn; lia|exact (Agree_put_sub c sh s _ _ _ _ _ G DA)].
Qed.

Lemma op_delete_next c k sh : CacheInv c -> routed (nshards c) k sh ->
  Next false 0 0 (fun L => upd L k None) c (fst (op_delete c k sh)).
Proof.
  intros I W. pose proof (routed_idx _ _ _ W) as Hk. destruct (closed c) eqn:CL.
  { unfold op_delete. rewrite CL. exact (closed_next c _ _ I CL). }
  destruct (routed_get c k sh I W) as [s0 G].
  rewrite (op_delete_form c k sh s0 CL G). pose proof (CacheInv_get _ _ _ I G) as OK.
  pose proof (drained_step c _ s0 OK) as D. destruct (Stat_drained c s0) as (_ & _ & D3 & _).
  assert (KEY : forall s1 d x, ShStep (policy c) (mask c) (statsOn c) (Z.of_nat (Z.to_nat sh)) s0 s1 d x -> x = 0 ->
                pend s1 = [] -> view (policy c) s1 k = None -> Sub (policy c) (fst (drained c s0)) s1 ->
                Next false 0 0 (fun L => upd L k None) c (put_shard c sh s1 (hits c) (misses c) (evictions c + d) (expirations c))).
  { intros s1 d x S X PE VN SB. apply (Next_put0 c sh s0 s1 d x _ _ _ I G S); [intros E; congruence|reflexivity|lia|].
    apply (Agree_put_upd c sh s0 s1 k _ _ _ _ _ G Hk). apply (AUpd_drained _ s0 _ s1 k _ (drained_ASub c _ s0 OK) D3 PE).
    intros k' y VY. right. split; [intros ->; congruence|exact (SB _ _ VY)]. }
  destruct (lookup (fst (drained c s0)) (policy c) k) as [it|] eqn:LK.
  - destruct (drop_item (env_of c) (fst (drained c s0)) it reasonDeleted) as [[s1 ok] d] eqn:DI. cbn [fst snd].
    destruct (drop_step (policy c) (mask c) _ (env_of c) _ k it reasonDeleted s1 ok d eq_refl eq_refl (proj1 D) eq_refl LK DI) as (DS & _).
    destruct (lookup_drop_shrink (policy c) (mask c) (env_of c) _ k it reasonDeleted s1 ok d eq_refl eq_refl (proj1 (proj1 D))
                ltac:(discriminate) LK DI) as (_ & _ & VN & SB).
    pose proof (Stat_drop_item _ _ _ _ _ _ _ DI) as (_ & _ & S3 & _).
    rewrite <- Z.add_assoc. apply (KEY s1 _ _ (ShStep_trans _ _ _ _ _ _ _ _ _ _ _ D DS));
      [cbn [e_stats env_of]; destruct (statsOn c); reflexivity|congruence|exact VN|exact SB].
  - cbn [fst]. apply (KEY _ _ _ D eq_refl D3); [unfold view; rewrite LK; reflexivity|apply Sub_refl].
Qed.

(* Clear and Close: drain every queue, then empty every shard *)
Lemma clear_all_next c b cl G : CacheInv c -> b = closed (drain_all c) || cl ->
  Next cl 0 0 G c (with_shards (drain_all c) (map (clear_shard (policy (drain_all c))) (shards (drain_all c))) b (now (drain_all c))).
Proof.
  intros I ->. destruct (drain_all_next c I) as (N & Q). apply (Next_wipe _ _ _ (fun L => L)).
  - refine (Next_pre _ _ _ _ _ _ _ N _). apply Next_map; [exact (proj1 N)|reflexivity|intros i s; apply clear_step|].
    intros _ s Hs. split; [reflexivity|exact (Q s Hs)].
  - cbn [with_shards shards]. intros s Hs. apply in_map_iff in Hs. destruct Hs as [s0 [<- H0]]. split; [reflexivity|exact (Q s0 H0)].
Qed.

Lemma op_clear_next c : CacheInv c -> Next false 0 0 (fun _ _ => None) c (op_clear c).
Proof.
  intros I. unfold op_clear. destruct (closed c) eqn:CL; [exact (closed_next c _ _ I CL)|].
  apply clear_all_next; [exact I|symmetry; apply orb_false_r].
Qed.

Lemma op_close_next c : CacheInv c -> Next true 0 0 (fun _ _ => None) c (op_close c).
Proof.
  intros I. unfold op_close. destruct (closed c) eqn:CL; [exact (closed_next c _ _ I CL)|].
  apply clear_all_next; [exact I|symmetry; apply orb_true_r].
Qed.

Lemma cleanup_of_shardok pol m i e nw s : e_pol e = pol -> e_mask e = m ->
  ShardOK pol m i s -> ShardOK pol m i (CP.cleanup_of e nw s) /\ Stat s (CP.cleanup_of e nw s) /\ ASub pol s (CP.cleanup_of e nw s).
Proof.
  intros Hp Hm OK. pose proof OK as (P & _). unfold CP.cleanup_of.
  destruct (fold_left (cleanup_shard e nw) (tabk s) (s, 0, 0)) as [[s' ev'] ex'] eqn:E. cbn [fst].
  destruct (cleanup_fold_ok pol m e nw Hp Hm _ _ _ _ _ _ _ P E) as (P' & SB & ST & _).
  split; [|split; [exact ST|exact (ASub_of_Sub pol s s' (proj1 (proj2 (proj2 ST))) SB)]]. destruct ST as (S1 & S2 & S3 & S4).
  apply (ShardOK_step pol m i s _ OK P' S2 S3). apply (sub_tabk pol m s _ P P' SB).
Qed.

Lemma op_cleanup_next c : CacheInv c -> Next false 0 0 (fun L => L) c (op_cleanup c).
Proof.
  intros I. destruct (closed c) eqn:CL; [unfold op_cleanup; rewrite CL; apply Next_refl; [exact I|discriminate]|].
  destruct (op_cleanup_fields c) as (F1 & F2 & F3 & F4 & F5 & F6 & F7 & F8 & F9 & F10).
  pose proof (CP.op_cleanup_shards c CL) as SH.
  assert (OKF : forall s, In s (shards c) -> exists i, ShardOK (policy c) (mask c) i s /\
            ShardOK (policy c) (mask c) i (CP.cleanup_of (env_of c) (now c) s) /\ Stat s (CP.cleanup_of (env_of c) (now c) s) /\
            ASub (policy c) s (CP.cleanup_of (env_of c) (now c) s)).
  { intros s Hs. destruct (CacheInv_In c s I Hs) as [i OK]. exists i. split; [exact OK|].
    apply (cleanup_of_shardok _ _ i (env_of c) (now c) s eq_refl eq_refl OK). }
  assert (POK : forall s, In s (shards c) -> PolicyOK (policy c) (mask c) s) by (intros s Hs; destruct (OKF s Hs) as (i & OK & _); apply OK).
  destruct (op_cleanup_counts c CL POK) as (A & B & C).
  split; [|split; [|split; [rewrite F8; symmetry; apply orb_false_r|]]].
  - apply (CacheInv_ext (with_shards c (map (CP.cleanup_of (env_of c) (now c)) (shards c)) (closed c) (now c)));
      try (cbn; congruence).
    apply CacheInv_map; [exact I| |intros E; congruence].
    intros i s OK. apply cleanup_of_shardok; [reflexivity|reflexivity|exact OK].
  - constructor; try assumption; rewrite SH; [apply map_length| |]; rewrite map_map; apply map_ext_in; intros s Hs;
      destruct (OKF s Hs) as (i & _ & _ & ST & _); apply ST.
  - rewrite F9, F10. repeat split; try (destruct (statsOn c); lia).
    + unfold StatInv. rewrite F4, F9, F10, A, B, C. destruct (statsOn c); lia.
    + intros L AG. apply (Agree_ext L (with_shards c (map (CP.cleanup_of (env_of c) (now c)) (shards c)) (closed c) (now c)));
        [rewrite SH; reflexivity|exact F1|].
      apply Agree_map; [|exact AG]. intros s Hs. destruct (OKF s Hs) as (i & _ & _ & _ & AS). exact AS.
Qed.

Lemma advance_next c d : CacheInv c -> Next false 0 0 (fun L => L) c (with_shards c (shards c) (closed c) (now c + d)).
Proof.
  intros I. split; [apply (CacheInv_ext c); try reflexivity; exact I|]. split; [apply Cfg_with_shards; reflexivity|].
  split; [symmetry; apply orb_false_r|]. cbn [with_shards hits misses].
  split; [destruct (statsOn c); lia|]. split; [destruct (statsOn c); lia|].
  (* only the clock moves: counters, logs and shards are the same *)
  split; [intros SI; exact SI|]. intros L. apply Agree_ext; reflexivity.
Qed.

Lemma settle_next c : CacheInv c -> Next false 0 0 (fun L => L) c (settle c).
Proof.
  intros I. unfold settle. destruct (quiescent c); [|apply Next_refl; [exact I|discriminate]].
  unfold take_staged. cbn [fst with_shards shards closed now]. fold unstage.
  set (c1 := with_shards c (map adapts (shards c)) (closed c) (now c)).
  assert (N1 : Next false 0 0 (fun L => L) c c1).
  { apply Next_map; [exact I|symmetry; apply orb_false_r|intros i s; apply adapts_step|].
    intros E s Hs. destruct I as (_ & _ & CLI). destruct (CLI E s Hs) as [T PE].
    pose proof (Stat_adapts s) as (_ & _ & S3 & _). rewrite S3, tabk_adapts. auto. }
  refine (Next_pre _ _ _ _ _ _ _ N1 _).
  change (with_shards c1 (map unstage (map adapts (shards c))) (closed c) (now c))
    with (with_shards c1 (map unstage (shards c1)) (closed c1) (now c1)).
  apply Next_map; [exact (proj1 N1)|symmetry; apply orb_false_r|intros i s; apply unstage_step|].
  intros E s Hs. destruct N1 as ((_ & _ & CLI) & _). exact (CLI E s Hs).
Qed.
End Placement.

Section Machine.
Variable shard_of : Z -> Z.
Notation CacheInv := (CacheInv shard_of).
Notation Next := (Next shard_of).

Definition wf_op (n : Z) (op : cop) : Prop :=
  match op with
  | CSet k _ _ _ sh | CSetAsync k _ _ _ sh | CGet k sh | CGetTTL k sh | CExists k sh | CDelete k sh =>
      sh = shard_of k /\ 0 <= sh < n
  | _ => True
  end.

Theorem cstep_next c op ev : CacheInv c -> wf_op (nshards c) op ->
  Next (is_close op) (hit1 (closed c) op (snd (cstep c op ev))) (miss1 (closed c) op (snd (cstep c op ev)))
       (fun L => lat_step L (op, snd (cstep c op ev))) c (fst (cstep c op ev)).
Proof.
  intros I WF. pose proof (attach_events_next shard_of c ev I) as A. pose proof A as (I0 & C0 & L0 & _).
  rewrite orb_false_r in L0. rewrite <- L0. rewrite <- (cf_nshards _ _ C0) in WF.
  refine (Next_pre _ _ _ _ _ _ _ _ A _). unfold cstep. set (c0 := attach_events c ev) in *.
  assert (T : Next false 0 0 (fun L => L) c0 c0) by (apply Next_refl; [exact I0|discriminate]).
  (* Keys, Stats, SieveStats and ShardSizes return the cache as it is *)
  destruct op; cbn [wf_op is_close lat_step] in *; try (destruct (closed c0); exact T).
  - pose proof (op_set_next shard_of c0 k v ttl cst sh I0 WF) as X.
    destruct (op_set c0 k v ttl cst sh) as [c1 r]. destruct (closed c0); exact X.
  - pose proof (op_get_next shard_of c0 k sh I0 WF) as X. destruct (op_get c0 k sh) as [[[c1 ok] v] t]. exact X.
  - pose proof (op_get_next shard_of c0 k sh I0 WF) as X. destruct (op_get c0 k sh) as [[[c1 ok] v] t]. exact X.
  - pose proof (op_exists_next shard_of c0 k sh I0) as X.
    destruct (op_exists c0 k sh) as [c1 b]. destruct (closed c0); exact X.
  - pose proof (op_delete_next shard_of c0 k sh I0 WF) as X.
    destruct (op_delete c0 k sh) as [c1 b]. destruct (closed c0); exact X.
  - pose proof (op_clear_next shard_of c0 I0) as X. destruct (closed c0); exact X.
  - pose proof (op_cleanup_next shard_of c0 I0) as X. destruct (closed c0); exact X.
  - pose proof (advance_next shard_of c0 d I0) as X. destruct (closed c0); exact X.
  - pose proof (op_set_async_next shard_of c0 k v ttl cst sh I0 WF) as X.
    destruct (op_set_async c0 k v ttl cst sh) as [c1 r]. destruct (closed c0); exact X.
  - destruct (closed c0); [exact T|exact (proj1 (drain_all_next shard_of c0 I0))].
  - pose proof (op_close_next shard_of c0 I0) as X. destruct (closed c0); exact X.
Qed.

Theorem cstep_full_next c op ev : CacheInv c -> wf_op (nshards c) op ->
  Next (is_close op) (hit1 (closed c) op (snd (cstep_full c op ev))) (miss1 (closed c) op (snd (cstep_full c op ev)))
       (fun L => lat_step L (op, snd (cstep_full c op ev))) c (fst (cstep_full c op ev)).
Proof.
  intros I WF. pose proof (cstep_next c op ev I WF) as N. unfold cstep_full. destruct (cstep c op ev) as [c1 r].
  exact (Next_post _ _ _ _ _ _ _ _ N (settle_next shard_of c1 (proj1 N))).
Qed.

Fixpoint crun (c : cache) (ops : list (cop * list Z)) : cache :=
  match ops with [] => c | (op, ev) :: r => crun (fst (cstep_full c op ev)) r end.

Theorem crun_inv ops : forall c, CacheInv c -> Forall (fun p => wf_op (nshards c) (fst p)) ops ->
  CacheInv (crun c ops) /\ Cfg c (crun c ops).
Proof.
  induction ops as [|[op ev] r IH]; intros c I WF; cbn [crun].
  - split; [exact I|apply Cfg_refl].
  - apply Forall_cons_iff in WF. destruct WF as [W1 W2]. cbn [fst] in W1.
    destruct (cstep_full_next c op ev I W1) as (A & B & _).
    destruct (IH _ A) as (A2 & B2).
    + rewrite (cf_nshards _ _ B). exact W2.
    + split; [exact A2|eapply Cfg_trans; eauto].
Qed.
End Machine.

Lemma segs_bounds cp pr gr : 1 <= cp ->
  let sg := sieve_segs cp pr gr in
  1 <= lo sg /\ lo sg <= pc sg /\ pc sg <= hi sg /\ hi sg <= cp /\ pc sg + mc sg = cp.
Proof.
  intros H. unfold sieve_segs. cbn [lo hi pc mc].
  generalize (cp * (if pr =? 0 then defaultProbationRatio else pr) / 100). intros q.
  (* the two quotients enter only through 100 * (x / 100) <= x and 0 <= x / 100: lia then sees no division *)
  pose proof (Z.mul_div_le cp 100 eq_refl) as A. pose proof (Z.div_pos cp 100 ltac:(lia) eq_refl) as A0.
  pose proof (Z.mul_div_le (cp * 60) 100 eq_refl) as B. pose proof (Z.div_pos (cp * 60) 100 ltac:(lia) eq_refl) as B0.
  revert A A0 B B0. generalize (cp / 100) (cp * 60 / 100). intros a b A A0 B B0.
  destruct ((cp <=? Z.max (Z.max 1 a) b) && (1 <? cp)) eqn:E; lia.
Qed.

Lemma share_nonneg b n i : 1 <= n -> 0 <= share b n i.
Proof.
  intros Hn. unfold share. destruct (0 <? b) eqn:E; [|lia].
  assert (0 <= b / n) by (apply Z.div_pos; lia). destruct (i <? b mod n); lia.
Qed.

Lemma new_shard_ok shard_of cfg n i pol m : 1 <= n ->
  ShardOK shard_of pol m i (new_shard cfg n i).
Proof.
  intros Hn.
  assert (A : 0 <= shard_cap cfg n i) by (apply share_nonneg; exact Hn).
  assert (B : 0 <= shard_cost_cap cfg n i) by (apply share_nonneg; exact Hn).
  split; [|split; [constructor|intros k []]].
  split; [exact A|]. split; [exact B|].
  assert (O : over_capacity (new_shard cfg n i) = false).
  { unfold over_capacity, new_shard. cbn [cap costcap size scost]. lia. }
  destruct (is_sieve (new_shard cfg n i) pol) eqn:IS.
  - destruct (is_sieve_true_inv _ _ IS) as [_ C1]. cbn [new_shard cap] in C1.
    split; [|split; [intros it []|split; [intros k v; reflexivity|split; [reflexivity|exact O]]]].
    unfold SP.SInv, new_shard. cbn [cap pcap mcap pmin pmax tabk lst lfu prob main hand size scost].
    replace (Z.max (shard_cap cfg n i) 1) with (shard_cap cfg n i) by lia.
    destruct (segs_bounds (shard_cap cfg n i) (ProbationRatio cfg) (GhostRatio cfg) C1) as (S1 & S2 & S3 & S4 & S5).
    apply SP.SInvF_empty; [exact S5|repeat split; assumption|exact C1].
  - split; [|intros _; exact O]. apply CP.Good_intro.
    + assert (LE : CP.LfuOK [] []).
      { constructor; cbn; try (constructor; fail). intros k; tauto. }
      constructor; cbn [new_shard tabk lst lfu prob main hand size scost map];
        try reflexivity; try (constructor; fail); try (intros _; exact LE); try (intros k; cbn; tauto).
      exact IS.
    + intros k v. reflexivity.
    + reflexivity.
Qed.

Lemma nth_error_zseq s n i : (i < n)%nat -> nth_error (zseq s n) i = Some (s + Z.of_nat i).
Proof.
  revert s i; induction n as [|n IH]; intros s i H; [lia|].
  destruct i as [|i]; cbn [zseq nth_error]; [f_equal; lia|]. rewrite IH by lia. f_equal. lia.
Qed.

(* every configuration accepted by Validate (with a sane CPU count and an explicit shard count below 2^62,
   see ConfigProofs.shard_count_wrap_witness) starts in a state satisfying the invariant *)
Theorem cache_init_inv shard_of l cfg ncpu msk weigher t0 :
  decode_config (firstn 13 l) = Some (cfg, ncpu) -> skipn 13 l = [msk; weigher; t0] ->
  validate cfg = None -> 1 <= ncpu -> ShardCount cfg <= 2 ^ 62 ->
  CacheInv shard_of (cache_init l) /\ closed (cache_init l) = false /\
  nshards (cache_init l) = shard_count cfg ncpu /\ policy (cache_init l) = effective_policy cfg /\
  map cap (shards (cache_init l)) = map (shard_cap cfg (shard_count cfg ncpu)) (zseq 0 (Z.to_nat (shard_count cfg ncpu))) /\
  map costcap (shards (cache_init l)) = map (shard_cost_cap cfg (shard_count cfg ncpu)) (zseq 0 (Z.to_nat (shard_count cfg ncpu))) /\
  (forall s, In s (shards (cache_init l)) -> tabk s = [] /\ pend s = [] /\ glog s = [] /\ serr s = 0) /\
  hits (cache_init l) = 0 /\ misses (cache_init l) = 0 /\ evictions (cache_init l) = 0 /\ expirations (cache_init l) = 0.
Proof.
  intros D S V Hcpu Hsc. unfold cache_init. rewrite D, S.
  destruct (shard_count_pow2 cfg ncpu V Hcpu Hsc) as [_ Hn]. set (n := shard_count cfg ncpu) in *.
  cbn [closed nshards policy shards hits misses evictions expirations].
  split; [|split; [reflexivity|split; [reflexivity|split; [reflexivity|split; [|split; [|split]]]]]].
  - split; [|split].
    + cbn [shards nshards]. rewrite map_length, zseq_length. lia.
    + cbn [shards policy mask]. intros i s H. rewrite nth_error_map in H.
      destruct (nth_error (zseq 0 (Z.to_nat n)) i) as [z|] eqn:E; [|discriminate]. injection H as <-.
      assert (Hi : (i < Z.to_nat n)%nat).
      { rewrite <- (zseq_length 0 (Z.to_nat n)). apply nth_error_Some. congruence. }
      rewrite nth_error_zseq in E by exact Hi. injection E as <-. cbn [Z.add]. apply new_shard_ok. exact Hn.
    + cbn [closed]. discriminate.
  - rewrite map_map. reflexivity.
  - rewrite map_map. reflexivity.
  - intros s Hs. apply in_map_iff in Hs. destruct Hs as [i [<- _]]. repeat split; reflexivity.
  - repeat split; reflexivity.
Qed.

Lemma shard_items_facts pol m s : PolicyOK pol m s ->
  let l := shard_items s pol in
  NoDup (map key l) /\ NoDup (tabk s) /\ (forall k, In k (tabk s) <-> In k (map key l)) /\
  size s = zlen l /\ scost s = sumZ (map cost l) /\
  (forall it, In it l -> lookup s pol (key it) = Some it /\ 0 <= cost it /\ unpub it = false) /\
  (forall k it, lookup s pol k = Some it -> In it l /\ key it = k).
Proof.
  intros (_ & _ & H). cbv zeta. unfold shard_items. destruct (is_sieve s pol) eqn:IS.
  - destruct (is_sieve_true_inv _ _ IS) as [-> _]. destruct H as (I & Q & _).
    assert (E : filter (fun it => negb (unpub it)) (prob s ++ main s) = prob s ++ main s).
    { apply filter_all. intros x Hx. rewrite (Q x Hx). reflexivity. }
    rewrite E. pose proof I as [N1 N2 T SZ SC CN _ _ _ _ _].
    split; [exact N1|]. split; [exact N2|]. split.
    { intros k. rewrite T. split.
      - intros [it [Hi [K _]]]. rewrite <- K. apply in_map. exact Hi.
      - intros Hk. apply in_map_iff in Hk. destruct Hk as [it [K Hi]]. exists it. split; [exact Hi|split; [exact K|apply Q; exact Hi]]. }
    split; [rewrite SZ; unfold zlen; rewrite app_length; lia|]. split; [exact SC|]. split.
    + intros it Hi. split; [|split; [apply CN; exact Hi|apply Q; exact Hi]].
      apply (SP.lookup_of_in (senv policySieve false 0) eq_refl s it I Hi (Q _ Hi)).
    + intros k it LK. destruct (SP.lookup_some (senv policySieve false 0) eq_refl s k it I LK) as (A & B & _). auto.
  - destruct H as ((C & _) & _). pose proof C as [C1 C2 C3 C4 C5 C6 C7 C8 C9 C10 C11].
    split; [exact C3|]. split; [exact C2|]. split; [exact C4|]. split; [exact C5|]. split; [exact C6|]. split.
    + intros it Hi. rewrite Forall_forall in C7. destruct (C7 it Hi) as [X Y]. split; [|split; assumption].
      rewrite (CP.lookup_find _ _ _ C). apply find_item_unique; [assumption..|reflexivity].
    + intros k it LK. destruct (CP.lookup_resident _ _ _ _ C LK) as (_ & K & _ & Hi & _). auto.
Qed.

(* the size counter is the number of keys in the table: the table and the item list are duplicate-free with the same keys *)
Lemma shard_size_tabk pol m s : PolicyOK pol m s -> size s = zlen (tabk s).
Proof.
  intros P. destruct (shard_items_facts _ _ _ P) as (A & B & C & D & _).
  rewrite D. unfold zlen. f_equal. rewrite <- (map_length key).
  apply Nat.le_antisymm; apply NoDup_incl_length; try assumption; intros k Hk; apply C; exact Hk.
Qed.

Lemma NoDup_map_filter {A} (g : A -> Z) (f : A -> bool) l : NoDup (map g l) -> NoDup (map g (filter f l)).
Proof.
  induction l as [|x l IH]; cbn [filter map]; intros ND; [constructor|].
  inversion ND as [|y r Hy ND']; subst. destruct (f x); [|exact (IH ND')].
  cbn [map]. constructor; [|exact (IH ND')]. intros H. apply Hy.
  apply in_map_iff in H. destruct H as [z [E Hz]]. apply filter_In in Hz. rewrite <- E. apply in_map. tauto.
Qed.

Lemma NoDup_flat_map_idx {A} (g : A -> list Z) (F : Z -> Z) : forall (l : list A) (n : nat),
  (forall i s, nth_error l i = Some s -> NoDup (g s) /\ forall k, In k (g s) -> F k = Z.of_nat (n + i)) ->
  NoDup (flat_map g l).
Proof.
  induction l as [|a l IH]; intros n H; cbn [flat_map]; [constructor|].
  apply nodup_app_iff. destruct (H O a eq_refl) as [ND0 F0]. split; [exact ND0|]. split.
  - apply (IH (S n)). intros i s Hi. destruct (H (S i) s Hi) as [A1 A2]. split; [exact A1|].
    intros k Hk. rewrite (A2 k Hk). f_equal. lia.
  - intros x Hx Hx'. apply in_flat_map in Hx'. destruct Hx' as [s [Hs Hxs]].
    apply In_nth_error in Hs. destruct Hs as [i Hi]. destruct (H (S i) s Hi) as [_ A2].
    pose proof (F0 x Hx). pose proof (A2 x Hxs). lia.
Qed.

Lemma insert_z_perm x l : Permutation (insert_z x l) (x :: l).
Proof.
  induction l as [|y l IH]; cbn [insert_z]; [apply Permutation_refl|].
  destruct (x <=? y); [apply Permutation_refl|].
  eapply Permutation_trans; [apply perm_skip; exact IH|apply perm_swap].
Qed.
Lemma sort_z_perm l : Permutation (sort_z l) l.
Proof.
  induction l as [|x l IH]; cbn [sort_z fold_right]; [apply Permutation_refl|].
  eapply Permutation_trans; [apply insert_z_perm|apply perm_skip; exact IH].
Qed.

Section C01.
Variable shard_of : Z -> Z.
Notation CacheInv := (CacheInv shard_of).
Notation Agree := (Agree shard_of).

(* A Get hit returns a value that was written; it returns the LATEST one when no command for k is queued on its shard
   (always so at quiescent points), or when the shard is a Sieve shard that does not hold k, since such a Get drains the
   queue before it looks.  A hit with a write still queued behind it returns the older value. *)
Theorem get_hit_latest L c k sh s0 c' v t :
  CacheInv c -> Agree L c -> sh = shard_of k -> get_shard c sh = Some s0 ->
  op_get c k sh = (c', true, v, t) ->
  (exists v', L k = Some v') /\
  (pend_last (pend s0) k = None \/ (is_sieve s0 (policy c) = true /\ ~ In k (tabk s0)) -> L k = Some v).
Proof.
  intros I A WF G H. destruct (closed c) eqn:CL; [unfold op_get in H; rewrite CL in H; discriminate|].
  rewrite (op_get_form c k sh s0 CL G) in H. cbv zeta in H.
  pose proof (CacheInv_get _ _ _ _ I G) as OK. destruct (get_pre_step shard_of c k _ s0 OK) as (_ & AS1).
  set (s := fst (get_pre c k s0)) in *.
  unfold get_out in H. destruct (lookup s (policy c) k) as [it|] eqn:LK; [|discriminate].
  destruct (expired it (now c)); [discriminate|]. injection H as _ <- _.
  destruct (amap_resident _ _ _ _ LK) as (v' & AM & EQ). subst sh.
  assert (LV : L k = Some v') by (apply (A k s0 v' G); apply AS1; exact AM).
  split; [exists v'; exact LV|]. intros C. rewrite LV. f_equal. apply EQ.
  pose proof (proj1 (proj2 (proj2 (Stat_drained c s0)))) as PE. unfold s, get_pre. destruct C as [C|[C1 C2]].
  - (* nothing queued for k: drained or not, nothing is queued afterwards *)
    destruct (is_sieve s0 (policy c) && negb (memz (tabk s0) k)); [rewrite PE; reflexivity|exact C].
  - (* a Sieve miss: the Get drained the queue first *)
    apply memz_false in C2. rewrite C1, C2. cbn [andb negb fst]. rewrite PE. reflexivity.
Qed.

Theorem exists_true_latest L c k sh :
  CacheInv c -> Agree L c -> sh = shard_of k -> snd (op_exists c k sh) = true -> exists v, L k = Some v.
Proof.
  intros I A WF H. destruct (closed c) eqn:CL; [unfold op_exists in H; rewrite CL in H; discriminate|].
  destruct (get_shard c sh) as [s|] eqn:G; [|unfold op_exists in H; rewrite CL, G in H; discriminate].
  rewrite (op_exists_form c k sh s CL G) in H. unfold get_out in H.
  destruct (lookup s (policy c) k) as [it|] eqn:LK; [|discriminate].
  destruct (amap_resident _ _ _ _ LK) as (v & AM & _). exists v. subst sh. exact (A k s v G AM).
Qed.

Theorem keys_latest L c k : CacheInv c -> Agree L c -> In k (op_keys c) -> exists v, L k = Some v.
Proof.
  intros I A H. unfold op_keys in H. destruct (closed c); [destruct H|].
  apply in_flat_map in H. destruct H as [s [Hs Hk]]. apply In_nth_error in Hs. destruct Hs as [i Hi].
  apply in_map_iff in Hk. destruct Hk as [it [K Hit]]. apply filter_In in Hit. destruct Hit as [Hit F].
  apply andb_prop in F. destruct F as [F1 _]. apply memz_In in F1. rewrite K in F1.
  destruct I as (_ & OKS & _). destruct (OKS _ _ Hi) as (P & _ & T).
  destruct (shard_items_facts _ _ _ P) as (_ & _ & _ & _ & _ & LI & _). destruct (LI it Hit) as (LK & _). rewrite K in LK.
  assert (G : get_shard c (shard_of k) = Some s) by (unfold get_shard; rewrite (T k F1), Nat2Z.id; exact Hi).
  destruct (amap_resident _ _ _ _ LK) as (v & AM & _). exists v. exact (A k s v G AM).
Qed.

Theorem op_keys_nodup c : CacheInv c -> NoDup (op_keys c).
Proof.
  intros I. unfold op_keys. destruct (closed c); [constructor|].
  apply (NoDup_flat_map_idx _ shard_of (shards c) 0). intros i s Hi.
  destruct I as (_ & OKS & _). destruct (OKS _ _ Hi) as (P & _ & T).
  destruct (shard_items_facts _ _ _ P) as (ND & _). split.
  - apply NoDup_map_filter. exact ND.
  - intros k Hk. apply in_map_iff in Hk. destruct Hk as [it [K Hit]]. apply filter_In in Hit. destruct Hit as [_ F].
    apply andb_prop in F. destruct F as [F1 _]. apply memz_In in F1. rewrite K in F1. cbn [Nat.add]. apply T. exact F1.
Qed.

Theorem c01_delete_iff_resident c k sh : CacheInv c ->
  (snd (op_delete c k sh) = true <->
   closed c = false /\ exists s0, get_shard c sh = Some s0 /\ view (policy c) (fst (drained c s0)) k <> None).
Proof.
  intros I. destruct (closed c) eqn:CL.
  { unfold op_delete. rewrite CL. cbn [snd]. split; [discriminate|intros [X _]; discriminate]. }
  destruct (get_shard c sh) as [s0|] eqn:G.
  - rewrite (op_delete_form c k sh s0 CL G). unfold view.
    destruct (lookup (fst (drained c s0)) (policy c) k) as [it|] eqn:LK.
    + destruct (drop_item (env_of c) (fst (drained c s0)) it reasonDeleted) as [[s1 ok] d] eqn:DI. cbn [fst snd].
      pose proof (drained_ok shard_of c _ s0 (CacheInv_get _ _ _ _ I G)) as (P & _).
      assert (R : 0 <= reasonDeleted) by (unfold reasonDeleted; lia).
      destruct (lookup_drop_shrink (policy c) (mask c) (env_of c) _ k it _ s1 ok d eq_refl eq_refl P R LK DI) as (_ & -> & _).
      split; [intros _; split; [reflexivity|exists s0; split; [reflexivity|rewrite LK; discriminate]]|reflexivity].
    + cbn [snd]. split; [discriminate|]. intros [_ [s1 [E X]]]. injection E as <-. rewrite LK in X. congruence.
  - unfold op_delete, drain_shard. rewrite CL, G. cbn beta iota zeta. rewrite G. cbn [snd].
    split; [discriminate|]. intros [_ [s1 [E _]]]. discriminate.
Qed.

Theorem c01_failed_set_noop c k v ttl cst sh :
  (snd (op_set c k v ttl cst sh) <> 0 -> fst (op_set c k v ttl cst sh) = c) /\
  (snd (op_set_async c k v ttl cst sh) <> 0 -> fst (op_set_async c k v ttl cst sh) = c).
Proof.
  unfold op_set, op_set_async. destruct (set_check c sh cst =? 0) eqn:R; cbn [negb fst snd].
  - split; [intros H; congruence|]. destruct (get_shard c sh); cbn [fst snd]; intros H; congruence.
  - split; reflexivity.
Qed.

(* what a result must satisfy against the reference map L of the history before it: a Get hit as in get_hit_latest,
   Exists = true and every listed key only for keys L defines; misses are always allowed (lossy map) *)
Definition res_ok (c : cache) (L : Z -> option Z) (op : cop) (ev : list Z) (r : cres) : Prop :=
  let c0 := attach_events c ev in
  match op, r with
  | CGet k sh, RGet true v | CGetTTL k sh, RGetTTL true v _ =>
      (exists v', L k = Some v') /\
      (forall s0, get_shard c0 sh = Some s0 ->
         pend_last (pend s0) k = None \/ (is_sieve s0 (policy c0) = true /\ ~ In k (tabk s0)) -> L k = Some v)
  | CExists k sh, RBool true => exists v', L k = Some v'
  | CKeys, RKeys l => NoDup l /\ forall k, In k l -> exists v', L k = Some v'
  | _, _ => True
  end.

Fixpoint run_ok (c : cache) (L : Z -> option Z) (ops : list (cop * list Z)) : Prop :=
  match ops with
  | [] => True
  | (op, ev) :: r =>
      res_ok c L op ev (snd (cstep_full c op ev)) /\
      run_ok (fst (cstep_full c op ev)) (lat_step L (op, snd (cstep_full c op ev))) r
  end.

Lemma c01_step L c op ev : CacheInv c -> Agree L c -> wf_op shard_of (nshards c) op ->
  res_ok c L op ev (snd (cstep_full c op ev)) /\
  Agree (lat_step L (op, snd (cstep_full c op ev))) (fst (cstep_full c op ev)).
Proof.
  intros I A WF. split; [|exact (Next_agree _ _ _ _ _ _ _ L (cstep_full_next shard_of c op ev I WF) A)].
  unfold cstep_full, res_ok. pose proof (attach_events_next shard_of c ev I) as N0.
  pose proof (Next_agree _ _ _ _ _ _ _ L N0 A) as A0. destruct N0 as (I0 & C0 & _). rewrite <- (cf_nshards _ _ C0) in WF. unfold cstep. set (c0 := attach_events c ev) in *.
  assert (GET : forall k sh, routed shard_of (nshards c0) k sh -> forall c1 v t, op_get c0 k sh = (c1, true, v, t) ->
            (exists v', L k = Some v') /\ forall s0, get_shard c0 sh = Some s0 ->
               pend_last (pend s0) k = None \/ (is_sieve s0 (policy c0) = true /\ ~ In k (tabk s0)) -> L k = Some v).
  { intros k sh W c1 v t E. destruct (routed_get shard_of c0 k sh I0 W) as [s0 G].
    destruct (get_hit_latest L c0 k sh s0 c1 v t I0 A0 (proj1 W) G E) as (X1 & X2).
    split; [exact X1|]. intros s1 G1. rewrite G in G1. injection G1 as <-. exact X2. }
  destruct op; cbn [wf_op] in WF; try exact Logic.I.
  - destruct (op_get c0 k sh) as [[[c1 ok] v] t] eqn:E. destruct ok; [exact (GET k sh WF c1 v t E)|exact Logic.I].
  - destruct (op_get c0 k sh) as [[[c1 ok] v] t] eqn:E. destruct ok; [exact (GET k sh WF c1 v t E)|exact Logic.I].
  - pose proof (exists_true_latest L c0 k sh I0 A0 (proj1 WF)) as Y.
    destruct (op_exists c0 k sh) as [c1 b]. destruct b; [apply Y; reflexivity|exact Logic.I].
  - split.
    + apply (Permutation_NoDup (Permutation_sym (sort_z_perm _))). apply op_keys_nodup. exact I0.
    + intros k Hk. apply (keys_latest L c0 k I0 A0). apply (Permutation_in _ (sort_z_perm _)). exact Hk.
Qed.

Theorem c01_lookup_latest_or_miss ops : forall c L,
  CacheInv c -> Agree L c -> Forall (fun p => wf_op shard_of (nshards c) (fst p)) ops -> run_ok c L ops.
Proof.
  induction ops as [|[op ev] r IH]; intros c L I A WF; cbn [run_ok]; [exact Logic.I|].
  apply Forall_cons_iff in WF. destruct WF as [W1 W2]. cbn [fst] in W1.
  destruct (c01_step L c op ev I A W1) as (R & A').
  destruct (cstep_full_next shard_of c op ev I W1) as (I' & C' & _).
  split; [exact R|]. apply IH; [exact I'|exact A'|]. rewrite (cf_nshards _ _ C'). exact W2.
Qed.

Fixpoint chist (c : cache) (ops : list (cop * list Z)) : list (cop * cres) :=
  match ops with [] => [] | (op, ev) :: r => (op, snd (cstep_full c op ev)) :: chist (fst (cstep_full c op ev)) r end.

End C01.

Lemma zlen_flat_map {A B} (f : A -> list B) l : zlen (flat_map f l) = sumZ (map (fun s => zlen (f s)) l).
Proof.
  unfold zlen. induction l as [|a l IH]; cbn [flat_map map sumZ length]; [reflexivity|].
  rewrite app_length, Nat2Z.inj_add, IH. reflexivity.
Qed.

Lemma sumZ_map_le {A} (f g : A -> Z) l : (forall x, In x l -> f x <= g x) -> sumZ (map f l) <= sumZ (map g l).
Proof.
  induction l as [|a l IH]; intros H; cbn [map sumZ]; [lia|].
  pose proof (H a (or_introl eq_refl)). assert (sumZ (map f l) <= sumZ (map g l)); [|lia].
  apply IH. intros x Hx. apply H. right. exact Hx.
Qed.

Lemma sumZ_flat_map {A} (f : A -> list Z) l : sumZ (flat_map f l) = sumZ (map (fun s => sumZ (f s)) l).
Proof. induction l as [|a l IH]; cbn [flat_map map sumZ]; [reflexivity|]. rewrite sumZ_app, IH. reflexivity. Qed.

Lemma filter_length_le {A} (f : A -> bool) l : (length (filter f l) <= length l)%nat.
Proof. induction l as [|a l IH]; cbn [filter length]; [lia|]. destruct (f a); cbn [length]; lia. Qed.

Lemma map_flat_map {A B C} (g : B -> C) (f : A -> list B) l : map g (flat_map f l) = flat_map (fun x => map g (f x)) l.
Proof. induction l as [|a l IH]; cbn [flat_map map]; [reflexivity|]. rewrite map_app, IH. reflexivity. Qed.

(* every entry physically held by the cache, including expired entries not yet swept *)
Definition all_items (c : cache) : list item := flat_map (fun s => shard_items s (policy c)) (shards c).

Section Accounting.
Variable shard_of : Z -> Z.
Notation CacheInv := (CacheInv shard_of).

(* holds at every state, in particular at the quiescent ones *)
Theorem c10_size_cost c : CacheInv c ->
  total_size c = zlen (all_items c) /\
  total_size c = zlen (flat_map tabk (shards c)) /\
  total_cost c = (if trackCost c then sumZ (map cost (all_items c)) else total_size c) /\
  NoDup (map key (all_items c)) /\
  (forall k, In k (map key (all_items c)) <-> In k (flat_map tabk (shards c))) /\
  zlen (op_keys c) <= total_size c.
Proof.
  intros I.
  assert (F : forall s, In s (shards c) ->
     let l := shard_items s (policy c) in
     NoDup (map key l) /\ NoDup (tabk s) /\ (forall k, In k (tabk s) <-> In k (map key l)) /\
     size s = zlen l /\ scost s = sumZ (map cost l)).
  { intros s Hs. destruct (CacheInv_In shard_of c s I Hs) as [i (P & _)].
    destruct (shard_items_facts _ _ _ P) as (A & B & C & D & E & _). auto. }
  assert (E1 : total_size c = zlen (all_items c)).
  { unfold total_size, all_items. rewrite zlen_flat_map. apply sumZ_map_ext. intros s Hs. apply (F s Hs). }
  split; [exact E1|]. split.
  { unfold total_size. rewrite zlen_flat_map. apply sumZ_map_ext. intros s Hs.
    destruct (CacheInv_In shard_of c s I Hs) as [i (P & _)]. exact (shard_size_tabk _ _ _ P). }
  split.
  { unfold total_cost. destruct (trackCost c); [|reflexivity]. unfold all_items.
    rewrite map_flat_map, sumZ_flat_map. apply sumZ_map_ext. intros s Hs. apply (F s Hs). }
  assert (KK : map key (all_items c) = flat_map (fun s => map key (shard_items s (policy c))) (shards c)).
  { unfold all_items. apply map_flat_map. }
  split.
  { rewrite KK. apply (NoDup_flat_map_idx _ shard_of (shards c) 0). intros i s Hi.
    destruct I as (_ & OKS & _). destruct (OKS _ _ Hi) as (P & _ & T).
    destruct (shard_items_facts _ _ _ P) as (A & _ & C & _). split; [exact A|].
    intros k Hk. cbn [Nat.add]. apply T. apply C. exact Hk. }
  split.
  { intros k. rewrite KK, !in_flat_map. split; intros [s [Hs Hk]]; exists s; (split; [exact Hs|]); apply (F s Hs); exact Hk. }
  rewrite E1. unfold op_keys, all_items. destruct (closed c); [unfold zlen; cbn; lia|].
  rewrite !zlen_flat_map. apply sumZ_map_le. intros s _. unfold zlen. rewrite map_length.
  apply inj_le. apply filter_length_le.
Qed.

(* errs c = 0 (what the correspondence check verifies on real traces) means: no shard refused an oracle event *)
Lemma errs_zero c : errs c = 0 <-> forall s, In s (shards c) -> serr s = 0.
Proof using.
  clear shard_of. (* else tauto uses the section's shard_of : Z -> Z as an implication *)
  unfold errs. generalize (shards c). intros l.
  assert (K : forall l a, fold_left (fun a s => if a =? 0 then serr s else a) l a = 0 <-> a = 0 /\ forall s, In s l -> serr s = 0).
  { induction l0 as [|x l0 IH]; intros a; cbn [fold_left]; [split; [intros H; split; [exact H|intros s []]|tauto]|].
    rewrite IH. destruct (Z.eqb_spec a 0) as [->|NE].
    - split; [intros [A B]; split; [reflexivity|intros s [<-|H]; auto]|intros [_ B]; split; [apply B; left; reflexivity|intros s H; apply B; right; exact H]].
    - split; [intros [A _]; contradiction|intros [A _]; contradiction]. }
  rewrite K. tauto.
Qed.

(* the invariant projected on one shard: table domain = list members, no duplicates, counters = sizes *)
Theorem c10_structures_agree c i s : CacheInv c -> nth_error (shards c) i = Some s ->
  let l := shard_items s (policy c) in
  NoDup (map key l) /\ NoDup (tabk s) /\ (forall k, In k (tabk s) <-> In k (map key l)) /\
  (forall k, In k (tabk s) <-> lookup s (policy c) k <> None) /\
  size s = zlen l /\ size s = zlen (tabk s) /\ scost s = sumZ (map cost l) /\
  (forall it, In it l -> 0 <= cost it /\ unpub it = false /\ lookup s (policy c) (key it) = Some it) /\
  (forall k, In k (tabk s) -> shard_of k = Z.of_nat i) /\
  (if is_sieve s (policy c)
   then l = prob s ++ main s /\ lst s = [] /\ lfu s = [] /\ pcap s + mcap s = cap s /\
        (forall h, hand s = Some h -> In h (map key (main s)))
   else l = lst s /\ prob s = [] /\ main s = [] /\ hand s = None /\
        (policy c = policyLFU -> CP.LfuOK (lfu s) (tabk s))).
Proof.
  intros (_ & OKS & _) Hi. cbv zeta. destruct (OKS _ _ Hi) as (P & _ & T).
  destruct (shard_items_facts _ _ _ P) as (A & B & C & D & E & F & _).
  split; [exact A|]. split; [exact B|]. split; [exact C|]. split.
  { intros k. rewrite (tab_view _ _ _ _ P). unfold view. destruct (lookup s (policy c) k); split; congruence. }
  split; [exact D|]. split.
  { exact (shard_size_tabk _ _ _ P). }
  split; [exact E|]. split; [intros it Hit; destruct (F it Hit) as (X & Y & Z0); auto|]. split; [exact T|].
  destruct P as (_ & _ & H). unfold shard_items. destruct (is_sieve s (policy c)) eqn:IS.
  - destruct H as (I & Q & _). pose proof I as [_ _ _ _ _ _ HH CC _ CL _]. destruct CL as [CL1 CL2].
    split; [apply filter_all; intros x Hx; rewrite (Q x Hx); reflexivity|]. auto.
  - destruct H as ((CI & _) & _). destruct CI as [C1 C2 C3 C4 C5 C6 C7 C8 C9 C10 C11]. auto.
Qed.

(* Within budget.  Unconditional for LRU / FIFO / Sieve; for LFU under serr = 0 (a refused oracle event
    stops the LFU eviction loop, see ClassicProofs.budget_needs_serr_zero_refuted). *)
Theorem c03_within_budget c i s : CacheInv c -> nth_error (shards c) i = Some s ->
  (policy c <> policyLFU \/ serr s = 0) ->
  (0 < cap s -> size s <= cap s) /\ (0 < costcap s -> scost s <= costcap s).
Proof.
  intros (_ & OKS & _) Hi E. destruct (OKS _ _ Hi) as ((_ & _ & H) & _).
  assert (O : over_capacity s = false).
  { destruct (is_sieve s (policy c)); [apply H|]. destruct H as [_ O]. apply O. exact E. }
  unfold over_capacity in O. lia.
Qed.

Lemma caps_sum cfg ncpu : validate cfg = None -> 1 <= ncpu -> ShardCount cfg <= 2 ^ 62 -> 0 < MaxSize cfg ->
  let n := shard_count cfg ncpu in
  sumZ (map (shard_cap cfg n) (zseq 0 (Z.to_nat n))) = MaxSize cfg /\
  Forall (fun x => 1 <= x) (map (shard_cap cfg n) (zseq 0 (Z.to_nat n))).
Proof.
  intros V Hc Hs Hm. cbv zeta. destruct (shard_count_pow2 cfg ncpu V Hc Hs) as [_ Hn].
  destruct (shard_count_le_maxsize cfg ncpu V Hc Hs Hm) as [Hle _].
  split; [apply share_sum; assumption|]. apply Forall_forall. intros x Hx. apply in_map_iff in Hx.
  destruct Hx as [i [<- _]]. apply share_ge_1. lia.
Qed.

(* The global form: in every state reachable from a valid configuration with MaxSize > 0, Keys lists at most
    MaxSize keys, and the cache holds at most MaxSize entries (for LFU: on shards that raised no error) *)
Theorem c03_keys_le_maxsize c0 c cfg ncpu :
  map cap (shards c0) = map (shard_cap cfg (shard_count cfg ncpu)) (zseq 0 (Z.to_nat (shard_count cfg ncpu))) ->
  validate cfg = None -> 1 <= ncpu -> ShardCount cfg <= 2 ^ 62 -> 0 < MaxSize cfg ->
  Cfg c0 c -> CacheInv c -> (policy c <> policyLFU \/ errs c = 0) ->
  zlen (op_keys c) <= total_size c /\ total_size c <= MaxSize cfg.
Proof.
  intros E0 V Hc Hs Hm CF I ER.
  destruct (caps_sum cfg ncpu V Hc Hs Hm) as [SUM GE]. cbv zeta in SUM, GE. rewrite <- E0 in SUM, GE.
  rewrite <- (cf_caps _ _ CF) in SUM, GE.
  split; [apply (c10_size_cost c I)|]. rewrite <- SUM. unfold total_size. apply sumZ_map_le.
  intros s Hs'. rewrite Forall_forall in GE. pose proof (GE (cap s) (in_map cap _ _ Hs')) as C1.
  apply In_nth_error in Hs'. destruct Hs' as [i Hi].
  assert (SE : policy c <> policyLFU \/ serr s = 0).
  { destruct ER as [ER|ER]; [left; exact ER|right]. apply (proj1 (errs_zero c) ER). eapply nth_error_In. exact Hi. }
  destruct (c03_within_budget c i s I Hi SE) as [B _]. apply B. lia.
Qed.
Theorem stat_step c op ev : CacheInv c -> StatInv c -> wf_op shard_of (nshards c) op ->
  let c' := fst (cstep_full c op ev) in
  let r := snd (cstep_full c op ev) in
  StatInv c' /\ closed c' = closed c || is_close op /\
  (statsOn c = true -> hits c' = hits c + hit1 (closed c) op r /\ misses c' = misses c + miss1 (closed c) op r).
Proof.
  intros I SI WF. destruct (cstep_full_next shard_of c op ev I WF) as (_ & _ & L & H & M & S & _).
  split; [exact (S SI)|]. split; [exact L|]. intros ST. rewrite ST in H, M. split; assumption.
Qed.

(* ghost counters read off the history: Get / GetWithTTL calls on an open cache that returned a value / did not *)
Fixpoint ghost_hm (cl : bool) (h : list (cop * cres)) : Z * Z :=
  match h with
  | [] => (0, 0)
  | (op, r) :: t => (hit1 cl op r + fst (ghost_hm (cl || is_close op) t), miss1 cl op r + snd (ghost_hm (cl || is_close op) t))
  end.

(* [ghost_hm] as written evaluates its tail twice per step; this is the same function in one pass *)
Fixpoint ghost_hm1 (cl : bool) (h : list (cop * cres)) : Z * Z :=
  match h with
  | [] => (0, 0)
  | (op, r) :: t => let '(a, b) := ghost_hm1 (cl || is_close op) t in (hit1 cl op r + a, miss1 cl op r + b)
  end.

Lemma ghost_hm_one_pass h : forall cl, ghost_hm cl h = ghost_hm1 cl h.
Proof.
  induction h as [|[op r] t IH]; intros cl; cbn [ghost_hm ghost_hm1]; [reflexivity|].
  rewrite IH. destruct (ghost_hm1 (cl || is_close op) t). reflexivity.
Qed.

Theorem c10_hits_misses ops : forall c, CacheInv c -> StatInv c ->
  Forall (fun p => wf_op shard_of (nshards c) (fst p)) ops ->
  let c' := crun c ops in
  StatInv c' /\ statsOn c' = statsOn c /\
  (statsOn c = true ->
     hits c' = hits c + fst (ghost_hm (closed c) (chist c ops)) /\
     misses c' = misses c + snd (ghost_hm (closed c) (chist c ops)) /\
     evictions c' = gsum reasonCapacity c' /\ expirations c' = gsum reasonExpired c') /\
  (statsOn c = false -> hits c' = 0 /\ misses c' = 0 /\ evictions c' = 0 /\ expirations c' = 0).
Proof.
  induction ops as [|[op ev] r IH]; intros c I SI WF; cbv zeta; cbn [crun chist ghost_hm fst snd].
  - split; [exact SI|]. split; [reflexivity|]. unfold StatInv in SI. split; intros ST; rewrite ST in SI; [|exact SI].
    repeat split; try lia; apply SI.
  - apply Forall_cons_iff in WF. destruct WF as [W1 W2]. cbn [fst] in W1.
    destruct (stat_step c op ev I SI W1) as (S1 & CL1 & HM1).
    destruct (cstep_full_next shard_of c op ev I W1) as (I1 & C1 & _).
    rewrite <- (cf_nshards _ _ C1) in W2.
    destruct (IH _ I1 S1 W2) as (S2 & ST2 & HM2 & Z2). cbv zeta in *.
    rewrite (cf_stats _ _ C1) in *. split; [exact S2|]. split; [exact ST2|]. split; [|exact Z2].
    intros ST. destruct (HM1 ST) as [A B]. destruct (HM2 ST) as (A2 & B2 & C2 & D2). rewrite CL1 in *.
    repeat split; try assumption; lia.
Qed.

End Accounting.

Lemma cache_init_ok shard_of l cfg ncpu msk weigher t0 :
  decode_config (firstn 13 l) = Some (cfg, ncpu) -> skipn 13 l = [msk; weigher; t0] ->
  validate cfg = None -> 1 <= ncpu -> ShardCount cfg <= 2 ^ 62 ->
  CacheInv shard_of (cache_init l) /\ StatInv (cache_init l) /\ Agree shard_of (latest []) (cache_init l) /\
  nshards (cache_init l) = shard_count cfg ncpu /\ closed (cache_init l) = false /\ policy (cache_init l) = effective_policy cfg.
Proof.
  intros D S V Hc Hs.
  destruct (cache_init_inv shard_of l cfg ncpu msk weigher t0 D S V Hc Hs) as (I & CL & N & P & _ & _ & E & H1 & H2 & H3 & H4).
  split; [exact I|]. split; [|split; [apply Agree_empty; [intros s Hs'; split; apply (E s Hs')|exact I]|auto]].
  assert (Z0 : forall r, gsum r (cache_init l) = 0).
  { intros r. unfold gsum. induction (shards (cache_init l)) as [|s ss IH]; [reflexivity|]. cbn [map sumZ].
    rewrite IH by (intros x Hx; apply E; right; exact Hx). unfold gcnt.
    destruct (E s (or_introl eq_refl)) as (_ & _ & -> & _). reflexivity. }
  unfold StatInv. rewrite !Z0. destruct (statsOn (cache_init l)); auto.
Qed.

Definition gdrops (s : shard) : Z := CP.cnt CP.is_dropped (glog s).

Lemma view_of_lookup pol s k it : lookup s pol k = Some it -> view pol s k = Some (val it, exp it, cost it).
Proof. intros H. unfold view. rewrite H. reflexivity. Qed.

Lemma view_none pol s k : view pol s k = None -> lookup s pol k = None.
Proof. unfold view. destruct (lookup s pol k); [discriminate|reflexivity]. Qed.

Lemma view_ess pol s k it k0 v0 e0 c0 b : lookup s pol k = Some it -> SP.ess it = (k0, v0, e0, c0, b) ->
  view pol s k = Some (v0, e0, c0).
Proof. intros H E. unfold view. rewrite H. unfold SP.ess in E. injection E as _ -> -> -> _. reflexivity. Qed.

Theorem set_update_effective pol m e s k v ex c s' cm d x0 :
  e_pol e = pol -> e_mask e = m -> PolicyOK pol m s -> 0 <= c -> (costcap s = 0 \/ c <= costcap s) ->
  view pol s k = Some x0 -> apply_set e s k v ex c = (s', cm, d) ->
  cm = true /\ (view pol s' k = None \/ view pol s' k = Some (v, ex, c)) /\
  ((pol <> policyLFU \/ serr s = 0) -> (costcap s = 0 \/ c <= snd x0) -> view pol s' k = Some (v, ex, c)).
Proof.
  intros Hp Hm P Hc Hcc V0 HS.
  assert (V1 : view pol s' k = None \/ view pol s' k = Some (v, ex, c)).
  { destruct (view pol s' k) as [x|] eqn:E; [|left; reflexivity]. right.
    destruct (apply_set_view pol m e s k v ex c s' cm d Hp Hm P Hc HS _ _ E) as [[_ ->]|[N _]]; [reflexivity|congruence]. }
  unfold view in V0. destruct (lookup s pol k) as [old|] eqn:LK; [|discriminate]. injection V0 as <-. cbn [snd].
  apply (apply_set_case _ _ _ _ _ _ _ _ _ Hp P) in HS. destruct HS as [-> _ I Q _ _ O HS|_ _ CI O HS].
  - rewrite <- (lookup_adapts policySieve s k), <- Hp in LK.
    destruct (SP.update_effective e Hp _ _ _ _ _ old _ _ _ I Q LK Hc HS) as (CM & _ & EFF).
    split; [exact CM|]. split; [exact V1|]. intros _ HC.
    destruct EFF as [it' [L' E']]; [exact O|rewrite costcap_adapts; lia|].
    rewrite Hp in L'. exact (view_ess _ _ _ _ _ _ _ _ _ L' E').
  - destruct (CP.update_effective pol e s k v ex c s' cm d old Hp CI Hc LK HS) as (_ & EFF).
    destruct (CP.apply_classic_spec pol e s k v ex c s' cm d Hp CI Hc HS) as (CM & _).
    split; [exact CM|]. split; [exact V1|]. intros ER HC.
    destruct (EFF (O ER) ltac:(lia)) as [L' _]. rewrite (view_of_lookup _ _ _ _ L'). reflexivity.
Qed.

Theorem set_room_no_drop pol m e s k v ex c s' cm d :
  e_pol e = pol -> e_mask e = m -> PolicyOK pol m s -> 0 <= c ->
  view pol s k = None -> would_over s c = false -> apply_set e s k v ex c = (s', cm, d) ->
  cm = true /\ d = 0 /\ staged s' = staged s /\ nlog s' = nlog s /\ glog s' = glog s ++ [(0, k, v)] /\
  view pol s' k = Some (v, ex, c) /\ (forall k', k' <> k -> view pol s' k' = view pol s k').
Proof.
  intros Hp Hm P Hc V0 WO HS. pose proof (apply_set_view pol m e s k v ex c s' cm d Hp Hm P Hc HS) as VR.
  pose proof (view_none _ _ _ V0) as LK.
  apply (apply_set_case _ _ _ _ _ _ _ _ _ Hp P) in HS. destruct HS as [-> IS I Q _ _ _ HS|_ _ CI _ HS].
  - rewrite <- (lookup_adapts policySieve s k), <- Hp in LK.
    destruct (adapts_frame s) as [F1 F2 _ _ _ _ _ _ F9 F10 _ _ _].
    unfold would_over in WO. apply is_sieve_true_inv in IS.
    destruct (SP.room_no_drop e Hp _ _ _ _ _ _ _ _ I Q LK Hc ltac:(lia) ltac:(lia) HS) as (CM & D & G & SG & NL & (it' & L' & E') & OTH).
    rewrite glog_adapts in G. rewrite staged_adapts in SG. rewrite nlog_adapts in NL. rewrite Hp in *.
    do 5 (split; [assumption|]). split; [exact (view_ess _ _ _ _ _ _ _ _ _ L' E')|].
    intros k' NK. destruct (view policySieve s k') as [x|] eqn:VX.
    + unfold view in VX. rewrite <- lookup_adapts in VX. destruct (lookup (adapts s) policySieve k') as [it|] eqn:L0; [|discriminate].
      injection VX as <-. destruct (OTH _ _ L0) as (it2 & L2 & E2). exact (view_ess _ _ _ _ _ _ _ _ _ L2 E2).
    + destruct (view policySieve s' k') as [x|] eqn:VX'; [|reflexivity]. destruct (VR _ _ VX') as [[Y _]|[_ Y]]; congruence.
  - destruct (CP.room_no_drop pol e s k v ex c s' cm d Hp CI Hc LK WO HS) as (SG & NL & G & D & _ & _ & OTH & LN).
    destruct (CP.apply_classic_spec pol e s k v ex c s' cm d Hp CI Hc HS) as (CM & _).
    do 5 (split; [assumption|]). split; [rewrite (view_of_lookup _ _ _ _ LN); reflexivity|].
    intros k' NK. unfold view. rewrite (OTH k' NK). reflexivity.
Qed.

(* a rejected Sieve candidate counts as the one dropped entry *)
Theorem set_unweighted_at_most_one pol m e s k v ex c s' cm d :
  e_pol e = pol -> e_mask e = m -> PolicyOK pol m s -> 0 <= c -> costcap s = 0 ->
  (pol <> policyLFU \/ serr s = 0) ->
  view pol s k = None -> apply_set e s k v ex c = (s', cm, d) ->
  gdrops s' <= gdrops s + 1.
Proof.
  intros Hp Hm P Hc CC ER V0 HS.
  pose proof (view_none _ _ _ V0) as LK.
  (* in both cases the log grows by the write and the entries of at most one dropped item *)
  assert (G : exists l : list (Z * Z * Z), (length l <= 1)%nat /\
            (glog s' = glog s ++ [(0, k, v)] ++ l \/ glog s' = glog s ++ l ++ [(0, k, v)])).
  { apply (apply_set_case _ _ _ _ _ _ _ _ _ Hp P) in HS. destruct HS as [-> _ I Q _ _ O HS|_ _ CI O HS].
    - rewrite <- (lookup_adapts policySieve s k), <- Hp in LK.
      rewrite <- (costcap_adapts s) in CC.
      destruct (SP.unweighted_at_most_one e Hp _ _ _ _ _ _ _ _ I Q LK Hc CC O HS) as (dl & G & LN).
      rewrite glog_adapts in G. exists (map SP.dent dl). rewrite map_length. auto.
    - destruct (CP.unweighted_at_most_one pol e s k v ex c s' cm d Hp CI Hc ltac:(lia) (O ER) LK HS) as (l & LN & G & _).
      exists (map CP.drop_entry l). rewrite map_length. auto. }
  destruct G as (l & LN & G). pose proof (CP.cnt_le_length CP.is_dropped l). unfold gdrops.
  destruct G as [-> | ->]; rewrite !CP.cnt_app; cbn; lia.
Qed.

Theorem set_unbounded_never_drops pol m e s k v ex c s' cm d :
  e_pol e = pol -> e_mask e = m -> PolicyOK pol m s -> 0 <= c -> cap s = 0 -> costcap s = 0 ->
  apply_set e s k v ex c = (s', cm, d) ->
  d = 0 /\ staged s' = staged s /\ nlog s' = nlog s /\ gdrops s' = gdrops s /\
  view pol s' k = Some (v, ex, c) /\ (forall k', k' <> k -> view pol s' k' = view pol s k').
Proof.
  intros Hp Hm P Hc C0 CC HS.
  apply (apply_set_case _ _ _ _ _ _ _ _ _ Hp P) in HS. destruct HS as [_ IS _ _ _ _ _ _|_ _ CI _ HS]; [apply is_sieve_true_inv in IS; lia|].
  destruct (CP.unbounded_never_drops pol e s k v ex c s' cm d Hp CI Hc C0 CC HS) as (D & SG & NL & G & OTH & LN).
  do 3 (split; [assumption|]). split.
  { unfold gdrops. rewrite G, CP.cnt_app. destruct (lookup s pol k); cbn; lia. }
  split; [rewrite (view_of_lookup _ _ _ _ LN); reflexivity|].
  intros k' NK. unfold view. rewrite (OTH k' NK). reflexivity.
Qed.

Section SetLifted.
Variable shard_of : Z -> Z.
Notation ShardOK := (ShardOK shard_of).
Notation CacheInv := (CacheInv shard_of).
Notation cmd_ok := (cmd_ok shard_of).

Lemma op_set_shard c k v ttl cst sh s0 : CacheInv c -> get_shard c sh = Some s0 -> set_check c sh cst = 0 ->
  let sd := fst (drained c s0) in
  exists s' cm d, apply_set (env_of c) sd k v (stamp (norm_ttl c ttl) (now c)) cst = (s', cm, d) /\
  snd (op_set c k v ttl cst sh) = 0 /\
  get_shard (fst (op_set c k v ttl cst sh)) sh = Some s' /\
  evictions (fst (op_set c k v ttl cst sh)) = evictions c + snd (drained c s0) + d /\
  PolicyOK (policy c) (mask c) sd /\ 0 <= cst /\ (costcap sd = 0 \/ cst <= costcap sd) /\
  cap sd = cap s0 /\ costcap sd = costcap s0 /\ Stat sd s'.
Proof.
  intros I G R. cbv zeta. rewrite (op_set_form c k v ttl cst sh s0 G R).
  destruct (set_check_ok shard_of c sh cst I R) as (s & G' & Hc & Hcc & CL). rewrite G in G'. injection G' as <-.
  destruct (Stat_drained c s0) as (D1 & D2 & _).
  destruct (apply_set (env_of c) (fst (drained c s0)) k v (stamp (norm_ttl c ttl) (now c)) cst) as [[s2 cm] d] eqn:E.
  exists s2, cm, d. cbn [fst snd]. split; [reflexivity|]. split; [reflexivity|].
  split; [eapply CP.get_put_same; exact G|]. split; [reflexivity|].
  split; [apply (drained_ok shard_of c _ s0 (CacheInv_get _ _ _ _ I G))|].
  pose proof (Stat_apply_set _ _ _ _ _ _ _ _ _ E). rewrite D2. auto 6.
Qed.

Theorem c01_update_effective c k v ttl cst sh s0 x0 :
  CacheInv c -> get_shard c sh = Some s0 -> set_check c sh cst = 0 ->
  view (policy c) (fst (drained c s0)) k = Some x0 ->
  exists s', get_shard (fst (op_set c k v ttl cst sh)) sh = Some s' /\ snd (op_set c k v ttl cst sh) = 0 /\
    (view (policy c) s' k = None \/ view (policy c) s' k = Some (v, stamp (norm_ttl c ttl) (now c), cst)) /\
    ((policy c <> policyLFU \/ serr s' = 0) -> (costcap s0 = 0 \/ cst <= snd x0) ->
     view (policy c) s' k = Some (v, stamp (norm_ttl c ttl) (now c), cst)).
Proof.
  intros I G R V0. destruct (op_set_shard c k v ttl cst sh s0 I G R) as (s' & cm & d & E & A & B & _ & P & Hc & Hcc & _ & D2 & ST).
  exists s'. split; [exact B|]. split; [exact A|].
  destruct (set_update_effective (policy c) (mask c) (env_of c) _ k v _ cst s' cm d x0 eq_refl eq_refl P Hc Hcc V0 E) as (_ & X1 & X2).
  split; [exact X1|]. intros ER HC. apply X2; [exact (Stat_lfu _ _ _ ST ER)|rewrite D2; exact HC].
Qed.

Theorem c03_room_no_drop c k v ttl cst sh s0 :
  CacheInv c -> get_shard c sh = Some s0 -> set_check c sh cst = 0 ->
  let sd := fst (drained c s0) in
  view (policy c) sd k = None -> would_over sd cst = false ->
  exists s', get_shard (fst (op_set c k v ttl cst sh)) sh = Some s' /\
    staged s' = staged sd /\ nlog s' = nlog sd /\ glog s' = glog sd ++ [(0, k, v)] /\
    evictions (fst (op_set c k v ttl cst sh)) = evictions (drain_shard c sh) /\
    view (policy c) s' k = Some (v, stamp (norm_ttl c ttl) (now c), cst) /\
    (forall k', k' <> k -> view (policy c) s' k' = view (policy c) sd k').
Proof.
  intros I G R. cbv zeta. intros V0 WO.
  destruct (op_set_shard c k v ttl cst sh s0 I G R) as (s' & cm & d & E & _ & B & EV & P & Hc & _).
  exists s'. split; [exact B|].
  destruct (set_room_no_drop (policy c) (mask c) (env_of c) _ k v _ cst s' cm d eq_refl eq_refl P Hc V0 WO E) as (_ & D0 & X1 & X2 & X3 & X4 & X5).
  do 3 (split; [assumption|]). split; [|split; assumption].
  rewrite EV, D0, (drain_shard_eq c sh s0 G). cbn. lia.
Qed.

Theorem c03_unweighted_at_most_one c k v ttl cst sh s0 :
  CacheInv c -> get_shard c sh = Some s0 -> set_check c sh cst = 0 -> costcap s0 = 0 ->
  view (policy c) (fst (drained c s0)) k = None ->
  exists s', get_shard (fst (op_set c k v ttl cst sh)) sh = Some s' /\
    ((policy c <> policyLFU \/ serr s' = 0) -> gdrops s' <= gdrops (fst (drained c s0)) + 1).
Proof.
  intros I G R CC V0.
  destruct (op_set_shard c k v ttl cst sh s0 I G R) as (s' & cm & d & E & _ & B & _ & P & Hc & _ & _ & D2 & ST).
  exists s'. split; [exact B|]. intros ER.
  refine (set_unweighted_at_most_one (policy c) (mask c) (env_of c) _ k v _ cst s' cm d eq_refl eq_refl P Hc _ (Stat_lfu _ _ _ ST ER) V0 E).
  congruence.
Qed.

Lemma drained_unbounded c i s0 : ShardOK (policy c) (mask c) i s0 -> cap s0 = 0 -> costcap s0 = 0 ->
  gdrops (fst (drained c s0)) = gdrops s0 /\ snd (drained c s0) = 0 /\
  staged (fst (drained c s0)) = staged s0 /\ nlog (fst (drained c s0)) = nlog s0.
Proof.
  intros OK. unfold drained.
  refine (drain_sh_ind shard_of (policy c) (mask c) i (env_of c) (now c) (fun _ s s' d => cap s = 0 -> costcap s = 0 ->
    gdrops s' = gdrops s /\ d = 0 /\ staged s' = staged s /\ nlog s' = nlog s) eq_refl eq_refl _ _ (pend s0) (sh_evs s0 (evs s0) [])
    (ShardOK_pend shard_of _ _ _ _ _ _ OK (Forall_nil _)) (proj1 (proj2 OK))); [auto|].
  intros k v ttl cst r s s1 cm d s2 d2 OK1 Hc _ _ E IH C0 CC.
  destruct (Stat_apply_set _ _ _ _ _ _ _ _ _ E) as (S1 & S2 & _).
  destruct (set_unbounded_never_drops _ _ (env_of c) s k v _ cst s1 cm d eq_refl eq_refl (proj1 OK1) Hc C0 CC E) as (D0 & X1 & X2 & X3 & _).
  destruct IH as (Y1 & Y2 & Y3 & Y4); [congruence|congruence|]. repeat split; try congruence. lia.
Qed.

(* a shard without limits never drops, queued commands included *)
Theorem c03_unbounded_never_drops c k v ttl cst sh s0 :
  CacheInv c -> get_shard c sh = Some s0 -> set_check c sh cst = 0 -> cap s0 = 0 -> costcap s0 = 0 ->
  exists s', get_shard (fst (op_set c k v ttl cst sh)) sh = Some s' /\
    gdrops s' = gdrops s0 /\ staged s' = staged s0 /\ nlog s' = nlog s0 /\
    evictions (fst (op_set c k v ttl cst sh)) = evictions c /\
    view (policy c) s' k = Some (v, stamp (norm_ttl c ttl) (now c), cst) /\
    (forall k', k' <> k -> view (policy c) s' k' = view (policy c) (fst (drained c s0)) k').
Proof.
  intros I G R C0 CC.
  destruct (op_set_shard c k v ttl cst sh s0 I G R) as (s' & cm & d & E & _ & B & EV & P & Hc & _ & D1 & D2 & _).
  destruct (drained_unbounded c _ s0 (CacheInv_get _ _ _ _ I G) C0 CC) as (Y1 & Y2 & Y3 & Y4). exists s'. split; [exact B|].
  destruct (set_unbounded_never_drops (policy c) (mask c) (env_of c) _ k v _ cst s' cm d eq_refl eq_refl P Hc
              ltac:(congruence) ltac:(congruence) E) as (D0 & X1 & X2 & X3 & X4 & X5).
  split; [rewrite X3; exact Y1|]. split; [rewrite X1; exact Y3|]. split; [rewrite X2; exact Y4|].
  split; [rewrite EV, Y2, D0; lia|]. split; [exact X4|exact X5].
Qed.
End SetLifted.

Theorem closed_after_close c : closed (op_close c) = true.
Proof. unfold op_close. destruct (closed c) eqn:E; [exact E|reflexivity]. Qed.

Theorem closed_cache c k v ttl cst sh : closed c = true ->
  fst (op_set c k v ttl cst sh) = c /\ snd (op_set c k v ttl cst sh) <> 0 /\
  (0 <= cst -> (forall s, get_shard c sh = Some s -> ~ (0 < costcap s < cst)) -> get_shard c sh <> None ->
   snd (op_set c k v ttl cst sh) = 3 /\ snd (op_set_async c k v ttl cst sh) = 3) /\
  fst (op_set_async c k v ttl cst sh) = c /\ snd (op_set_async c k v ttl cst sh) <> 0 /\
  op_get c k sh = (c, false, 0, 0) /\ op_exists c k sh = (c, false) /\ op_delete c k sh = (c, false) /\
  op_keys c = [] /\ op_clear c = c /\ op_cleanup c = c /\ op_close c = c.
Proof.
  intros CL.
  assert (R : set_check c sh cst <> 0).
  { unfold set_check. destruct (cst <? 0); [lia|]. destruct (get_shard c sh) as [s|]; [|lia].
    destruct ((0 <? costcap s) && (costcap s <? cst)); [lia|]. rewrite CL. lia. }
  rewrite (op_set_fail _ _ _ _ _ _ R), (op_set_async_fail _ _ _ _ _ _ R). cbn [fst snd].
  split; [reflexivity|]. split; [exact R|]. split.
  { intros Hc Hcc HG. unfold set_check. replace (cst <? 0) with false by lia.
    destruct (get_shard c sh) as [s|] eqn:G; [|congruence]. specialize (Hcc s eq_refl).
    replace ((0 <? costcap s) && (costcap s <? cst)) with false by lia. rewrite CL. split; reflexivity. }
  split; [reflexivity|]. split; [exact R|].
  unfold op_get, op_exists, op_delete, op_keys, op_clear, op_cleanup, op_close. rewrite CL. repeat split; reflexivity.
Qed.

Corollary op_close_idempotent c : op_close (op_close c) = op_close c.
Proof. apply (closed_cache (op_close c) 0 0 0 0 0 (closed_after_close c)). Qed.

(* the key step: Sync after one more SetAsync = Sync, then the Set *)
Lemma drain_all_enq c sh s k v ttl cst : get_shard c sh = Some s ->
  drain_all (enq c sh [k; v; ttl; cst]) = apply_cmd (drain_all c) sh k v ttl cst.
Proof.
  intros G. unfold drain_all.
  assert (LEN : length (shards (enq c sh [k; v; ttl; cst])) = length (shards c)).
  { unfold enq, on_shard. rewrite G. cbn [put_shard shards]. apply length_set_nth. }
  rewrite LEN. set (n := length (shards c)).
  assert (J : (Z.to_nat sh < n)%nat) by (unfold n; apply nth_error_Some; unfold get_shard in G; congruence).
  rewrite (zseq_split n 0 (Z.to_nat sh) J), !fold_left_app. cbn [fold_left Z.add].
  unfold enq. rewrite (fold_drain_on (fun _ s => (sh_evs s (evs s) (pend s ++ [[k; v; ttl; cst]]), 0)) sh (fun _ _ _ => eq_refl))
    by (intros i Hi; apply zseq_In in Hi; lia).
  rewrite !(drain_shard_on _ (Z.of_nat (Z.to_nat sh))), !(on_shard_idx _ (Z.of_nat (Z.to_nat sh)) sh) by lia.
  rewrite <- !drain_shard_on. fold (enq (fold_left drain_shard (zseq 0 (Z.to_nat sh)) c) sh [k; v; ttl; cst]).
  rewrite drain_enq_same, apply_cmd_on.
  rewrite (fold_drain_on (fun c => set_sh (env_of c) (now c) k v ttl cst) sh) by
    (try (intros c0 i g; destruct (on_shard_env c0 i g) as [-> ->]; reflexivity); intros i Hi; apply zseq_In in Hi; lia).
  symmetry. apply apply_cmd_on.
Qed.

Definition req := (Z * Z * Z * Z * Z)%type.   (* key, value, ttl, cost, shard *)
Definition async_all (c : cache) (reqs : list req) : cache :=
  fold_left (fun c r => let '(k, v, ttl, cst, sh) := r in fst (op_set_async c k v ttl cst sh)) reqs c.
Definition sync_all (c : cache) (reqs : list req) : cache :=
  fold_left (fun c r => let '(k, v, ttl, cst, sh) := r in fst (op_set c k v ttl cst sh)) reqs c.

Section AsyncSync.
Variable shard_of : Z -> Z.
Notation CacheInv := (CacheInv shard_of).

Lemma drain_all_async1 c k v ttl cst sh : CacheInv c ->
  drain_all (fst (op_set_async c k v ttl cst sh)) = fst (op_set (drain_all c) k v ttl cst sh).
Proof.
  intros I. destruct (drain_all_next shard_of c I) as ((I1 & C1 & L1 & _) & Q1). rewrite orb_false_r in L1.
  pose proof (set_check_static c (drain_all c) sh cst C1 L1) as SC.
  destruct (set_check c sh cst =? 0) eqn:R.
  - assert (R0 : set_check c sh cst = 0) by lia.
    destruct (set_check_ok shard_of c sh cst I R0) as (s & G & _).
    rewrite (op_set_async_form c k v ttl cst sh s G R0). cbn [fst].
    replace (put_shard c sh _ (hits c) (misses c) (evictions c) (expirations c)) with (enq c sh [k; v; norm_ttl c ttl; cst])
      by (unfold enq, on_shard; rewrite G; cbn [fst snd]; rewrite Z.add_0_r; reflexivity).
    rewrite (drain_all_enq c sh s k v _ cst G).
    unfold op_set. rewrite SC, R0. cbn [Z.eqb negb fst].
    destruct (get_shard (drain_all c) sh) as [sd|] eqn:Gd.
    + rewrite (CP.drain_shard_quiescent (drain_all c) sh sd Gd) by (apply Q1; unfold get_shard in Gd; eapply nth_error_In; eauto).
      unfold norm_ttl. rewrite (cf_defttl _ _ C1). reflexivity.
    + unfold drain_shard. rewrite Gd. unfold norm_ttl. rewrite (cf_defttl _ _ C1). reflexivity.
  - rewrite op_set_async_fail by lia. rewrite op_set_fail by lia. reflexivity.
Qed.

Definition wf_req (n : Z) (r : req) : Prop := let '(k, v, ttl, cst, sh) := r in sh = shard_of k /\ 0 <= sh < n.

(* SetAsync calls followed by Sync leave the cache the same Sets leave after a Sync *)
Theorem c01_async_then_sync reqs : forall c, CacheInv c -> Forall (wf_req (nshards c)) reqs ->
  drain_all (async_all c reqs) = sync_all (drain_all c) reqs.
Proof.
  induction reqs as [|[[[[k v] ttl] cst] sh] r IH]; intros c I WF; [reflexivity|].
  apply Forall_cons_iff in WF. destruct WF as [W1 W2]. cbn [wf_req] in W1.
  unfold async_all, sync_all. cbn [fold_left]. fold (async_all (fst (op_set_async c k v ttl cst sh)) r).
  fold (sync_all (fst (op_set (drain_all c) k v ttl cst sh)) r).
  destruct (op_set_async_next shard_of c k v ttl cst sh I W1) as (I1 & C1 & _).
  rewrite IH; [|exact I1|rewrite (cf_nshards _ _ C1); exact W2].
  rewrite drain_all_async1 by assumption. reflexivity.
Qed.

Corollary c01_async_then_sync_quiescent reqs c : CacheInv c -> Forall (wf_req (nshards c)) reqs ->
  (forall s, In s (shards c) -> pend s = []) ->
  drain_all (async_all c reqs) = sync_all c reqs.
Proof. intros I WF Q. rewrite (c01_async_then_sync reqs c I WF), (CP.drain_all_quiescent c Q). reflexivity. Qed.
End AsyncSync.

Theorem apply_cmd_commute c sh1 k1 v1 t1 c1 sh2 k2 v2 t2 c2 : Z.to_nat sh1 <> Z.to_nat sh2 ->
  apply_cmd (apply_cmd c sh1 k1 v1 t1 c1) sh2 k2 v2 t2 c2 = apply_cmd (apply_cmd c sh2 k2 v2 t2 c2) sh1 k1 v1 t1 c1.
Proof.
  intros N. rewrite !apply_cmd_on.
  destruct (on_shard_env c sh1 (set_sh (env_of c) (now c) k1 v1 t1 c1)) as [-> ->].
  destruct (on_shard_env c sh2 (set_sh (env_of c) (now c) k2 v2 t2 c2)) as [-> ->].
  apply on_shard_comm. exact N.
Qed.

(* a 2-shard LRU cache: MaxSize 4 (2 per shard), stats on, all removal reasons notified, clock starts at 100 *)
Definition ex_shard_of (k : Z) : Z := k mod 2.
Definition ex_lru_cfg : list Z := [4;0;2;0;0;1;1;0;0;0;0;0;1; 15;0;100].
Definition ex_lru_ops : list (cop * list Z) :=
  [(CSet 2 20 0 1 0, []); (CSet 4 40 50 1 0, []); (CSet 6 60 0 1 0, []);     (* the third Set evicts key 2 *)
   (CGet 2 0, []); (CGetTTL 4 0, []);
   (CAdvance 100, []); (CGet 4 0, []);                                         (* key 4 expired at 150: dropped by Get *)
   (CSet 1 10 10 1 1, []); (CAdvance 100, []); (CCleanup, []);                 (* key 1 expired at 210: swept by Cleanup *)
   (CSetAsync 3 30 0 1 1, []); (CSetAsync 5 50 0 1 1, []); (CSetAsync 3 31 0 1 1, []); (CSync, []);
   (CGet 3 1, []); (CExists 5 1, []); (CDelete 5 1, []); (CKeys, []); (CStats, []);
   (CClear, []); (CKeys, []); (CClose, []); (CSet 2 1 0 1 0, []); (CGet 6 0, [])].
Definition ex_lru_init : cache := cache_init ex_lru_cfg.
Definition ex_lru_fin : cache := crun ex_lru_init ex_lru_ops.

Example ex_lru_results :
  map snd (chist ex_lru_init ex_lru_ops) =
  [RCode 0; RCode 0; RCode 0; RGet false 0; RGetTTL true 40 50; RNow 200; RGet false 0; RCode 0; RNow 300; RUnit;
   RCode 0; RCode 0; RCode 0; RCode 0; RGet true 31; RBool true; RBool true; RKeys [3; 6]; RNums [2; 2; 2; 2; 1; 2];
   RUnit; RKeys []; RUnit; RCode 3; RGet false 0].
Proof. vm_compute. reflexivity. Qed.

Example ex_lru_state :
  (hits ex_lru_fin, misses ex_lru_fin, evictions ex_lru_fin, expirations ex_lru_fin, errs ex_lru_fin, closed ex_lru_fin,
   total_size ex_lru_fin, map glog (shards ex_lru_fin)) =
  (2, 2, 1, 2, 0, true, 0,
   [[(0, 2, 20); (0, 4, 40); (10, 2, 20); (0, 6, 60); (12, 4, 40); (2, 6, 60)];
    [(0, 1, 10); (12, 1, 10); (0, 3, 30); (0, 5, 50); (1, 3, 30); (0, 3, 31); (13, 5, 50); (2, 3, 31)]]) /\
  ghost_hm false (chist ex_lru_init ex_lru_ops) = (2, 2) /\
  gsum reasonCapacity ex_lru_fin = 1 /\ gsum reasonExpired ex_lru_fin = 2 /\
  map nkey (flat_map nlog (shards ex_lru_fin)) = [2; 4; 1; 5] /\ map nreason (flat_map nlog (shards ex_lru_fin)) = [0; 2; 2; 3].
Proof. rewrite ghost_hm_one_pass. vm_compute. repeat split; reflexivity. Qed.

Lemma ex_lru_init_ok :
  CacheInv ex_shard_of ex_lru_init /\ StatInv ex_lru_init /\ Agree ex_shard_of (latest []) ex_lru_init /\
  nshards ex_lru_init = 2 /\ closed ex_lru_init = false.
Proof.
  edestruct (cache_init_ok ex_shard_of ex_lru_cfg) as (I & S & A & N & CL & _);
    [vm_compute; reflexivity|reflexivity|vm_compute; reflexivity|lia|vm_compute; discriminate|].
  exact (conj I (conj S (conj A (conj N CL)))).
Qed.

Lemma ex_lru_wf : Forall (fun p => wf_op ex_shard_of 2 (fst p)) ex_lru_ops.
Proof. repeat constructor; vm_compute; intuition congruence. Qed.

(* the theorems apply to this run: invariant, budget, counters, and the latest-reference justification of every result *)
Example ex_lru_theorems :
  CacheInv ex_shard_of (crun ex_lru_init ex_lru_ops) /\ StatInv (crun ex_lru_init ex_lru_ops) /\
  run_ok ex_lru_init (latest []) ex_lru_ops.
Proof.
  destruct ex_lru_init_ok as (I & S & A & N & CL).
  pose proof ex_lru_wf as WF. rewrite <- N in WF.
  split; [exact (proj1 (crun_inv ex_shard_of ex_lru_ops ex_lru_init I WF))|].
  split; [exact (proj1 (c10_hits_misses ex_shard_of ex_lru_ops ex_lru_init I S WF))|].
  exact (c01_lookup_latest_or_miss ex_shard_of ex_lru_ops ex_lru_init (latest []) I A WF).
Qed.

(* a 1-shard SieveTinyLFU cache of capacity 3 (probation 1, main 2); oracle events: B1 ghost miss for every insert *)
Definition ex_sv_cfg : list Z := [3;0;1;0;0;4;1;0;0;0;0;0;1; 15;0;100].
Definition ex_gh : list Z := [1;0;0].
Definition ex_sv_ops : list (cop * list Z) :=
  [(CSet 1 10 0 1 0, ex_gh); (CSet 2 20 0 1 0, ex_gh); (CSet 3 30 0 1 0, ex_gh); (CGet 1 0, []);
   (CSet 4 40 50 1 0, ex_gh);                                                   (* probation overflows: key 2 is evicted *)
   (CAdvance 100, []); (CGetTTL 4 0, []);                                        (* key 4 expired at 150: dropped by Get *)
   (CSet 5 50 10 1 0, ex_gh); (CAdvance 100, []); (CCleanup, []);                (* key 5 expired at 210: swept by Cleanup *)
   (CSetAsync 6 60 0 1 0, []); (CSetAsync 6 61 0 1 0, []); (CSync, ex_gh);
   (CGet 6 0, []); (CStats, []); (CClear, []); (CKeys, []); (CClose, []); (CSetAsync 2 1 0 1 0, [])].
Definition ex_sv_init : cache := cache_init ex_sv_cfg.
Definition ex_sv_fin : cache := crun ex_sv_init ex_sv_ops.

Example ex_sv_results :
  map snd (chist ex_sv_init ex_sv_ops) =
  [RCode 0; RCode 0; RCode 0; RGet true 10; RCode 0; RNow 200; RGetTTL false 0 0; RCode 0; RNow 300; RUnit;
   RCode 0; RCode 0; RCode 0; RGet true 61; RNums [3; 3; 2; 1; 1; 2]; RUnit; RKeys []; RUnit; RCode 3].
Proof. vm_compute. reflexivity. Qed.

Example ex_sv_state :
  (hits ex_sv_fin, misses ex_sv_fin, evictions ex_sv_fin, expirations ex_sv_fin, errs ex_sv_fin, leftover ex_sv_fin,
   closed ex_sv_fin, total_size ex_sv_fin, map glog (shards ex_sv_fin)) =
  (2, 1, 1, 2, 0, 0, true, 0,
   [[(0, 1, 10); (0, 2, 20); (0, 3, 30); (0, 4, 40); (10, 2, 20); (12, 4, 40); (0, 5, 50); (12, 5, 50);
     (0, 6, 60); (1, 6, 60); (0, 6, 61); (2, 3, 30); (2, 6, 61); (2, 1, 10)]]) /\
  ghost_hm false (chist ex_sv_init ex_sv_ops) = (2, 1) /\
  gsum reasonCapacity ex_sv_fin = 1 /\ gsum reasonExpired ex_sv_fin = 2.
Proof. rewrite ghost_hm_one_pass. vm_compute. repeat split; reflexivity. Qed.

Lemma ex_sv_init_ok :
  CacheInv (fun _ => 0) ex_sv_init /\ StatInv ex_sv_init /\ Agree (fun _ => 0) (latest []) ex_sv_init /\
  nshards ex_sv_init = 1 /\ policy ex_sv_init = policySieve.
Proof.
  edestruct (cache_init_ok (fun _ => 0) ex_sv_cfg) as (I & S & A & N & _ & P);
    [vm_compute; reflexivity|reflexivity|vm_compute; reflexivity|lia|vm_compute; discriminate|].
  exact (conj I (conj S (conj A (conj N P)))).
Qed.

Lemma ex_sv_wf : Forall (fun p => wf_op (fun _ => 0) 1 (fst p)) ex_sv_ops.
Proof. repeat constructor; vm_compute; intuition congruence. Qed.

Example ex_sv_theorems :
  CacheInv (fun _ => 0) (crun ex_sv_init ex_sv_ops) /\ StatInv (crun ex_sv_init ex_sv_ops) /\
  run_ok ex_sv_init (latest []) ex_sv_ops.
Proof.
  destruct ex_sv_init_ok as (I & S & A & N & _).
  pose proof ex_sv_wf as WF. rewrite <- N in WF.
  split; [exact (proj1 (crun_inv (fun _ => 0) ex_sv_ops ex_sv_init I WF))|].
  split; [exact (proj1 (c10_hits_misses (fun _ => 0) ex_sv_ops ex_sv_init I S WF))|].
  exact (c01_lookup_latest_or_miss (fun _ => 0) ex_sv_ops ex_sv_init (latest []) I A WF).
Qed.

(* refuted: "every Get hit returns latest k", literally
   Set(k=1, v=10); SetAsync(k=1, v=20) -> accepted (code 0), so latest 1 = 20; Get(1) before Sync hits and returns 10.
   The queued write is invisible until the shard is drained (Sync, or any later Set/Delete on that shard, or a
   SieveTinyLFU miss); [get_hit_latest] is the true variant: the hit returns [latest k] whenever no command for k is
   queued on its shard (always at quiescent points), and [latest k] is always defined. *)
Definition ex_stale_cfg : list Z := [4;0;1;0;0;1;1;0;0;0;0;0;1; 15;0;100].
Definition ex_stale_ops : list (cop * list Z) := [(CSet 1 10 0 1 0, []); (CSetAsync 1 20 0 1 0, []); (CGet 1 0, [])].
Example c01_get_returns_latest_refuted :
  map snd (chist (cache_init ex_stale_cfg) ex_stale_ops) = [RCode 0; RCode 0; RGet true 10] /\
  latest (chist (cache_init ex_stale_cfg) (firstn 2 ex_stale_ops)) 1 = Some 20.
Proof. vm_compute. split; reflexivity. Qed.

(* refuted: "on a closed cache Set returns code 3": validation comes first, a negative cost still yields 1
   (and an oversized cost 2); [closed_cache] states the true variant. *)
Example closed_set_code_3_refuted :
  let c := op_close (cache_init ex_stale_cfg) in
  closed c = true /\ snd (op_set c 1 10 0 (-1) 0) = 1 /\ snd (op_set c 1 10 0 1 0) = 3.
Proof. vm_compute. repeat split; reflexivity. Qed.
