(* AliasProofs.v: isolation of the stored HTTP response from every reference held outside the middleware.
   Proved about the executable model AliasModel.v. *)
From Coq Require Import List ZArith Bool Lia.
From KV Require Import AliasModel.
Import ListNotations.
Open Scope Z_scope.

Lemma aupd_same f k v : aupd f k v k = v.
Proof. unfold aupd. rewrite Z.eqb_refl. reflexivity. Qed.
Lemma aupd_other f k v x : x <> k -> aupd f k v x = f x.
Proof. intros H. unfold aupd. destruct (Z.eqb_spec x k); [contradiction|reflexivity]. Qed.
Lemma mupd_same f k v : mupd f k v k = v.
Proof. unfold mupd. rewrite Z.eqb_refl. reflexivity. Qed.
Lemma mupd_other f k v x : x <> k -> mupd f k v x = f x.
Proof. intros H. unfold mupd. destruct (Z.eqb_spec x k); [contradiction|reflexivity]. Qed.

Arguments aupd : simpl never.
Arguments mupd : simpl never.

Lemma zmem_In l k : zmem l k = true <-> In k l.
Proof.
  induction l as [|a l IH]; simpl.
  - split; [discriminate|tauto].
  - rewrite orb_true_iff, IH, Z.eqb_eq. tauto.
Qed.
Lemma zmem_notIn l k : ~ In k l -> zmem l k = false.
Proof.
  intros H. destruct (zmem l k) eqn:E; [|reflexivity]. apply zmem_In in E. contradiction.
Qed.

Lemma zins_In {A} (l : list (Z * A)) k v e : In e (zins l k v) -> e = (k, v) \/ In e l.
Proof.
  induction l as [|[a b] l IH]; simpl.
  - intros [H|[]]; auto.
  - destruct (k =? a).
    + intros [H|H]; auto.
    + destruct (k <? a).
      * intros [H|H]; auto.
      * intros [H|H]; auto. destruct (IH H); auto.
Qed.
Lemma zdel_In {A} (l : list (Z * A)) k e : In e (zdel l k) -> In e l.
Proof.
  induction l as [|[a b] l IH]; simpl; [tauto|].
  destruct (a =? k); [auto|]. intros [H|H]; auto.
Qed.

Definition deref (s : ast) (es : list (Z * Z)) : list (Z * list Z) :=
  map (fun e => (fst e, arr s (snd e))) es.
Definition enc (l : list (Z * list Z)) : list Z :=
  flat_map (fun p => fst p :: Z.of_nat (length (snd p)) :: snd p) l.
Definition keep (skip : list Z) (e : Z * Z) : bool := negb (zmem skip (fst e)).

Lemma enc_deref s es :
  flat_map (fun e => fst e :: Z.of_nat (length (arr s (snd e))) :: arr s (snd e)) es = enc (deref s es).
Proof.
  induction es as [|e es IH]; [reflexivity|].
  simpl. rewrite IH. reflexivity.
Qed.

Lemma deref_ext s s' es :
  (forall k a, In (k, a) es -> arr s' a = arr s a) -> deref s' es = deref s es.
Proof.
  intros H. unfold deref. apply map_ext_in. intros [k a] Hin. simpl. rewrite (H k a Hin). reflexivity.
Qed.

Lemma filter_keep_nil es : filter (keep []) es = es.
Proof. induction es as [|e es IH]; [reflexivity|]. simpl. rewrite IH. reflexivity. Qed.

Lemma view_eq s :
  view s = match stored s with
           | None => [-1]
           | Some (st, m, b) => st :: enc (deref s (hmap s m)) ++ [-2] ++ arr s b
           end.
Proof.
  unfold view. destruct (stored s) as [[[st m] b]|]; [|reflexivity].
  rewrite enc_deref. reflexivity.
Qed.

Lemma clone_entries_cons s k a r skip :
  clone_entries s ((k, a) :: r) skip =
  if zmem skip k then clone_entries s r skip
  else let '(s2, r') := clone_entries (fst (alloc_arr s (arr s a))) r skip in (s2, (k, nxt s) :: r').
Proof. reflexivity. Qed.

Lemma filter_keep_cons skip k a r :
  filter (keep skip) ((k, a) :: r) = if zmem skip k then filter (keep skip) r else (k, a) :: filter (keep skip) r.
Proof. simpl. unfold keep at 1. simpl. destruct (zmem skip k); reflexivity. Qed.

(* Cloning only touches the heap, and what it touches is fresh: the result is s with a new array heap and a new
   counter; arrays below the old counter keep their contents, the copies lie between the two counters. *)
Lemma clone_spec es : forall s skip, exists a n es',
  clone_entries s es skip = (with_heap s a (hmap s) n, es') /\ nxt s <= n /\
  (forall x, x < nxt s -> a x = arr s x) /\
  (forall k v, In (k, v) es' -> nxt s <= v < n) /\
  ((forall k v, In (k, v) es -> v < nxt s) ->
   deref (with_heap s a (hmap s) n) es' = deref s (filter (keep skip) es)).
Proof.
  induction es as [|[k v] r IH]; intros s skip.
  - exists (arr s), (nxt s), []. split; [destruct s; reflexivity|].
    split; [lia|]. split; [reflexivity|]. split; [intros k v []|reflexivity].
  - rewrite clone_entries_cons, filter_keep_cons. destruct (zmem skip k).
    + destruct (IH s skip) as (a & n & es' & E & Hn & Ha & Hr & Hd). exists a, n, es'.
      repeat (split; [assumption|]). intros Hb. apply Hd. intros k0 v0 H. apply (Hb k0 v0). right. exact H.
    + destruct (IH (fst (alloc_arr s (arr s v))) skip) as (a & n & es' & E & Hn & Ha & Hr & Hd).
      cbn [alloc_arr fst with_heap nxt arr hmap] in *.
      exists a, n, ((k, nxt s) :: es'). rewrite E.
      split; [reflexivity|]. split; [lia|].
      split; [intros x Hx; rewrite Ha by lia; apply aupd_other; lia|].
      split; [intros k0 v0 [H|H]; [inversion H; lia|apply Hr in H; lia]|].
      intros Hb. unfold deref at 1 2. cbn [map fst snd]. f_equal.
      * cbn [with_heap arr]. rewrite Ha by lia. f_equal. apply aupd_same.
      * etransitivity; [apply Hd; intros k0 v0 Hin; specialize (Hb k0 v0 (or_intror Hin)); lia|].
        apply deref_ext. intros k0 v0 Hin. apply filter_In in Hin.
        apply aupd_other. specialize (Hb k0 v0 (or_intror (proj1 Hin))). lia.
Qed.

Arguments clone_entries : simpl never.

(* Bnd: every reference that exists anywhere is below the allocation counter (so a fresh id aliases nothing). *)
Record Bnd (s : ast) : Prop := {
  b_pos : 0 < nxt s;
  b_wmap : wmap s < nxt s;
  b_rwh : rwh s < nxt s;
  b_buf : bufarr s < nxt s;
  b_aarr : forall a, In a (adv_arr s) -> a < nxt s;
  b_amap : forall m, In m (adv_map s) -> m < nxt s;
  b_vals : forall x k a, In (k, a) (hmap s x) -> a < nxt s;
  b_st : forall st m b, stored s = Some (st, m, b) -> m < nxt s /\ b < nxt s }.

(* owned s m: nobody outside can write the map object m or one of the arrays it refers to: the adversary does
   not hold m, m is not the handler's map, and no value array of m is held by the adversary or is the buffer. *)
Definition owned (s : ast) (m : Z) : Prop :=
  ~ In m (adv_map s) /\ m <> wmap s /\ forall k a, In (k, a) (hmap s m) -> ~ In a (adv_arr s) /\ a <> bufarr s.

(* Sep: nothing that anybody can write through reaches the stored response: its header map is owned (written
   out below) and is not rw.headers, and the like holds of its body array. *)
Definition Sep (s : ast) : Prop :=
  forall st m b, stored s = Some (st, m, b) ->
    ~ In m (adv_map s) /\ m <> wmap s /\ m <> rwh s /\ ~ In b (adv_arr s) /\ b <> bufarr s /\
    forall k a, In (k, a) (hmap s m) -> ~ In a (adv_arr s) /\ a <> bufarr s.

Definition WF (s : ast) : Prop := Bnd s /\ Sep s.

Theorem init_wf : forall ign, WF (init ign).
Proof.
  intros ign. split.
  - constructor; simpl; try lia; try (intros; discriminate).
  - intros st m b H; discriminate.
Qed.

(* every field that is not part of the heap *)
Definition same_ctl (s s' : ast) : Prop :=
  wmap s' = wmap s /\ committed s' = committed s /\ rwh s' = rwh s /\ status s' = status s /\
  bufarr s' = bufarr s /\ stored s' = stored s /\ adv_arr s' = adv_arr s /\ adv_map s' = adv_map s /\
  ignored s' = ignored s.

Lemma same_ctl_refl s : same_ctl s s.
Proof. unfold same_ctl. repeat split. Qed.

(* references that stay the same in steps that only touch the heap *)
Definition same_refs (s s' : ast) : Prop :=
  wmap s' = wmap s /\ rwh s' = rwh s /\ bufarr s' = bufarr s /\ stored s' = stored s /\
  adv_arr s' = adv_arr s /\ adv_map s' = adv_map s.

Lemma same_ctl_refs s s' : same_ctl s s' -> same_refs s s'.
Proof. unfold same_ctl, same_refs. tauto. Qed.

Lemma Bnd_grow s s' : Bnd s -> same_refs s s' -> nxt s <= nxt s' ->
  (forall x k a, In (k, a) (hmap s' x) -> a < nxt s') -> Bnd s'.
Proof.
  intros B (R1 & R2 & R3 & R4 & R5 & R6) Hn Hv. destruct B as [Bpos Bwm Brw Bbuf Baa Bam Bvals Bst].
  constructor; rewrite ?R1, ?R2, ?R3, ?R4, ?R5, ?R6; try lia; auto.
  - intros a H. apply Baa in H. lia.
  - intros m H. apply Bam in H; lia.
  - intros st m b H. apply Bst in H; lia.
Qed.

Lemma Sep_same s s' : Sep s -> same_refs s s' ->
  (forall st m b, stored s = Some (st, m, b) -> hmap s' m = hmap s m) -> Sep s'.
Proof.
  intros S (R1 & R2 & R3 & R4 & R5 & R6) Hh st m b Hst. rewrite R4 in Hst.
  rewrite R1, R2, R3, R5, R6, (Hh _ _ _ Hst). exact (S _ _ _ Hst).
Qed.

(* compute the field projections of the records the operations build, in the goal and in every hypothesis *)
Ltac fld := cbn [arr hmap nxt wmap committed rwh status bufarr stored adv_arr adv_map ignored fst snd
                 with_heap with_adv alloc_arr alloc_map] in *.

(* Priv: the snapshot rw.headers is out of everybody's reach between the commit and a retaining policy call:
   Priv s is owned s (rwh s), written out. *)
Definition Priv (s : ast) : Prop :=
  ~ In (rwh s) (adv_map s) /\ rwh s <> wmap s /\
  forall k a, In (k, a) (hmap s (rwh s)) -> ~ In a (adv_arr s) /\ a <> bufarr s.

Lemma Priv_weak s : Priv s ->
  ~ In (rwh s) (adv_map s) /\ forall k a, In (k, a) (hmap s (rwh s)) -> ~ In a (adv_arr s).
Proof. intros (P1 & P2 & P3). split; [exact P1|]. intros k a H. apply (proj1 (P3 _ _ H)). Qed.

(* what rw.headers shows: deref s (hmap s (rwh s)) *)
Definition snap (s : ast) : list (Z * list Z) := map (fun e => (fst e, arr s (snd e))) (hmap s (rwh s)).

Lemma init_priv ign : Priv (init ign).
Proof. unfold Priv. simpl. repeat split; try lia; try contradiction. Qed.

(* frame s s': going from s to s', the only EXISTING map objects written are the handler's map and maps the
   adversary holds; the only EXISTING arrays written are the capture buffer and arrays the adversary holds. *)
Definition frame (s s' : ast) : Prop :=
  (forall x, x <> wmap s -> ~ In x (adv_map s) -> x < nxt s -> hmap s' x = hmap s x) /\
  (forall x, x <> bufarr s -> ~ In x (adv_arr s) -> x < nxt s -> arr s' x = arr s x).

(* allocation only *)
Definition heap_ext (s s' : ast) : Prop :=
  nxt s <= nxt s' /\ (forall x, x < nxt s -> arr s' x = arr s x) /\ (forall x, x < nxt s -> hmap s' x = hmap s x).

Lemma heap_ext_frame s s' : heap_ext s s' -> frame s s'.
Proof. intros (_ & Ha & Hm). split; intros x _ _ Hx; auto. Qed.

Lemma frame_refl s : frame s s.
Proof. split; reflexivity. Qed.

Lemma heap_ext_refl s : heap_ext s s.
Proof. unfold heap_ext. repeat split; try reflexivity; lia. Qed.

(* grows d s s': what every operation other than a store does, seen from s.  References that are new in s' are
   fresh (at or above the old counter), whoever gets them; the handler's map, the buffer and the stored response
   stay where they are; rw.headers stays, or is re-assigned to a fresh object that is then private (the commit),
   and stays once committed; map entries are old or point to fresh arrays; existing objects change only within
   the footprint; and while nobody outside holds the buffer's array, the buffer gains exactly the bytes d. *)
(* from here to Unset, arguments that later ones determine are implicit: g_nxt G, grows_bnd B G *)
Set Implicit Arguments.
Record grows (d : list Z) (s s' : ast) : Prop := {
  g_nxt : nxt s <= nxt s';
  g_wmap : wmap s' = wmap s;
  g_buf : bufarr s' = bufarr s;
  g_st : stored s' = stored s;
  g_rwh : rwh s' = rwh s \/ (nxt s <= rwh s' < nxt s' /\ (Bnd s -> Priv s'));
  g_com : committed s = true -> committed s' = true /\ rwh s' = rwh s;
  g_aarr : forall a, In a (adv_arr s') -> In a (adv_arr s) \/ nxt s <= a < nxt s';
  g_amap : forall m, In m (adv_map s') -> In m (adv_map s) \/ nxt s <= m < nxt s';
  g_vals : forall x k a, In (k, a) (hmap s' x) -> In (k, a) (hmap s x) \/ nxt s <= a < nxt s';
  g_frame : frame s s';
  g_body : bufarr s < nxt s -> ~ In (bufarr s) (adv_arr s) -> arr s' (bufarr s) = arr s (bufarr s) ++ d }.

Lemma grows_refl s : grows [] s s.
Proof.
  constructor; auto using frame_refl; try lia. intros _ _. symmetry. apply app_nil_r.
Qed.

Lemma old_aarr d s s' a : grows d s s' -> a < nxt s -> ~ In a (adv_arr s) -> ~ In a (adv_arr s').
Proof. intros G Ha N H. destruct (g_aarr G _ H) as [H1|H1]; [exact (N H1)|lia]. Qed.
Lemma old_amap d s s' m : grows d s s' -> m < nxt s -> ~ In m (adv_map s) -> ~ In m (adv_map s').
Proof. intros G Hm N H. destruct (g_amap G _ H) as [H1|H1]; [exact (N H1)|lia]. Qed.

Lemma grows_bnd d s s' : Bnd s -> grows d s s' -> Bnd s'.
Proof.
  intros B G. pose proof (g_nxt G) as Hn. destruct B as [Bpos Bwm Brw Bbuf Baa Bam Bvals Bst].
  constructor; rewrite ?(g_wmap G), ?(g_buf G), ?(g_st G); try lia.
  - destruct (g_rwh G) as [->|[H _]]; lia.
  - intros a H. destruct (g_aarr G _ H) as [H1|H1]; [apply Baa in H1|]; lia.
  - intros m H. destruct (g_amap G _ H) as [H1|H1]; [apply Bam in H1|]; lia.
  - intros x k a H. destruct (g_vals G _ _ _ H) as [H1|H1]; [apply Bvals in H1|]; lia.
  - intros st m b H. apply Bst in H. lia.
Qed.

(* writes within the footprint do not reach what an owned map object shows *)
Lemma owned_frame s s' m : Bnd s -> owned s m -> m < nxt s -> frame s s' ->
  hmap s' m = hmap s m /\ deref s' (hmap s m) = deref s (hmap s m).
Proof.
  intros B (O1 & O2 & O3) Hm [Fm Fa]. split; [apply Fm; assumption|].
  apply deref_ext. intros k a H. destruct (O3 _ _ H) as [Q1 Q2]. apply Fa; auto. apply (b_vals _ B _ _ _ H).
Qed.

Lemma grows_owned d s s' m : Bnd s -> grows d s s' -> m < nxt s -> owned s m -> owned s' m.
Proof.
  intros B G Hm O. destruct (owned_frame B O Hm (g_frame G)) as [Hh _]. destruct O as (O1 & O2 & O3).
  unfold owned. rewrite Hh, (g_wmap G), (g_buf G).
  split; [apply (old_amap G); assumption|]. split; [exact O2|].
  intros k a H. destruct (O3 _ _ H) as [Q1 Q2]. split; [|exact Q2].
  apply (old_aarr G); [apply (b_vals _ B _ _ _ H)|exact Q1].
Qed.

Lemma grows_sep d s s' : Bnd s -> Sep s -> grows d s s' -> Sep s'.
Proof.
  intros B S G st m b Hst. rewrite (g_st G) in Hst.
  destruct (S _ _ _ Hst) as (S1 & S2 & S3 & S4 & S5 & S6). destruct (b_st _ B _ _ _ Hst) as [Bm Bb].
  destruct (grows_owned B G Bm (conj S1 (conj S2 S6))) as (O1 & O2 & O3).
  split; [exact O1|]. split; [exact O2|].
  split; [destruct (g_rwh G) as [->|[H _]]; [exact S3|lia]|].
  split; [apply (old_aarr G); assumption|]. split; [rewrite (g_buf G); exact S5|exact O3].
Qed.

Lemma grows_wf d s s' : WF s -> grows d s s' -> WF s'.
Proof. intros [B S] G. split; [apply (grows_bnd B G)|apply (grows_sep B S G)]. Qed.

Lemma grows_priv d s s' : Bnd s -> Priv s -> grows d s s' -> Priv s'.
Proof.
  intros B P G. destruct (g_rwh G) as [Hr|[_ HP]]; [|exact (HP B)].
  unfold Priv. rewrite Hr. exact (grows_owned B G (b_rwh _ B) P).
Qed.

Lemma grows_trans d1 d2 s s' s'' : grows d1 s s' -> grows d2 s' s'' -> grows (d1 ++ d2) s s''.
Proof.
  intros G1 G2. pose proof (g_nxt G1) as N1. pose proof (g_nxt G2) as N2.
  constructor.
  - lia.
  - rewrite (g_wmap G2). apply G1.
  - rewrite (g_buf G2). apply G1.
  - rewrite (g_st G2). apply G1.
  - destruct (g_rwh G2) as [H2|[H2 P2]].
    + destruct (g_rwh G1) as [H1|[H1 P1]]; [left; congruence|right]. split; [lia|].
      intros B. exact (grows_priv (grows_bnd B G1) (P1 B) G2).
    + right. split; [lia|]. intros B. exact (P2 (grows_bnd B G1)).
  - intros H. destruct (g_com G1 H) as [H1 R1]. destruct (g_com G2 H1) as [H2 R2].
    split; [exact H2|congruence].
  - intros a H. destruct (g_aarr G2 _ H) as [H2|H2]; [destruct (g_aarr G1 _ H2) as [H1|H1]; [left; exact H1|]|];
      right; lia.
  - intros m H. destruct (g_amap G2 _ H) as [H2|H2]; [destruct (g_amap G1 _ H2) as [H1|H1]; [left; exact H1|]|];
      right; lia.
  - intros x k a H.
    destruct (g_vals G2 _ _ _ H) as [H2|H2]; [destruct (g_vals G1 _ _ _ H2) as [H1|H1]; [left; exact H1|]|];
      right; lia.
  - destruct (g_frame G1) as [Fm1 Fa1]. destruct (g_frame G2) as [Fm2 Fa2]. split; intros x H1 H2 H3.
    + rewrite Fm2, Fm1; auto; [rewrite (g_wmap G1); exact H1|apply (old_amap G1); assumption|lia].
    + rewrite Fa2, Fa1; auto; [rewrite (g_buf G1); exact H1|apply (old_aarr G1); assumption|lia].
  - intros Hb Hp. rewrite app_assoc, <- (g_body G1 Hb Hp), <- (g_buf G1). apply (g_body G2).
    + rewrite (g_buf G1). lia.
    + rewrite (g_buf G1). apply (old_aarr G1); assumption.
Qed.

Unset Implicit Arguments.

(* m[k] = c for a map object m the writer may write; the writer keeps the new slice.  h_set is the handler's,
   on its own header map; adv_mapset the adversary's, on a map it holds. *)
Definition map_set (s : ast) (m k : Z) (c : list Z) : ast :=
  with_adv (with_heap s (aupd (arr s) (nxt s) c) (mupd (hmap s) m (zins (hmap s m) k (nxt s))) (nxt s + 1))
           (nxt s :: adv_arr s) (adv_map s).

Lemma map_set_grows s m k c : m = wmap s \/ In m (adv_map s) -> grows [] s (map_set s m k c).
Proof.
  intros Hm. unfold map_set. constructor; fld; auto; try lia.
  - intros a [<-|H]; [right; lia|left; exact H].
  - intros x k0 a H. unfold mupd in H. destruct (Z.eqb_spec x m) as [->|_]; [|left; exact H].
    apply zins_In in H. destruct H as [H|H]; [inversion H; right; lia|left; exact H].
  - split; fld; intros x H1 H2 H3; [|apply aupd_other; lia].
    apply mupd_other. intros ->. destruct Hm as [Hm|Hm]; [exact (H1 Hm)|exact (H2 Hm)].
  - intros Hb _. rewrite app_nil_r. apply aupd_other. lia.
Qed.

Lemma h_set_grows s k v1 v2 : grows [] s (h_set s k v1 v2).
Proof. exact (map_set_grows s (wmap s) k [v1; v2] (or_introl eq_refl)). Qed.

Lemma adv_mapset_grows s i k v : grows [] s (adv_mapset s i k v).
Proof.
  unfold adv_mapset. destruct (nth_error (adv_map s) (Z.to_nat i)) as [m|] eqn:E; [|apply grows_refl].
  exact (map_set_grows s m k [v] (or_intror (nth_error_In _ _ E))).
Qed.

Lemma adv_write_grows s i pos v : grows [] s (adv_write s i pos v).
Proof.
  unfold adv_write. destruct (nth_error (adv_arr s) (Z.to_nat i)) as [a|] eqn:E; [|apply grows_refl].
  apply nth_error_In in E. constructor; fld; auto; try lia.
  - split; fld; intros x H1 H2 H3; [reflexivity|]. apply aupd_other. intros ->. contradiction.
  - intros _ Hp. rewrite app_nil_r. apply aupd_other. intros Hx. apply Hp. rewrite Hx. exact E.
Qed.

Lemma adv_mapdel_grows s i k : grows [] s (adv_mapdel s i k).
Proof.
  unfold adv_mapdel. destruct (nth_error (adv_map s) (Z.to_nat i)) as [m|] eqn:E; [|apply grows_refl].
  apply nth_error_In in E. constructor; fld; auto; try lia.
  - intros x k0 a H. left. unfold mupd in H. destruct (Z.eqb_spec x m) as [->|_]; [apply zdel_In in H|]; exact H.
  - split; fld; intros x H1 H2 H3; [|reflexivity]. apply mupd_other. intros ->. contradiction.
  - intros _ _. symmetry. apply app_nil_r.
Qed.

Lemma commit_committed s code : committed s = true -> commit s code = s.
Proof. intros H. unfold commit. rewrite H. reflexivity. Qed.

Lemma commit_is_committed s code : committed (commit s code) = true.
Proof.
  unfold commit. destruct (committed s) eqn:E; [exact E|].
  destruct (clone_entries s (hmap s (wmap s)) []) as [s1 es]. reflexivity.
Qed.

Lemma commit_ext s code : heap_ext s (commit s code).
Proof.
  unfold commit. destruct (committed s); [apply heap_ext_refl|].
  destruct (clone_spec (hmap s (wmap s)) s []) as (a & n & es & E & Hn & Ha & _). rewrite E.
  unfold heap_ext. fld. split; [lia|]. split; [exact Ha|]. intros x Hx. apply mupd_other. lia.
Qed.

(* the commit copies the handler's map into fresh objects that it hands to nobody *)
Lemma commit_establishes_priv s code : Bnd s -> committed s = false -> Priv (commit s code).
Proof.
  intros B Hc. unfold commit. rewrite Hc.
  destruct (clone_spec (hmap s (wmap s)) s []) as (a & n & es & E & Hn & Ha & Hr & _). rewrite E.
  unfold Priv. fld. rewrite mupd_same. destruct B as [Bpos Bwm Brw Bbuf Baa Bam Bvals Bst].
  split; [intros H; apply Bam in H; lia|]. split; [lia|].
  intros k v H. apply Hr in H. split; [|lia]. intros H1. apply Baa in H1. lia.
Qed.

Lemma commit_grows s code : grows [] s (commit s code).
Proof.
  destruct (committed s) eqn:Hc; [rewrite commit_committed by exact Hc; apply grows_refl|].
  pose proof (commit_ext s code) as X. pose proof (fun B => commit_establishes_priv s code B Hc) as HP.
  revert X HP. unfold commit. rewrite Hc.
  destruct (clone_spec (hmap s (wmap s)) s []) as (a & n & es & E & Hn & Ha & Hr & _). rewrite E. fld.
  intros X HP. constructor; fld; auto; try lia.
  - right. split; [lia|exact HP].
  - intros H. congruence.
  - intros x k v H. unfold mupd in H. destruct (x =? n); [right; apply Hr in H; lia|left; exact H].
  - apply heap_ext_frame, X.
  - intros Hb _. rewrite app_nil_r. apply X, Hb.
Qed.

Theorem commit_snapshot s code : committed s = false -> WF s ->
  snap (commit s code) = map (fun e => (fst e, arr s (snd e))) (hmap s (wmap s)).
Proof.
  intros Hc [B _]. unfold snap, commit. rewrite Hc.
  destruct (clone_spec (hmap s (wmap s)) s []) as (a & n & es & E & _ & _ & _ & Hd). rewrite E. fld.
  rewrite mupd_same. specialize (Hd (fun k v H => b_vals _ B _ _ _ H)). rewrite filter_keep_nil in Hd. exact Hd.
Qed.

(* handler: Write.  The part before the implicit commit: the handler's slice exists and the handler keeps it. *)
Definition hw_pre (s : ast) (b1 b2 b3 : Z) : ast :=
  with_adv (fst (alloc_arr s [b1; b2; b3])) (nxt s :: adv_arr s) (adv_map s).

Lemma hw_pre_grows s b1 b2 b3 : grows [] s (hw_pre s b1 b2 b3).
Proof.
  unfold hw_pre. constructor; fld; auto; try lia.
  - intros a [<-|H]; [right; lia|left; exact H].
  - split; fld; intros x _ _ Hx; [reflexivity|apply aupd_other; lia].
  - intros Hb _. rewrite app_nil_r. apply aupd_other. lia.
Qed.

Lemma buf_append_grows s d :
  grows d s (with_heap s (aupd (arr s) (bufarr s) (arr s (bufarr s) ++ d)) (hmap s) (nxt s)).
Proof.
  constructor; fld; auto; try lia.
  - split; fld; intros x H1 _ _; [reflexivity|apply aupd_other, H1].
  - intros _ _. apply aupd_same.
Qed.

Lemma h_write_eq s b1 b2 b3 : h_write s b1 b2 b3 =
  let s3 := commit (hw_pre s b1 b2 b3) 200 in
  with_heap s3 (aupd (arr s3) (bufarr s3) (arr s3 (bufarr s3) ++ arr s3 (nxt s))) (hmap s3) (nxt s3).
Proof. reflexivity. Qed.

Lemma h_write_grows s b1 b2 b3 : grows [b1; b2; b3] s (h_write s b1 b2 b3).
Proof.
  rewrite h_write_eq. cbv zeta.
  (* the commit in between does not touch the slice just allocated *)
  assert (Hd : arr (commit (hw_pre s b1 b2 b3) 200) (nxt s) = [b1; b2; b3]).
  { destruct (commit_ext (hw_pre s b1 b2 b3) 200) as (_ & Ha & _). rewrite Ha; unfold hw_pre; fld; [|lia].
    apply aupd_same. }
  rewrite Hd.
  exact (grows_trans (hw_pre_grows s b1 b2 b3)
           (grows_trans (commit_grows (hw_pre s b1 b2 b3) 200) (buf_append_grows _ [b1; b2; b3]))).
Qed.

Lemma hit_ext s : heap_ext s (fst (hit s)).
Proof.
  unfold hit. destruct (stored s) as [[[st m] b]|]; [|apply heap_ext_refl].
  destruct (clone_spec (hmap s m) s []) as (a & n & es & E & Hn & Ha & _). rewrite E.
  unfold heap_ext. fld. split; [lia|]. split; [exact Ha|]. intros x Hx. apply mupd_other. lia.
Qed.

Lemma hit_grows s : grows [] s (fst (hit s)).
Proof.
  pose proof (hit_ext s) as X. revert X.
  unfold hit. destruct (stored s) as [[[st m] b]|] eqn:Hst; [|intros _; apply grows_refl].
  destruct (clone_spec (hmap s m) s []) as (a & n & es & E & Hn & Ha & Hr & _). rewrite E. fld.
  intros X. constructor; fld; auto; try lia.
  - intros x H. apply in_app_or in H. destruct H as [H|H]; [right|left; exact H].
    apply in_map_iff in H. destruct H as [[k v] [<- H]]. apply Hr in H. simpl. lia.
  - intros x [<-|H]; [right; lia|left; exact H].
  - intros x k v H. unfold mupd in H. destruct (x =? n); [right; apply Hr in H; lia|left; exact H].
  - apply heap_ext_frame, X.
  - intros Hb _. rewrite app_nil_r. apply X, Hb.
Qed.

Theorem hit_output s : WF s -> stored s <> None -> snd (hit s) = view s.
Proof.
  intros [B S] Hne. rewrite view_eq. unfold hit.
  destruct (stored s) as [[[st m] b]|] eqn:Hst; [|contradiction].
  destruct (clone_spec (hmap s m) s []) as (a & n & es & E & Hn & Ha & Hr & Hd). rewrite E.
  destruct (b_st _ B _ _ _ Hst) as [Bm Bb].
  specialize (Hd (fun k v H => b_vals _ B _ _ _ H)). rewrite filter_keep_nil in Hd.
  rewrite <- Hd, <- (Ha b Bb), <- enc_deref. reflexivity.
Qed.

(* also true without a stored response: both are [-1] *)
Lemma hit_output_all s : WF s -> snd (hit s) = view s.
Proof.
  intros W. destruct (stored s) eqn:E.
  - apply hit_output; [exact W|congruence].
  - unfold hit, view. rewrite E. reflexivity.
Qed.

(* the store.  The policy call first: a retaining policy keeps rw.headers, every value slice in it, and the
   buffer's bytes *)
Definition st_pre (s0 : ast) (retain : bool) : ast :=
  if retain
  then with_adv s0 (bufarr s0 :: map snd (hmap s0 (rwh s0)) ++ adv_arr s0) (rwh s0 :: adv_map s0)
  else s0.

Lemma st_pre_bnd s0 retain : Bnd s0 -> Bnd (st_pre s0 retain).
Proof.
  intros B. unfold st_pre. destruct retain; [|exact B].
  destruct B as [Bpos Bwm Brw Bbuf Baa Bam Bvals Bst]. constructor; fld; try lia; auto.
  - intros a [H|H]; [lia|]. apply in_app_or in H. destruct H as [H|H]; [|auto].
    apply in_map_iff in H. destruct H as [[k a0] [<- H]]. apply Bvals in H. exact H.
  - intros m [H|H]; [lia|auto].
Qed.

Lemma st_pre_eq s0 retain : exists aa am, st_pre s0 retain = with_adv s0 aa am.
Proof.
  destruct retain; [eexists; eexists; reflexivity|].
  exists (adv_arr s0), (adv_map s0). destruct s0; reflexivity.
Qed.

(* after it, the store clones what rw.headers and the buffer hold right then into fresh objects *)
Lemma store_eq s retain : exists a n es, let s1 := st_pre (commit s 200) retain in
  store s retain =
  {| arr := aupd a (n + 1) (a (bufarr s1)); hmap := mupd (hmap s1) n es; nxt := n + 1 + 1; wmap := wmap s1;
     committed := committed s1; rwh := rwh s1; status := status s1; bufarr := bufarr s1;
     stored := Some (status s1, n, n + 1); adv_arr := adv_arr s1; adv_map := adv_map s1; ignored := ignored s1 |} /\
  nxt s1 <= n /\ (forall x, x < nxt s1 -> a x = arr s1 x) /\ (forall k v, In (k, v) es -> nxt s1 <= v < n) /\
  ((forall k v, In (k, v) (hmap s1 (rwh s1)) -> v < nxt s1) ->
   deref (with_heap s1 a (hmap s1) n) es = deref s1 (filter (keep (ignored s1)) (hmap s1 (rwh s1)))).
Proof.
  destruct (clone_spec (hmap (st_pre (commit s 200) retain) (rwh (st_pre (commit s 200) retain)))
              (st_pre (commit s 200) retain) (ignored (st_pre (commit s 200) retain)))
    as (a & n & es & E & H).
  exists a, n, es. split; [|exact H]. unfold store. fold (st_pre (commit s 200) retain). cbv zeta.
  rewrite E. reflexivity.
Qed.

Lemma store_wf s retain : WF s -> WF (store s retain).
Proof.
  intros [B _].
  assert (B1 : Bnd (st_pre (commit s 200) retain)) by apply st_pre_bnd, (grows_bnd B (commit_grows s 200)).
  destruct (store_eq s retain) as (a & n & es & E & Hn & Ha & Hr & _). cbv zeta in *. rewrite E.
  set (s1 := st_pre (commit s 200) retain) in *. clearbody s1. destruct B1 as [Bpos Bwm Brw Bbuf Baa Bam Bvals Bst].
  (* the stored objects are fresh, every reference held outside is older *)
  split.
  - constructor; fld; try lia.
    + intros x H. apply Baa in H. lia.
    + intros x H. apply Bam in H. lia.
    + intros x k v H. unfold mupd in H. destruct (x =? n); [apply Hr in H|apply Bvals in H]; lia.
    + intros st m b H. inversion H. lia.
  - intros st m b H. fld. inversion H; subst st m b. rewrite mupd_same.
    split; [intros H1; apply Bam in H1; lia|]. split; [lia|]. split; [lia|].
    split; [intros H1; apply Baa in H1; lia|]. split; [lia|].
    intros k v H1. apply Hr in H1. split; [|lia]. intros H2. apply Baa in H2. lia.
Qed.

Lemma store_ext s retain : heap_ext s (store s retain).
Proof.
  destruct (store_eq s retain) as (a & n & es & E & Hn & Ha & _). cbv zeta in *. rewrite E.
  destruct (st_pre_eq (commit s 200) retain) as (aa & am & Es). rewrite Es in *.
  destruct (commit_ext s 200) as (Hn0 & Ha0 & Hm0).
  unfold heap_ext. fld. split; [lia|]. split; intros x Hx.
  - rewrite aupd_other by lia. rewrite Ha by lia. apply Ha0, Hx.
  - rewrite mupd_other by lia. apply Hm0, Hx.
Qed.

Lemma store_false_priv s : Bnd s -> Priv s -> Priv (store s false).
Proof.
  intros B P. pose proof (commit_grows s 200) as G. pose proof (grows_priv B P G) as P0. pose proof (grows_bnd B G) as B0.
  destruct (store_eq s false) as (a & n & es & E & Hn & _). cbv zeta in *. rewrite E. unfold st_pre in *.
  unfold Priv. fld. rewrite mupd_other by (pose proof (b_rwh _ B0); lia). exact P0.
Qed.

(* general form: the store captures rw.headers and the buffer as they are right after the (possibly implicit)
   commit *)
Lemma store_view_commit s r : WF s ->
  view (store s r) =
  let s0 := commit s 200 in
  status s0 :: enc (deref s0 (filter (keep (ignored s0)) (hmap s0 (rwh s0)))) ++ [-2] ++ arr s0 (bufarr s0).
Proof.
  intros [B _]. pose proof (grows_bnd B (commit_grows s 200)) as B0. cbv zeta.
  pose proof (st_pre_bnd _ r B0) as B1.
  destruct (store_eq s r) as (a & n & es & E & Hn & Ha & Hr & Hd). cbv zeta in *. rewrite E.
  destruct (st_pre_eq (commit s 200) r) as (aa & am & Es). rewrite Es in *.
  set (s0 := commit s 200) in *. clearbody s0.
  rewrite view_eq. fld. rewrite mupd_same, aupd_same.
  rewrite (deref_ext (with_heap (with_adv s0 aa am) a (hmap s0) n)) by (intros k v H; fld; apply Hr in H; apply aupd_other; lia).
  rewrite Hd by apply (b_vals _ B1). rewrite (Ha (bufarr s0)) by apply (b_buf _ B0). reflexivity.
Qed.

Theorem store_view s r : WF s -> committed s = true ->
  view (store s r) =
  status s :: flat_map (fun e => fst e :: Z.of_nat (length (arr s (snd e))) :: arr s (snd e))
                (filter (fun e => negb (zmem (ignored s) (fst e))) (hmap s (rwh s)))
           ++ [-2] ++ arr s (bufarr s).
Proof.
  intros W Hc. rewrite (store_view_commit s r W). cbv zeta. rewrite (commit_committed s 200 Hc).
  rewrite enc_deref. reflexivity.
Qed.

Definition step (s : ast) (op : list Z) : ast := fst (al_step s op).
Definition steps (s : ast) (ops : list (list Z)) : ast := fold_left step ops s.

(* the last of nine alternatives in one step; al_step_cases meets it at every unknown operation code, where
   going right eight times is slow to check *)
Lemma last_of_nine (A1 A2 A3 A4 A5 A6 A7 A8 D : Prop) : D -> A1 \/ A2 \/ A3 \/ A4 \/ A5 \/ A6 \/ A7 \/ A8 \/ D.
Proof. tauto. Qed.

(* prove a nested disjunction of existentials by the first alternative that its witnesses and reflexivity close *)
Ltac pick :=
  first [ solve [repeat eexists]
        | solve [left; repeat eexists]
        | right; pick ].

(* the shapes of an operation; an unknown one changes nothing and, in particular, hands no bytes to Write *)
Lemma al_step_cases s op :
  (exists k v1 v2, op = [1; k; v1; v2]) \/ (exists c, op = [2; c]) \/ (exists a b c, op = [3; a; b; c]) \/
  (exists r, op = [4; r]) \/ (exists i p v, op = [5; i; p; v]) \/ (exists i k v, op = [6; i; k; v]) \/
  (exists i k, op = [7; i; k]) \/ op = [8] \/
  (al_step s op = (s, [-9]) /\ match op with [3; b1; b2; b3] => [b1; b2; b3] | _ => [] end = []).
Proof.
  destruct op as [|c l]; [apply last_of_nine; split; reflexivity|].
  destruct c as [|p|p]; [apply last_of_nine; split; reflexivity| |apply last_of_nine; split; reflexivity].
  (* an operation code outside 1..8 is unknown whatever follows it *)
  destruct p as [[[[p|p|]|[p|p|]|]|[[p|p|]|[p|p|]|]|]|[[[p|p|]|[p|p|]|]|[[p|p|]|[p|p|]|]|]|];
    try (apply last_of_nine; split; reflexivity);
    (* codes 1..8: the number of arguments decides *)
    destruct l as [|x1 [|x2 [|x3 [|x4 l]]]]; try (apply last_of_nine; split; reflexivity); pick.
Qed.

Lemma step_hit s : step s [8] = fst (hit s).
Proof. unfold step. change (al_step s [8]) with (let '(s', o) := hit s in (s', o ++ [-3] ++ shares s')).
  destruct (hit s); reflexivity. Qed.

(* every operation is a store or grows the state; the buffer gains the bytes of a Write and nothing else *)
Theorem step_grows s op :
  (exists r, op = [4; r]) \/
  grows (match op with [3; b1; b2; b3] => [b1; b2; b3] | _ => [] end) s (step s op).
Proof.
  destruct (al_step_cases s op) as
    [(k & v1 & v2 & ->)|[(c & ->)|[(a & b & c & ->)|[(r & ->)|[(i & p & v & ->)|[(i & k & v & ->)|
     [(i & k & ->)|[->|[E ->]]]]]]]]]; [right|right|right|left; exists r; reflexivity|right|right|right|right|right].
  - apply h_set_grows.
  - apply commit_grows.
  - apply h_write_grows.
  - apply adv_write_grows.
  - apply adv_mapset_grows.
  - apply adv_mapdel_grows.
  - rewrite step_hit. apply hit_grows.
  - unfold step. rewrite E. apply grows_refl.
Qed.

Theorem al_step_wf s op : WF s -> WF (fst (al_step s op)).
Proof.
  intros W. destruct (step_grows s op) as [[r ->]|G]; [apply store_wf, W|exact (grows_wf W G)].
Qed.

Lemma steps_wf ops : forall s, WF s -> WF (steps s ops).
Proof.
  induction ops as [|op ops IH]; intros s W; [exact W|].
  simpl. apply IH. apply al_step_wf, W.
Qed.

Theorem reachable_wf : forall ign ops, WF (fold_left (fun s o => fst (al_step s o)) ops (init ign)).
Proof. intros ign ops. apply (steps_wf ops), init_wf. Qed.

(* what a step can write (no invariant needed) *)
Theorem footprint s op : frame s (step s op).
Proof.
  destruct (step_grows s op) as [[r ->]|G]; [apply heap_ext_frame, store_ext|apply (g_frame G)].
Qed.

Definition nonstore (op : list Z) : Prop := forall r, op <> [4; r].

Lemma nonstore_stored s op : nonstore op -> stored (step s op) = stored s.
Proof. intros N. destruct (step_grows s op) as [[r ->]|G]; [destruct (N r eq_refl)|apply (g_st G)]. Qed.

Lemma committed_step s op : committed s = true -> committed (step s op) = true /\ rwh (step s op) = rwh s.
Proof.
  intros Hc. destruct (step_grows s op) as [[r ->]|G]; [|apply (g_com G Hc)].
  unfold step. cbn [al_step fst].
  destruct (store_eq s (r =? 1)) as (a & n & es & E & _). cbv zeta in E. rewrite E, (commit_committed s 200 Hc).
  destruct (st_pre_eq s (r =? 1)) as (aa & am & ->). split; [exact Hc|reflexivity].
Qed.

Theorem step_priv s op : WF s -> Priv s -> op <> [4; 1] -> Priv (step s op).
Proof.
  intros [B _] P N. destruct (step_grows s op) as [[r ->]|G]; [|exact (grows_priv B P G)].
  unfold step. cbn [al_step fst]. destruct (Z.eqb_spec r 1) as [->|Hr]; [contradiction|].
  apply store_false_priv; assumption.
Qed.

Lemma view_frame s s' : WF s -> frame s s' -> stored s' = stored s -> view s' = view s.
Proof.
  intros [B S] F Hst. rewrite !view_eq, Hst.
  destruct (stored s) as [[[st m] b]|] eqn:E; [|reflexivity].
  destruct (S _ _ _ E) as (S1 & S2 & S3 & S4 & S5 & S6). destruct (b_st _ B _ _ _ E) as [Bm Bb].
  destruct (owned_frame B (conj S1 (conj S2 S6)) Bm F) as [Hh Hd].
  rewrite Hh, Hd, (proj2 F b S5 S4 Bb). reflexivity.
Qed.

Theorem view_stable s op : WF s -> (forall r, op <> [4; r]) -> view (fst (al_step s op)) = view s.
Proof.
  intros W N. apply (view_frame s (step s op) W (footprint s op) (nonstore_stored s op N)).
Qed.

Theorem view_stable_seq ops : forall s, WF s -> Forall (fun op => forall r, op <> [4; r]) ops ->
  view (fold_left (fun s o => fst (al_step s o)) ops s) = view s.
Proof.
  induction ops as [|op ops IH]; intros s W F; [reflexivity|].
  inversion F; subst. simpl. rewrite IH; [|apply al_step_wf, W|assumption].
  apply view_stable; assumption.
Qed.

Theorem shares_zero s : WF s -> shares s = [0; 0; 0].
Proof.
  intros [B S]. unfold shares. destruct (stored s) as [[[st m] b]|] eqn:Hst; [|reflexivity].
  destruct (S _ _ _ Hst) as (S1 & S2 & S3 & S4 & S5 & S6).
  rewrite (zmem_notIn _ _ S4), (zmem_notIn _ _ S1).
  destruct (existsb (fun e => zmem (adv_arr s) (snd e)) (hmap s m)) eqn:Ex; [|reflexivity].
  apply existsb_exists in Ex. destruct Ex as [[k a] [Hin Hz]]. simpl in Hz. apply zmem_In in Hz.
  destruct (S6 _ _ Hin) as [Hn _]. contradiction.
Qed.

Theorem reachable_shares_zero ign ops :
  shares (fold_left (fun s o => fst (al_step s o)) ops (init ign)) = [0; 0; 0].
Proof. apply shares_zero, reachable_wf. Qed.

(* the complete output of the [8] operation of the al stream *)
Lemma al_hit_output s : WF s -> snd (al_step s [8]) = view s ++ [-3; 0; 0; 0].
Proof.
  intros W. change (al_step s [8]) with (let '(s', o) := hit s in (s', o ++ [-3] ++ shares s')).
  pose proof (hit_output_all s W) as Ho. pose proof (grows_wf W (hit_grows s)) as Hw.
  destruct (hit s) as [s' o]. simpl in *. rewrite Ho, (shares_zero s' Hw). reflexivity.
Qed.

(* the store operation reports no sharing either *)
Lemma al_store_output s r : WF s -> snd (al_step s [4; r]) = [0; 0; 0].
Proof. intros W. cbn [al_step snd]. apply shares_zero, store_wf, W. Qed.

(* outputs of the [8] operations along a run *)
Definition is_hit (op : list Z) : bool := match op with [8] => true | _ => false end.
Fixpoint hit_outs (s : ast) (ops : list (list Z)) : list (list Z) :=
  match ops with
  | [] => []
  | op :: r => (if is_hit op then [snd (al_step s op)] else []) ++ hit_outs (fst (al_step s op)) r
  end.

Lemma is_hit_true op : is_hit op = true -> op = [8].
Proof.
  destruct op as [|c l]; [discriminate|].
  destruct c as [|p|p]; try discriminate.
  do 3 (destruct p as [p|p|]; try discriminate).
  destruct p as [p|p|]; try discriminate.
  destruct l; [reflexivity|discriminate].
Qed.

Theorem hits_constant ops : forall s, WF s -> Forall (fun op => forall r, op <> [4; r]) ops ->
  Forall (fun o => o = view s ++ [-3; 0; 0; 0]) (hit_outs s ops).
Proof.
  induction ops as [|op ops IH]; intros s W F; [constructor|].
  inversion F; subst. cbn [hit_outs].
  assert (T : Forall (fun o => o = view s ++ [-3; 0; 0; 0]) (hit_outs (fst (al_step s op)) ops)).
  { rewrite <- (view_stable s op W H1). apply IH; [apply al_step_wf, W|assumption]. }
  destruct (is_hit op) eqn:Eh; [|exact T].
  apply is_hit_true in Eh. subst op. constructor; [|exact T]. apply al_hit_output, W.
Qed.

(* stated on hit directly: after any run without a store, a hit delivers the view the run started with *)
Theorem hit_after_run s ops : WF s -> Forall (fun op => forall r, op <> [4; r]) ops ->
  snd (hit (fold_left (fun s o => fst (al_step s o)) ops s)) = view s.
Proof.
  intros W F. rewrite hit_output_all by (apply (steps_wf ops), W).
  apply view_stable_seq; assumption.
Qed.

(* the instance the isolation clause talks about: store, then anything but a store *)
Corollary hits_after_store s r ops : WF s -> Forall (fun op => forall r, op <> [4; r]) ops ->
  Forall (fun o => o = view (store s r) ++ [-3; 0; 0; 0]) (hit_outs (store s r) ops).
Proof. intros W F. apply hits_constant; [apply store_wf, W|exact F]. Qed.

Theorem steps_priv ops : forall s, WF s -> Priv s -> Forall (fun op => op <> [4; 1]) ops -> Priv (steps s ops).
Proof.
  induction ops as [|op ops IH]; intros s W P F; [exact P|].
  inversion F; subst. simpl. apply IH; [apply al_step_wf, W|apply step_priv; assumption|assumption].
Qed.

Theorem reachable_priv ign ops : Forall (fun op => op <> [4; 1]) ops -> Priv (steps (init ign) ops).
Proof. intros F. apply steps_priv; [apply init_wf|apply init_priv|exact F]. Qed.

Lemma snap_frame s s' : Bnd s -> Priv s -> frame s s' -> rwh s' = rwh s -> snap s' = snap s.
Proof.
  intros B P F Hr. unfold snap. rewrite Hr.
  destruct (owned_frame B P (b_rwh _ B) F) as [Hh Hd]. rewrite Hh. exact Hd.
Qed.

(* after the commit no operation whatsoever changes the snapshot (a retaining store ends the privacy, though) *)
Theorem snap_stable s op : WF s -> Priv s -> committed s = true -> snap (step s op) = snap s.
Proof.
  intros [B _] P Hc. apply snap_frame; [exact B|exact P|apply footprint|apply committed_step, Hc].
Qed.

Theorem snap_stable_seq ops : forall s, WF s -> Priv s -> committed s = true ->
  Forall (fun op => op <> [4; 1]) ops -> snap (steps s ops) = snap s.
Proof.
  induction ops as [|op ops IH]; intros s W P Hc F; [reflexivity|].
  inversion F; subst. simpl. rewrite IH.
  - apply snap_stable; assumption.
  - apply al_step_wf, W.
  - apply step_priv; assumption.
  - apply committed_step, Hc.
  - assumption.
Qed.

(* The copies are necessary: variants without one of the clones are refuted by computation *)

(* cachedHeaders without slices.Clone: the stored Headers entries reuse the arrays of rw.headers *)
Definition store_nocloneH (s : ast) (retain : bool) : ast :=
  let s0 := commit s 200 in
  let s1 := if retain
            then with_adv s0 (bufarr s0 :: map snd (hmap s0 (rwh s0)) ++ adv_arr s0) (rwh s0 :: adv_map s0)
            else s0 in
  let es := filter (fun e => negb (zmem (ignored s1) (fst e))) (hmap s1 (rwh s1)) in
  let '(s3, m) := alloc_map s1 es in
  let '(s4, b) := alloc_arr s3 (arr s3 (bufarr s3)) in
  {| arr := arr s4; hmap := hmap s4; nxt := nxt s4; wmap := wmap s4; committed := committed s4; rwh := rwh s4;
     status := status s4; bufarr := bufarr s4; stored := Some (status s4, m, b);
     adv_arr := adv_arr s4; adv_map := adv_map s4; ignored := ignored s4 |}.

(* Body: body instead of bytes.Clone(body): the stored Body is the capture buffer's array *)
Definition store_nocloneB (s : ast) (retain : bool) : ast :=
  let s0 := commit s 200 in
  let s1 := if retain
            then with_adv s0 (bufarr s0 :: map snd (hmap s0 (rwh s0)) ++ adv_arr s0) (rwh s0 :: adv_map s0)
            else s0 in
  let '(s2, es) := clone_entries s1 (hmap s1 (rwh s1)) (ignored s1) in
  let '(s3, m) := alloc_map s2 es in
  {| arr := arr s3; hmap := hmap s3; nxt := nxt s3; wmap := wmap s3; committed := committed s3; rwh := rwh s3;
     status := status s3; bufarr := bufarr s3; stored := Some (status s3, m, bufarr s3);
     adv_arr := adv_arr s3; adv_map := adv_map s3; ignored := ignored s3 |}.

(* serveCached without slices.Clone: the front's header map gets the stored arrays themselves *)
Definition hit_noclone (s : ast) : ast * list Z :=
  match stored s with
  | None => (s, [-1])
  | Some (st, m, b) =>
      let es := hmap s m in
      let '(s2, mw) := alloc_map s es in
      let out := st :: flat_map (fun e => fst e :: Z.of_nat (length (arr s2 (snd e))) :: arr s2 (snd e)) es
                    ++ [-2] ++ arr s2 b in
      (with_adv s2 (map snd es ++ adv_arr s2) (mw :: adv_map s2), out)
  end.

(* a miss in progress: the handler has set header 5 = [1;2] and written the body [7;8;9] *)
Definition miss_done : ast := steps (init []) [[1; 5; 1; 2]; [3; 7; 8; 9]].

(* with the real store a retaining policy is harmless (instance of view_stable) ... *)
Example store_retain_ok :
  view (step (store miss_done true) [5; 1; 0; 99]) = view (store miss_done true) /\
  view (step (store miss_done true) [5; 0; 0; 99]) = view (store miss_done true).
Proof. split; vm_compute; reflexivity. Qed.

(* ... but without the header clone, the policy's retained value slice (its reference number 1) reaches the entry *)
Theorem nocloneH_refuted :
  let s0 := store_nocloneH miss_done true in
  view s0 = [200; 5; 2; 1; 2; -2; 7; 8; 9] /\
  view (step s0 [5; 1; 0; 99]) = [200; 5; 2; 99; 2; -2; 7; 8; 9] /\
  view (step s0 [5; 1; 0; 99]) <> view s0 /\ shares s0 = [1; 0; 0].
Proof. vm_compute. repeat split; discriminate. Qed.

(* without the body clone, the policy's retained body slice (its reference number 0) is the stored Body; even the
   handler's own later Write changes the entry *)
Theorem nocloneB_refuted :
  let s0 := store_nocloneB miss_done true in
  view s0 = [200; 5; 2; 1; 2; -2; 7; 8; 9] /\
  view (step s0 [5; 0; 0; 99]) = [200; 5; 2; 1; 2; -2; 99; 8; 9] /\
  view (step s0 [5; 0; 0; 99]) <> view s0 /\ shares s0 = [0; 1; 0] /\
  view (step (store_nocloneB miss_done false) [3; 4; 4; 4]) <> view (store_nocloneB miss_done false).
Proof. vm_compute. repeat split; discriminate. Qed.

(* without the clone in serveCached, the front's write into its own header map after a hit reaches the entry,
   and the next hit delivers the altered value *)
Theorem hit_noclone_refuted :
  let s0 := store miss_done false in
  let s1 := fst (hit_noclone s0) in
  snd (hit_noclone s0) = view s0 /\ view s1 = view s0 /\
  view (step s1 [5; 0; 0; 99]) = [200; 5; 2; 99; 2; -2; 7; 8; 9] /\
  view (step s1 [5; 0; 0; 99]) <> view s0 /\
  snd (hit_noclone (step s1 [5; 0; 0; 99])) <> snd (hit_noclone s0) /\ shares s1 = [1; 0; 0].
Proof. vm_compute. repeat split; discriminate. Qed.

(* snap_stable needs both of its hypotheses; by computation: *)
(* before the commit, the handler's Write commits implicitly and so does change rw.headers *)
Theorem snap_uncommitted_refuted :
  let s := step (init []) [1; 5; 1; 2] in
  committed s = false /\ snap s = [] /\ snap (step s [3; 7; 8; 9]) = [(5, [1; 2])].
Proof. vm_compute. repeat split. Qed.

(* after a retaining policy call the snapshot is no longer private: the policy can write rw.headers' slices
   (the stored entry is still untouched, by view_stable) *)
Theorem priv_retain_refuted :
  let s := store miss_done true in
  snap s = [(5, [1; 2])] /\ snap (step s [5; 1; 0; 99]) = [(5, [99; 2])] /\
  snap (step s [6; 0; 6; 1]) = [(5, [1; 2]); (6, [1])] /\ view (step (step s [5; 1; 0; 99]) [6; 0; 6; 1]) = view s.
Proof. vm_compute. repeat split. Qed.


(* ignored key 9; the handler sets 5 and 9 and writes a body; retaining policy; a hit; then the adversary writes
   through the front's clone (ref 0), the buffer (ref 1), rw.headers' slice (ref 2), sets key 5 in the front's
   map (map ref 0), deletes there, adds key 6 to rw.headers (map ref 1), writes once more; a second hit. *)
Definition ex_ops : list (list Z) :=
  [[1; 5; 1; 2]; [1; 9; 4; 4]; [3; 7; 8; 9]; [4; 1]; [8];
   [5; 0; 0; 99]; [5; 1; 0; 98]; [5; 2; 1; 97]; [6; 0; 5; 77]; [7; 0; 9]; [6; 1; 6; 55]; [5; 6; 0; 96]; [8]].
Definition ex_final : ast := fold_left (fun s o => fst (al_step s o)) ex_ops (init [9]).

Example ex_wf : WF ex_final.
Proof. apply reachable_wf. Qed.

Example ex_hits_equal :
  hit_outs (init [9]) ex_ops =
  [[200; 5; 2; 1; 2; -2; 7; 8; 9; -3; 0; 0; 0]; [200; 5; 2; 1; 2; -2; 7; 8; 9; -3; 0; 0; 0]].
Proof. vm_compute. reflexivity. Qed.

(* the adversary's writes did happen: the buffer and rw.headers were altered, the adversary holds ten array and
   four map references; the entry is what it was *)
Example ex_state :
  stored ex_final = Some (200, 10, 11) /\
  adv_arr ex_final = [16; 15; 14; 12; 2; 6; 7; 5; 4; 3] /\ adv_map ex_final = [17; 13; 8; 1] /\
  arr ex_final 2 = [98; 8; 9] /\ snap ex_final = [(5, [1; 97]); (6, [55]); (9, [4; 4])] /\
  view ex_final = [200; 5; 2; 1; 2; -2; 7; 8; 9] /\ shares ex_final = [0; 0; 0].
Proof. vm_compute. repeat split. Qed.

(* the concrete facts behind WF for this state, checked by computation on the finitely many live objects *)
Example ex_sep_computed :
  forallb (fun x => negb (zmem (adv_arr ex_final) x)) (11 :: map snd (hmap ex_final 10)) = true /\
  zmem (adv_map ex_final) 10 = false /\ forallb (fun x => x <? nxt ex_final) (adv_arr ex_final ++ adv_map ex_final) = true.
Proof. vm_compute. repeat split. Qed.

Print Assumptions init_wf.
Print Assumptions al_step_wf.
Print Assumptions reachable_wf.
Print Assumptions footprint.
Print Assumptions view_stable.
Print Assumptions view_stable_seq.
Print Assumptions hit_output.
Print Assumptions hits_constant.
Print Assumptions hit_after_run.
Print Assumptions hits_after_store.
Print Assumptions shares_zero.
Print Assumptions reachable_shares_zero.
Print Assumptions store_view.
Print Assumptions store_view_commit.
Print Assumptions step_priv.
Print Assumptions reachable_priv.
Print Assumptions snap_stable.
Print Assumptions snap_stable_seq.
Print Assumptions commit_snapshot.
Print Assumptions nocloneH_refuted.
Print Assumptions nocloneB_refuted.
Print Assumptions hit_noclone_refuted.
Print Assumptions snap_uncommitted_refuted.
Print Assumptions priv_retain_refuted.
Print Assumptions ex_wf.
Print Assumptions ex_hits_equal.
Print Assumptions ex_state.
