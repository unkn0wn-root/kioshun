(* CallbackProofs.v — an invariant of the expiry-callback transition system of CallbackLts.v and what follows from it
   for a callback invocation.  The theorems carry the number of the clause of property C20 they stand for:
   B1 at most once per SetWithCallback call; B2 not before the deadline; B3 not for a timer that elapses after Close
   returned; B4 with the key and value of its own call; B5 nothing is scheduled for a failed, rejected or never
   expiring write; B6 not for a key deleted or rewritten with another deadline; B7 with no cache lock held;
   B8 (a schedule, by evaluation) SetWithCallback, Delete, Set with an earlier deadline: no callback. *)
From KV Require Import Base CallbackLts.
Open Scope Z_scope.

Lemma upd_eq {A} (f : nat -> A) k v : upd f k v k = v.
Proof. unfold upd. now rewrite Nat.eqb_refl. Qed.
Lemma upd_neq {A} (f : nat -> A) k v x : x <> k -> upd f k v x = f x.
Proof. unfold upd. intros H. destruct (Nat.eqb_spec x k); [contradiction|reflexivity]. Qed.
Lemma In_rem x n l : In x (rem n l) <-> In x l /\ x <> n.
Proof. unfold rem. rewrite filter_In. destruct (Nat.eqb_spec x n); cbn; intuition congruence. Qed.

Definition holds_d (p : pc) : bool :=
  match p with
  | MCheck2 _ | MUnlockDErr | MLockS _ | MApply _ | MUnlockS _ _ _ | MUnlockD _ _ _
  | WkHold _ | WkLockS _ | WkApply _ _ => true
  | _ => false
  end.
Definition holds_sw (p : pc) : bool :=
  match p with
  | MApply _ | MUnlockS _ _ _ | EApply _ | EUnlock | XApply _ _ | XUnlock | KClear | KUnlockS | WkApply _ _ => true
  | _ => false
  end.
Definition holds_sr (p : pc) : bool :=
  match p with TValidate _ _ | TRUnlock _ _ _ => true | _ => false end.
(* a syncMutate caller that passed the isClosed check under drainMu and has not yet applied its mutation *)
Definition precommit (p : pc) : bool :=
  match p with MLockS _ | MApply _ => true | _ => false end.
Definition is_wk (p : pc) : bool :=
  match p with WkIdle | WkLockD _ | WkHold _ | WkLockS _ | WkApply _ _ | WkExited => true | _ => false end.
(* the worker has taken the closeCh branch *)
Definition wk_final (p : pc) : bool :=
  match p with WkLockD true | WkHold true | WkLockS true | WkApply true _ | WkExited => true | _ => false end.
Definition k_closed (p : pc) : bool :=
  match p with KCloseCh | KWait | KLockS | KClear | KUnlockS => true | _ => false end.
Definition k_waited (p : pc) : bool :=
  match p with KLockS | KClear | KUnlockS => true | _ => false end.
Definition k_running (p : pc) : bool :=
  match p with KSetClosed | KCloseCh | KWait | KLockS | KClear | KUnlockS => true | _ => false end.
Definition timer_task (p : pc) : option task :=
  match p with
  | TStart tk _ | TSelect tk _ | TRLock tk _ | TValidate tk _ | TRUnlock tk _ _ | TCall tk _ _
  | TFired tk | TQuiet tk => Some tk
  | _ => None
  end.
Definition post_sel (p : pc) : option (task * tg) :=
  match p with
  | TRLock tk g | TValidate tk g | TRUnlock tk g _ | TCall tk g _ => Some (tk, g)
  | _ => None
  end.
(* the validation succeeded: the entry seen was written by w *)
Definition validated (p : pc) : option (task * tg * tid) :=
  match p with TRUnlock tk g (Some w) | TCall tk g w => Some (tk, g, w) | _ => None end.
Definition m_op (p : pc) : option (mop * bool) :=
  match p with
  | MStart op pe => Some (op, pe)
  | MLockD op | MCheck2 op | MLockS op | MApply op => Some (op, false)
  | _ => None
  end.
Definition m_tk (p : pc) : option (bool * Z * task) :=
  match p with
  | MUnlockS c dl (Some tk) | MUnlockD c dl (Some tk) | MSched c dl tk => Some (c, dl, tk)
  | _ => None
  end.
Definition halted (p : pc) : bool :=
  match p with MDone _ _ _ _ | WkExited | TFired _ | TQuiet _ | PDone => true | _ => false end.
Definition ev_owner (e : event) : tid := match e with ECb tk _ _ _ => tk_owner tk end.

Definition owner_is_call (s : state) (tk : task) : Prop :=
  exists ttl accept, calls s (tk_owner tk) = Some (CSet (tk_key tk) (tk_val tk) ttl (Some (tk_cb tk)) accept false) /\
                    0 < resolve_ttl (cfg_ttl s) ttl.

Section InvDef.
  Variable s : state.

  Definition logged (w : tid) (k : key) (dl : Z) : Prop := exists v, In (w, k, v, dl) (wlog s).
  Definition tab_empty : Prop := forall k, tab s k = None.
  Definition call_matches (t : tid) (op : mop) (pe : bool) : Prop :=
    match op with
    | OSet k v exp cb accept => exists ttl, calls s t = Some (CSet k v ttl cb accept pe) /\
                                           exp = resolve_ttl (cfg_ttl s) ttl
    | ODel k => calls s t = Some (CDelete k)
    end.
  Record task_ok (tk : task) : Prop := {
    to_pos : 0 < tk_dl tk;
    to_logged : In (tk_owner tk, tk_key tk, tk_val tk, tk_dl tk) (wlog s);
    to_call : owner_is_call s tk }.
  (* ghost of a timer that took the timer.C branch of its select *)
  Record sel_ok (g : tg) : Prop := {
    so_fire : g_fire g <= g_sel g;
    so_now : g_sel g <= now s;
    so_after : g_sac g = true -> once s = ODone;
    so_before : g_sac g = false -> forall tau, close_at s = Some tau -> g_sel g <= tau }.

  (* What the theorems use: [e_facts], [g_val], [g_sel1] (B2, B3, B6), [t_uniq] with [e_thr] and [e_nodup] (B1),
     [t_own] (B4, B5), [t_sched] (B5), [k_done] with [k_pre], [k_fin], [k_ch] (B3, the closed cache), the lock clauses
     (B7).  [k_pre] is what makes [k_done] inductive: no Set commits after the worker's exit.  The other clauses
     ([b_idle], [b_wk0], [k_thr], [k_wait], [k_unl], [k_at1], [k_at2], [t_mop], [t_mtk], [tab_log]) are there for the induction only. *)
  Record Inv : Prop := {
    b_idle : forall t, (nthr s <= t)%nat -> thr s t = Idle;
    b_wk0 : is_wk (thr s 0%nat) = true;
    l_d : forall t, holds_d (thr s t) = true <-> dmu s = Some t;
    l_sw : forall t, holds_sw (thr s t) = true <-> rw_w (smu s) = Some t;
    l_sr : forall t, holds_sr (thr s t) = true <-> In t (rw_r (smu s));
    l_mutex : rw_w (smu s) <> None -> rw_r (smu s) = [];
    k_ch : closeCh s = true -> closed s = true;
    k_thr : forall t, k_closed (thr s t) = true -> closed s = true;
    k_fin : wk_final (thr s 0%nat) = true -> closeCh s = true;
    k_pre : forall t, precommit (thr s t) = true -> thr s 0%nat <> WkExited;
    k_wait : forall t, k_waited (thr s t) = true -> thr s 0%nat = WkExited;
    k_done : once s = ODone -> thr s 0%nat = WkExited /\ tab_empty;
    k_unl : forall t, thr s t = KUnlockS -> tab_empty;
    k_at1 : forall tau, close_at s = Some tau -> once s = ODone /\ tau <= now s;
    k_at2 : once s = ODone -> close_at s <> None;
    t_mop : forall t op pe, m_op (thr s t) = Some (op, pe) -> call_matches t op pe;
    t_mtk : forall t c dl tk, m_tk (thr s t) = Some (c, dl, tk) ->
              tk_owner tk = t /\ c = true /\ tk_dl tk = dl /\ task_ok tk;
    t_own : forall t tk, timer_task (thr s t) = Some tk ->
              thr s (tk_owner tk) = MDone ROk true (tk_dl tk) true /\ task_ok tk;
    t_uniq : forall t1 t2 tk1 tk2, timer_task (thr s t1) = Some tk1 -> timer_task (thr s t2) = Some tk2 ->
              tk_owner tk1 = tk_owner tk2 -> t1 = t2;
    t_sched : forall t r c dl, thr s t = MDone r c dl true -> r = ROk /\ c = true /\ 0 < dl;
    g_sel1 : forall t tk g, post_sel (thr s t) = Some (tk, g) -> sel_ok g;
    g_val : forall t tk g w, validated (thr s t) = Some (tk, g, w) ->
              g_sac g = false /\ tk_dl tk < now s /\ logged w (tk_key tk) (tk_dl tk);
    tab_log : forall k e, tab s k = Some e -> In (e_writer e, k, e_val e, e_dl e) (wlog s);
    e_thr : forall tk g w a, In (ECb tk g w a) (events s) -> exists t, thr s t = TFired tk;
    e_nodup : NoDup (map ev_owner (events s));
    e_facts : forall tk g w a, In (ECb tk g w a) (events s) ->
              g_sac g = false /\ tk_dl tk < a /\ logged w (tk_key tk) (tk_dl tk) /\ sel_ok g
  }.
End InvDef.

Lemma smu_free_true s : smu_free s = true -> rw_w (smu s) = None /\ rw_r (smu s) = [].
Proof. unfold smu_free. destruct (rw_w (smu s)); [discriminate|]. destruct (rw_r (smu s)); [auto|discriminate]. Qed.

Lemma expire_entry_some n x e : expire_entry n x = Some e -> x = Some e.
Proof. destruct x as [e0|]; [|discriminate]. cbn. destruct (expired_at n e0); [discriminate|auto]. Qed.

Lemma thr_lt s t : Inv s -> thr s t <> Idle -> (t < nthr s)%nat.
Proof.
  intros I N. destruct (Nat.lt_ge_cases t (nthr s)) as [L|L]; [exact L|]. elim N. apply (b_idle s I t L).
Qed.

Lemma nthr_pos s : Inv s -> (0 < nthr s)%nat.
Proof.
  intros I. apply (thr_lt s 0%nat I). pose proof (b_wk0 s I) as M. intros E. rewrite E in M. discriminate.
Qed.

Lemma precommit_holds_d p : precommit p = true -> holds_d p = true.
Proof. destruct p; cbn; congruence. Qed.

Lemma stamp_pos exp n : 0 < stamp exp n -> 0 < exp.
Proof. unfold stamp. destruct (Z.ltb_spec 0 exp); lia. Qed.

Lemma validate_some s tk w : validate s tk = Some w ->
  exists e, tab s (tk_key tk) = Some e /\ e_dl e = tk_dl tk /\ tk_dl tk < now s /\ e_writer e = w.
Proof.
  unfold validate. destruct (tab s (tk_key tk)) as [e|]; [|discriminate].
  destruct (Z.eqb_spec (e_dl e) (tk_dl tk)) as [E|E]; cbn [andb]; [|discriminate].
  destruct (Z.ltb_spec (e_dl e) (now s)) as [L|L]; [|discriminate].
  intros K. injection K as <-. exists e. repeat split; auto. lia.
Qed.

(* a mutex [o] held exactly by the threads with [held] stays so when thread [t] takes or releases it *)
Lemma mutex_step (h : pc -> bool) (th th' : tid -> pc) (o o' : option tid) t :
  let held t0 := h (th t0) in let held' t0 := h (th' t0) in
  (forall t0, held t0 = true <-> o = Some t0) ->
  (forall t0, t0 <> t -> held' t0 = held t0) ->
  match held t, held' t with
  | false, true => o = None /\ o' = Some t
  | true, false => o' = None
  | _, _ => o' = o
  end ->
  forall t0, held' t0 = true <-> o' = Some t0.
Proof.
  intros held held' Ho Hn Hs t0. pose proof (Ho t) as Ht. destruct (Nat.eq_dec t0 t) as [->|N].
  - destruct (held t), (held' t); try (rewrite Hs; exact Ht); [rewrite Hs|destruct Hs as [_ ->]]; split; congruence.
  - rewrite (Hn t0 N), (Ho t0). destruct (held t), (held' t); try (rewrite Hs; reflexivity).
    + rewrite Hs, (proj1 Ht eq_refl). split; congruence.
    + destruct Hs as [-> ->]. split; congruence.
Qed.

Lemma readers_step (h : pc -> bool) (th th' : tid -> pc) (l l' : list tid) t :
  let held t0 := h (th t0) in let held' t0 := h (th' t0) in
  (forall t0, held t0 = true <-> In t0 l) ->
  (forall t0, t0 <> t -> held' t0 = held t0) ->
  match held t, held' t with
  | false, true => l' = t :: l
  | true, false => l' = rem t l
  | _, _ => l' = l
  end ->
  forall t0, held' t0 = true <-> In t0 l'.
Proof.
  intros held held' Ho Hn Hs t0. pose proof (Ho t) as Ht. destruct (Nat.eq_dec t0 t) as [->|N].
  - destruct (held t), (held' t); rewrite Hs; try exact Ht.
    + rewrite In_rem. split; [discriminate | intros [_ K]; elim K; reflexivity].
    + split; [left|]; reflexivity.
  - rewrite (Hn t0 N), (Ho t0). destruct (held t), (held' t); rewrite Hs; try reflexivity.
    + rewrite In_rem. tauto.
    + split; [right; assumption | intros [K|K]; [congruence | exact K]].
Qed.

Ltac simp_state :=
  cbn [now cfg_ttl tab closed closeCh once close_at smu dmu thr nthr calls wlog events
       set_now set_tab set_closed set_closeCh set_once set_close_at set_smu set_dmu set_thr add_thr log_write emit
       goto lock_w unlock_w apply_set rw_w rw_r] in *.

(* the thread a transition is booked on: the new thread of a spawn, the worker for a queued Set; a clock tick is
   nobody's and is booked on the worker, whose pc it leaves alone like everybody's *)
Definition actor (s : state) (l : label) : tid :=
  match l with LSpawn _ => nthr s | LStep t _ => t | _ => 0%nat end.

Lemma wk_inv s k v exp a s' : step s (LWk k v exp a) = Some s' ->
  exists f b, thr s 0%nat = WkApply f b /\
              (if commits s k a then Some (apply_set s 0%nat k v (stamp exp b)) else Some s) = Some s'.
Proof. cbn [step]. destruct (thr s 0%nat); try discriminate. eauto. Qed.

(* [step_leaf H], for [H : step s l = Some s'] with [l] a constructor: splits on the pc of the stepping thread
   ([Epc : thr s t = ...]) and on every test [step_thread] makes on the way (equations with generated names: refer to
   them by their shape, [match goal], not by name), discards the cases without a successor and replaces [s'] by its
   value.  For [LWk] the pc of thread 0 is known from [wk_inv] but stands in the goal as [thr s 0]: the last line
   rewrites it. *)
Ltac step_leaf H :=
  cbn [step actor init_pc] in *;
  try match type of H with step_thread _ _ _ ?p = _ => destruct p eqn:Epc; cbn [step_thread] in H end;
  repeat match type of H with context [match ?x with _ => _ end] => destruct x eqn:? end;
  try discriminate H; injection H as <-; simp_state; rewrite ?upd_eq;
  try match goal with E : thr ?s ?x = _ |- context [thr ?s ?x] => rewrite E end.
(* all ways in which [H : step s l = Some s'] can hold.  The four branches are the constructors of [label] in their
   order: LSpawn (one case per kind of call), LStep, LTick, LWk. *)
Ltac step_cases H :=
  match type of H with step _ ?l = _ =>
    let c := fresh in let H0 := fresh in
    destruct l as [c| | |];
    [destruct c; step_leaf H | step_leaf H | step_leaf H | destruct (wk_inv _ _ _ _ _ _ H) as (? & ? & ? & H0); step_leaf H0]
  end.

Section Step.
  Variables (s s' : state) (l : label).
  Hypothesis H : step s l = Some s'.
  Local Notation t := (actor s l).

  Lemma step_frame :
    now s <= now s' /\ cfg_ttl s' = cfg_ttl s /\ (nthr s <= nthr s')%nat /\
    (forall t0, (t0 < nthr s)%nat -> calls s' t0 = calls s t0) /\ (wlog s' = wlog s \/ exists x, wlog s' = x :: wlog s).
  Proof.
    step_cases H; (split; [|split; [|split; [|split]]]).
    all: try (intros t0 L; apply upd_neq; lia).
    all: try (right; eexists; reflexivity).
    all: auto; lia.
  Qed.
  Definition step_now := proj1 step_frame.
  Definition step_cfg := proj1 (proj2 step_frame).
  Definition step_nthr := proj1 (proj2 (proj2 step_frame)).
  Definition step_calls := proj1 (proj2 (proj2 (proj2 step_frame))).
  Definition step_wlog := proj2 (proj2 (proj2 (proj2 step_frame))).

  Lemma step_other t0 : t0 <> t ->
    thr s' t0 = thr s t0 \/
    t0 = nthr s /\ nthr s' = S t0 /\
    exists c dl tk, thr s t = MSched c dl tk /\ thr s' t = MDone ROk c dl true /\
                    thr s' t0 = TStart tk (Z.max (tk_dl tk - now s) 0).
  Proof.
    intros N. step_cases H; rewrite ?(upd_neq _ _ _ _ N); auto.
    destruct (Nat.eq_dec t0 (nthr s)) as [->|N']; [right|left; apply upd_neq; exact N'].
    rewrite upd_eq. eauto 8.
  Qed.

  Lemma step_tab k e : tab s' k = Some e ->
    tab s k = Some e \/ wlog s' = (e_writer e, k, e_val e, e_dl e) :: wlog s.
  Proof.
    step_cases H; auto; unfold upd;
      try match goal with |- context [Nat.eqb k ?x] => destruct (Nat.eqb_spec k x) as [->|]; auto end.
    (* left are: a committed Set of [k], which is logged; removals; expiry, which only removes *)
    all: try discriminate; eauto using expire_entry_some.
    all: intros E; injection E as <-; right; reflexivity.
  Qed.

  Lemma step_events :
    events s' = events s \/
    exists ch tk g w, l = LStep t ch /\ thr s t = TCall tk g w /\ thr s' t = TFired tk /\
                      events s' = ECb tk g w (now s) :: events s.
  Proof. step_cases H; auto. right. eauto 9. Qed.

  Lemma step_once :
    once s' = once s /\ close_at s' = close_at s \/
    once s = ONone /\ once s' = ORunning /\ close_at s' = close_at s \/
    thr s t = KUnlockS /\ once s' = ODone /\ close_at s' = Some (now s).
  Proof. step_cases H; auto. Qed.

  Lemma step_mutex : (rw_w (smu s) <> None -> rw_r (smu s) = []) -> rw_w (smu s') <> None -> rw_r (smu s') = [].
  Proof.
    intros M. step_cases H; auto; intros N; try (elim N; reflexivity); rewrite (M N); reflexivity.
  Qed.

  Lemma step_flags :
    (closed s = true -> closed s' = true) /\ (closeCh s = true -> closeCh s' = true) /\
    (closeCh s' = true -> closeCh s = true \/ thr s t = KCloseCh).
  Proof. step_cases H; repeat split; auto; discriminate. Qed.
  Definition step_closed := proj1 step_flags.
  Definition step_closeCh_mono := proj1 (proj2 step_flags).
  Definition step_closeCh_back := proj2 (proj2 step_flags).

  Lemma step_classes :
    (k_closed (thr s' t) = true -> k_closed (thr s t) = true \/ closed s' = true) /\
    (k_waited (thr s' t) = true -> k_waited (thr s t) = true \/ thr s 0%nat = WkExited) /\
    (wk_final (thr s' t) = true -> wk_final (thr s t) = true \/ closeCh s = true) /\
    (precommit (thr s' t) = true -> precommit (thr s t) = true \/ closed s = false) /\
    (thr s' t = WkExited -> thr s t = WkExited \/ thr s t = WkHold true).
  Proof. step_cases H; cbn [k_closed k_waited wk_final precommit]; repeat split; auto; discriminate. Qed.
  Definition step_k_closed := proj1 step_classes.
  Definition step_k_waited := proj1 (proj2 step_classes).
  Definition step_wk_final := proj1 (proj2 (proj2 step_classes)).
  Definition step_precommit := proj1 (proj2 (proj2 (proj2 step_classes))).
  Definition step_wk_exited := proj2 (proj2 (proj2 (proj2 step_classes))).

  Lemma step_tab_empty : tab_empty s -> thr s 0%nat = WkExited -> precommit (thr s t) = false -> tab_empty s'.
  Proof.
    unfold tab_empty. intros E. step_cases H; try discriminate; intros _ _ x; unfold upd; rewrite ?E; try reflexivity;
      destruct (Nat.eqb x _); reflexivity.
  Qed.

  Lemma step_kunlocks : thr s' t = KUnlockS -> tab_empty s' \/ thr s t = KUnlockS.
  Proof. step_cases H; auto; try discriminate; intros _; left; intros x; reflexivity. Qed.

  Lemma step_m_op op pe : m_op (thr s' t) = Some (op, pe) -> m_op (thr s t) = Some (op, pe) \/ call_matches s' t op pe.
  Proof.
    step_cases H; cbn [m_op]; auto; try discriminate; intros E; injection E as <- <-; right; cbn; rewrite upd_eq; eauto.
  Qed.

  Lemma step_m_tk c dl tk : m_tk (thr s' t) = Some (c, dl, tk) ->
    m_tk (thr s t) = Some (c, dl, tk) \/
    exists k v exp cb accept, thr s t = MApply (OSet k v exp (Some cb) accept) /\ c = true /\ 0 < dl /\
      dl = stamp exp (now s) /\ tk = mkTask k v dl cb t /\ wlog s' = (t, k, v, dl) :: wlog s.
  Proof.
    step_cases H; cbn [m_tk]; try discriminate; auto.
    intros E. injection E as <- <- <-. right.
    match goal with P : (0 <? _) = true |- _ => apply Z.ltb_lt in P end. eauto 12.
  Qed.

  Lemma step_mdone_sched r c dl : thr s' t = MDone r c dl true ->
    thr s t = MDone r c dl true \/ r = ROk /\ exists tk, thr s t = MSched c dl tk.
  Proof. step_cases H; auto; try discriminate; intros E; injection E as <- <- <-; eauto. Qed.

  Lemma step_timer_task tk : timer_task (thr s' t) = Some tk -> timer_task (thr s t) = Some tk.
  Proof. step_cases H; cbn [timer_task]; auto; discriminate. Qed.

  Lemma step_post_sel tk g : post_sel (thr s' t) = Some (tk, g) ->
    post_sel (thr s t) = Some (tk, g) \/ g_fire g <= now s /\ g_sel g = now s /\ g_sac g = is_done (once s).
  Proof.
    step_cases H; cbn [post_sel]; auto; try discriminate.
    intros E. injection E as <- <-. right. match goal with P : (_ <=? _) = true |- _ => apply Z.leb_le in P end. auto.
  Qed.

  Lemma step_validated tk g w : validated (thr s' t) = Some (tk, g, w) ->
    validated (thr s t) = Some (tk, g, w) \/ post_sel (thr s t) = Some (tk, g) /\ validate s tk = Some w.
  Proof.
    step_cases H; cbn [validated post_sel]; auto; try discriminate.
    match goal with |- context [validate s ?x] => destruct (validate s x) eqn:V; [|discriminate] end.
    intros E. injection E as <- <- <-. auto.
  Qed.

  (* from here on [s] satisfies the invariant (a spawn needs it to know that the slot it takes was unused) *)
  Hypothesis I : Inv s.

  Lemma slot_idle : thr s (nthr s) = Idle.
  Proof. apply (b_idle s I), le_n. Qed.

  Lemma step_actor : (t < nthr s')%nat.
  Proof.
    pose proof (nthr_pos s I). pose proof slot_idle as E. step_cases H; try lia.
    all: apply Nat.lt_le_trans with (nthr s); [apply (thr_lt s _ I); congruence | auto].
  Qed.

  Lemma step_halted : halted (thr s t) = true -> thr s' t = thr s t.
  Proof. step_cases H; rewrite ?slot_idle; auto; discriminate. Qed.

  Lemma step_is_wk : is_wk (thr s' t) = is_wk (thr s t).
  Proof. step_cases H; rewrite ?slot_idle; reflexivity. Qed.

  Lemma step_dmu :
    match holds_d (thr s t), holds_d (thr s' t) with
    | false, true => dmu s = None /\ dmu s' = Some t
    | true, false => dmu s' = None
    | _, _ => dmu s' = dmu s
    end.
  Proof. step_cases H; rewrite ?slot_idle; cbn [holds_d]; auto; destruct (holds_d _); reflexivity. Qed.

  Lemma step_sw :
    match holds_sw (thr s t), holds_sw (thr s' t) with
    | false, true => rw_w (smu s) = None /\ rw_w (smu s') = Some t
    | true, false => rw_w (smu s') = None
    | _, _ => rw_w (smu s') = rw_w (smu s)
    end.
  Proof.
    step_cases H; rewrite ?slot_idle; cbn [holds_sw]; auto; try (destruct (holds_sw _); reflexivity);
      match goal with F : smu_free s = true |- _ => apply smu_free_true in F; tauto end.
  Qed.

  Lemma step_sr :
    match holds_sr (thr s t), holds_sr (thr s' t) with
    | false, true => rw_r (smu s') = t :: rw_r (smu s)
    | true, false => rw_r (smu s') = rem t (rw_r (smu s))
    | _, _ => rw_r (smu s') = rw_r (smu s)
    end.
  Proof.
    step_cases H; rewrite ?slot_idle; cbn [holds_sr]; auto; try (destruct (holds_sr _); reflexivity);
      match goal with F : smu_free s = true |- _ => apply smu_free_true in F; symmetry; tauto end.
  Qed.

  Lemma other_live t0 : t0 <> t -> thr s t0 <> Idle -> thr s' t0 = thr s t0.
  Proof.
    intros N L. destruct (step_other t0 N) as [E|(E & _)]; [exact E|]. apply (thr_lt s t0 I) in L. lia.
  Qed.

  Lemma halted_stays t0 : halted (thr s t0) = true -> thr s' t0 = thr s t0.
  Proof.
    intros F. destruct (Nat.eq_dec t0 t) as [->|N]; [exact (step_halted F)|].
    apply (other_live t0 N). intros E. rewrite E in F. discriminate F.
  Qed.

  (* a classification that does not tell a new timer from an unused slot is unchanged on the other threads *)
  Lemma other_class {A} (f : pc -> A) :
    (forall tk d, f (TStart tk d) = f Idle) -> forall t0, t0 <> t -> f (thr s' t0) = f (thr s t0).
  Proof.
    intros F t0 N. destruct (step_other t0 N) as [->|(-> & _ & c & dl & tk & _ & _ & ->)]; [reflexivity|].
    rewrite slot_idle. apply F.
  Qed.

  (* so a thread in class [a] was there before, unless it is [t] and [t] has just entered the class *)
  Lemma class_back {A} (f : pc -> A) a (X : Prop) t0 :
    (forall tk d, f (TStart tk d) = f Idle) -> (f (thr s' t) = a -> f (thr s t) = a \/ X) ->
    f (thr s' t0) = a -> f (thr s t0) = a \/ t0 = t /\ X.
  Proof.
    intros F B M. destruct (Nat.eq_dec t0 t) as [->|N]; [destruct (B M); auto|].
    left. rewrite <- (other_class f F t0 N). exact M.
  Qed.

  Lemma exited_stable : thr s 0%nat = WkExited -> thr s' 0%nat = WkExited.
  Proof. intros E. rewrite <- E. apply halted_stays. rewrite E. reflexivity. Qed.

  Lemma exited_back : thr s' 0%nat = WkExited -> thr s 0%nat = WkExited \/ t = 0%nat /\ thr s t = WkHold true.
  Proof.
    intros E. destruct (Nat.eq_dec 0 t) as [E0|N].
    - rewrite E0 in E |- *. destruct (step_wk_exited E); auto.
    - left. destruct (step_other 0%nat N) as [<-|(_ & _ & c & dl & tk & _ & _ & E')]; congruence.
  Qed.

  (* in this model the table is written by the worker and by syncMutate callers only, and none of them is past
     the second isClosed check once the worker has exited ([k_pre]) *)
  Lemma still_empty : thr s 0%nat = WkExited -> tab_empty s -> tab_empty s'.
  Proof.
    intros E T. apply (step_tab_empty T E). destruct (precommit (thr s t)) eqn:P; [|reflexivity]. elim (k_pre s I t P E).
  Qed.

  Lemma wlog_mono x : In x (wlog s) -> In x (wlog s').
  Proof. intros K. destruct step_wlog as [->|(y & ->)]; [|right]; exact K. Qed.

  Lemma logged_mono w k dl : logged s w k dl -> logged s' w k dl.
  Proof. intros (v & L). exists v. apply wlog_mono, L. Qed.

  Lemma task_ok_mono tk : thr s (tk_owner tk) <> Idle -> task_ok s tk -> task_ok s' tk.
  Proof.
    intros L [P W (ttl & a & C & R)]. split; [exact P | apply wlog_mono, W |]. exists ttl, a.
    rewrite step_cfg, step_calls; [auto|]. apply (thr_lt s _ I L).
  Qed.

  Lemma sel_ok_mono g : sel_ok s g -> sel_ok s' g.
  Proof.
    intros [A B C D]. pose proof step_now.
    destruct step_once as [(Eo & Ec)|[(Eo & Eo' & Ec)|(_ & Eo & Ec)]]; (split; [exact A | lia | |]); rewrite ?Ec.
    - rewrite Eo. exact C.
    - exact D.
    - (* closeOnce is entered: Close had not returned *)
      intros S. rewrite (C S) in Eo. discriminate Eo.
    - exact D.
    - intros _. exact Eo.
    - (* Close returns at this step and stamps [close_at] with the present clock value *)
      intros _ tau Et. injection Et as <-. exact B.
  Qed.

  Lemma timer_back t0 tk : timer_task (thr s' t0) = Some tk ->
    timer_task (thr s t0) = Some tk \/
    t0 = nthr s /\ exists c dl, thr s t = MSched c dl tk /\ thr s' t = MDone ROk c dl true.
  Proof.
    intros T. destruct (Nat.eq_dec t0 t) as [->|N]; [left; exact (step_timer_task tk T)|].
    destruct (step_other t0 N) as [<-|(-> & _ & c & dl & tk' & E & E1 & E')]; [auto|].
    right. rewrite E' in T. injection T as <-. eauto.
  Qed.

  Theorem inv_step : Inv s'.
  Proof.
    constructor.
    - intros t0 L. pose proof step_nthr as Ln.
      assert (N : t0 <> t) by (pose proof step_actor; lia).
      destruct (step_other t0 N) as [->|(-> & E & _)]; [apply (b_idle s I); lia | lia].
    - destruct (Nat.eq_dec 0 t) as [E|N]; [rewrite E, step_is_wk, <- E | rewrite (other_class is_wk) by auto];
        apply (b_wk0 s I).
    - exact (mutex_step holds_d (thr s) (thr s') _ _ t (l_d s I) (other_class holds_d (fun _ _ => eq_refl)) step_dmu).
    - exact (mutex_step holds_sw (thr s) (thr s') _ _ t (l_sw s I) (other_class holds_sw (fun _ _ => eq_refl)) step_sw).
    - exact (readers_step holds_sr (thr s) (thr s') _ _ t (l_sr s I) (other_class holds_sr (fun _ _ => eq_refl)) step_sr).
    - exact (step_mutex (l_mutex s I)).
    - intros C. apply step_closed. apply step_closeCh_back in C.
      destruct C as [C|C]; [apply (k_ch s I C) | apply (k_thr s I t); rewrite C; reflexivity].
    - intros t0 K.
      destruct (class_back k_closed true _ t0 (fun _ _ => eq_refl) step_k_closed K) as [K'|[_ K']];
        [apply step_closed, (k_thr s I t0 K') | exact K'].
    - intros W. apply step_closeCh_mono.
      destruct (class_back wk_final true _ 0%nat (fun _ _ => eq_refl) step_wk_final W) as [W'|[_ C]];
        [apply (k_fin s I W')|exact C].
    - intros t0 P E. destruct (exited_back E) as [E0|(Et & E0)].
      + (* it had exited before: the cache is closed, so nobody gets past the second isClosed check *)
        assert (C : closed s = true) by (apply (k_ch s I), (k_fin s I); rewrite E0; reflexivity).
        destruct (class_back precommit true _ t0 (fun _ _ => eq_refl) step_precommit P) as [P'|[_ C']];
          [exact (k_pre s I t0 P' E0)|congruence].
      + (* it exits at this step, releasing drainMu, which a thread past that check holds *)
        assert (N : t0 <> t) by (rewrite Et; intros ->; rewrite E in P; discriminate P).
        rewrite (other_class precommit) in P by auto.
        pose proof (proj1 (l_d s I t0) (precommit_holds_d _ P)) as D. pose proof (proj1 (l_d s I t)) as D0.
        rewrite E0 in D0. specialize (D0 eq_refl). congruence.
    - intros t0 K. apply exited_stable.
      destruct (class_back k_waited true _ t0 (fun _ _ => eq_refl) step_k_waited K) as [K'|[_ K']];
        [exact (k_wait s I t0 K')|exact K'].
    - intros O. assert (E : thr s 0%nat = WkExited /\ tab_empty s).
      { destruct step_once as [(Eo & _)|[(_ & Eo & _)|(Ek & _)]].
        - apply (k_done s I). congruence.
        - congruence.
        - split; [apply (k_wait s I t); rewrite Ek; reflexivity | apply (k_unl s I t Ek)]. }
      destruct E as [E T]. split; [apply exited_stable, E | apply still_empty; assumption].
    - intros t0 K. assert (K0 : tab_empty s' \/ thr s t0 = KUnlockS).
      { destruct (Nat.eq_dec t0 t) as [->|N]; [exact (step_kunlocks K)|right].
        destruct (step_other t0 N) as [<-|(_ & _ & c & dl & tk & _ & _ & E)]; congruence. }
      destruct K0 as [K0|K0]; [exact K0|].
      apply still_empty; [apply (k_wait s I t0); rewrite K0; reflexivity | exact (k_unl s I t0 K0)].
    - intros tau C. pose proof step_now. destruct step_once as [(Eo & Ec)|[(Eo & _ & Ec)|(_ & Eo & Ec)]]; rewrite Ec in C.
      + rewrite Eo. destruct (k_at1 s I tau C). split; [assumption|lia].
      + destruct (k_at1 s I tau C) as [O _]. congruence.
      + injection C as <-. split; [exact Eo | lia].
    - intros O. destruct step_once as [(Eo & ->)|[(_ & Eo & _)|(_ & _ & ->)]];
        [apply (k_at2 s I); congruence | congruence | discriminate].
    - intros t0 op pe M.
      destruct (class_back m_op _ _ t0 (fun _ _ => eq_refl) (step_m_op op pe) M) as [M0|[-> M0]]; [|exact M0].
      unfold call_matches. rewrite step_cfg, step_calls; [exact (t_mop s I t0 op pe M0)|].
      apply (thr_lt s t0 I). intros E. rewrite E in M0. discriminate M0.
    - intros t0 c dl tk M.
      destruct (class_back m_tk _ _ t0 (fun _ _ => eq_refl) (step_m_tk c dl tk) M)
        as [M0|(-> & k & v & exp & cb & a & E & -> & P & D & -> & W)].
      + destruct (t_mtk s I t0 c dl tk M0) as (A & B & C & F). split; [exact A|]. split; [exact B|]. split; [exact C|].
        apply task_ok_mono; [|exact F]. rewrite A. intros Z. rewrite Z in M0. discriminate M0.
      + (* the step that commits the Set: its call is the one recorded for the thread *)
        destruct (t_mop s I t (OSet k v exp (Some cb) a) false) as (ttl & C & Ex); [rewrite E; reflexivity|].
        repeat split; auto; cbn [tk_owner tk_key tk_val tk_dl tk_cb]; [rewrite W; left; reflexivity|].
        exists ttl, a. rewrite step_cfg, step_calls by (apply (thr_lt s t I); rewrite E; discriminate).
        split; [exact C|]. rewrite <- Ex. apply (stamp_pos exp (now s)). rewrite <- D. exact P.
    - intros t0 tk T. destruct (timer_back t0 tk T) as [T0|(_ & c & dl & E & E')].
      + destruct (t_own s I t0 tk T0) as (A & B).
        assert (L : thr s (tk_owner tk) <> Idle) by (rewrite A; discriminate).
        split; [rewrite <- A; apply halted_stays; rewrite A; reflexivity | exact (task_ok_mono tk L B)].
      + destruct (t_mtk s I t c dl tk) as (A & -> & <- & B); [rewrite E; reflexivity|]. rewrite A.
        split; [exact E'|]. apply task_ok_mono; [|exact B]. rewrite A, E. discriminate.
    - (* a new timer belongs to the stepping thread, which is at MSched, while owners of old timers are at MDone *)
      assert (K : forall ta tka tkb, timer_task (thr s ta) = Some tka ->
                    (exists c dl, thr s t = MSched c dl tkb /\ thr s' t = MDone ROk c dl true) ->
                    tk_owner tka <> tk_owner tkb).
      { intros ta tka tkb Ta (c & dl & E & _) Eo. destruct (t_own s I ta tka Ta) as (A & _).
        destruct (t_mtk s I t c dl tkb) as (B & _); [rewrite E; reflexivity|]. congruence. }
      intros t1 t2 tk1 tk2 T1 T2 Eo.
      destruct (timer_back t1 tk1 T1) as [T1'|(-> & N1)], (timer_back t2 tk2 T2) as [T2'|(-> & N2)].
      + exact (t_uniq s I t1 t2 tk1 tk2 T1' T2' Eo).
      + elim (K t1 tk1 tk2 T1' N2 Eo).
      + elim (K t2 tk2 tk1 T2' N1 (eq_sym Eo)).
      + reflexivity.
    - intros t0 r c dl E. destruct (Nat.eq_dec t0 t) as [->|N].
      + destruct (step_mdone_sched r c dl E) as [E0|(-> & tk & E0)]; [exact (t_sched s I t r c dl E0)|].
        destruct (t_mtk s I t c dl tk) as (_ & C & <- & T); [rewrite E0; reflexivity|].
        split; [reflexivity|]. split; [exact C | exact (to_pos s tk T)].
      + apply (t_sched s I t0). destruct (step_other t0 N) as [<-|(_ & _ & c' & dl' & tk & _ & _ & E')]; congruence.
    - intros t0 tk g P. apply sel_ok_mono.
      destruct (class_back post_sel _ _ t0 (fun _ _ => eq_refl) (step_post_sel tk g) P) as [P0|(_ & A & B & C)];
        [exact (g_sel1 s I t0 tk g P0)|]. split; rewrite ?B, ?C; try lia.
      + destruct (once s); cbn; congruence.
      + intros D tau Ct. destruct (k_at1 s I tau Ct) as [O _]. rewrite O in D. discriminate D.
    - intros t0 tk g w V. pose proof step_now.
      destruct (class_back validated _ _ t0 (fun _ _ => eq_refl) (step_validated tk g w) V) as [V0|(-> & P & V0)].
      + destruct (g_val s I t0 tk g w V0) as (A & B & C). split; [exact A|]. split; [lia|apply logged_mono, C].
      + (* the entry just seen is in the log; had Close returned before the select, the table would be empty *)
        apply validate_some in V0. destruct V0 as (e & Te & De & Ln & We).
        split; [|split; [lia|]].
        * destruct (g_sac g) eqn:Sg; [|reflexivity]. exfalso.
          destruct (k_done s I (so_after s g (g_sel1 s I t tk g P) Sg)) as [_ Emp].
          rewrite (Emp (tk_key tk)) in Te. discriminate Te.
        * apply logged_mono. exists (e_val e). pose proof (tab_log s I _ _ Te) as L. rewrite De, We in L. exact L.
    - intros k e T. destruct (step_tab k e T) as [T0| ->]; [apply wlog_mono, (tab_log s I k e T0)|left; reflexivity].
    - intros tk g w a E.
      assert (E0 : In (ECb tk g w a) (events s) \/ thr s' t = TFired tk).
      { destruct step_events as [<-|(ch & tk' & g' & w' & _ & _ & F & Ev)]; [auto|]. rewrite Ev in E.
        destruct E as [E|E]; [right; congruence|auto]. }
      destruct E0 as [E0|E0]; [|eauto]. destruct (e_thr s I tk g w a E0) as [t0 F]. exists t0.
      rewrite <- F. apply halted_stays. rewrite F. reflexivity.
    - pose proof (e_nodup s I) as M. destruct step_events as [->|(ch & tk & g & w & _ & C & _ & ->)]; [exact M|].
      (* an earlier event of the same owner comes from a finished timer of that owner, but the timer is unique *)
      constructor; [|exact M]. intros K. apply in_map_iff in K. destruct K as ([tk' g' w' a'] & Eo & Ki).
      destruct (e_thr s I _ _ _ _ Ki) as [t0 F].
      assert (t = t0) by (apply (t_uniq s I t t0 tk tk'); [rewrite C|rewrite F|]; auto).
      subst t0. congruence.
    - intros tk g w a E.
      assert (F : g_sac g = false /\ tk_dl tk < a /\ logged s w (tk_key tk) (tk_dl tk) /\ sel_ok s g).
      { destruct step_events as [Ev|(ch & tk' & g' & w' & _ & C & _ & Ev)]; rewrite Ev in E;
          [exact (e_facts s I tk g w a E)|].
        destruct E as [E|E]; [|exact (e_facts s I tk g w a E)]. injection E as -> -> -> <-.
        (* the new event is that of the thread at TCall: what is known of its task and ghost *)
        destruct (g_val s I t tk g w) as (A & B & L); [rewrite C; reflexivity|].
        split; [exact A|]. split; [exact B|]. split; [exact L|]. apply (g_sel1 s I t tk g). rewrite C. reflexivity. }
      destruct F as (A & B & L & S). split; [exact A|]. split; [exact B|].
      split; [apply logged_mono, L | apply sel_ok_mono, S].
  Qed.
End Step.

Lemma init_thr d t : thr (init d) t = WkIdle \/ thr (init d) t = Idle.
Proof. cbn. unfold upd. destruct (Nat.eqb t 0); auto. Qed.

Lemma init_class {A} (f : pc -> A) d t : f WkIdle = f Idle -> f (thr (init d) t) = f Idle.
Proof. intros F. destruct (init_thr d t) as [-> | ->]; auto. Qed.

Lemma inv_init dflt : Inv (init dflt).
Proof.
  constructor.
  (* no thread but the idle worker: every class of pcs that a clause speaks of is empty *)
  all: try (intros t; rewrite init_class by reflexivity; discriminate).
  (* no lock held, no flag set, no entry *)
  all: try discriminate.
  - intros t L. cbn in *. unfold upd. destruct (Nat.eqb_spec t 0); [lia|reflexivity].
  - reflexivity.
  - intros t. rewrite init_class by reflexivity. split; discriminate.
  - intros t. rewrite init_class by reflexivity. split; discriminate.
  - intros t. rewrite init_class by reflexivity. split; [discriminate|intros []].
  - reflexivity.
  - intros _ _ k. reflexivity.
  - intros t r c dl E. destruct (init_thr dflt t) as [K|K]; rewrite K in E; discriminate E.
  - intros tk g w a [].
  - constructor.
  - intros tk g w a [].
Qed.

Theorem inv_reachable dflt s : reachable dflt s -> Inv s.
Proof. induction 1; [apply inv_init | eapply inv_step; eauto]. Qed.


(* A callback invocation is an event [ECb tk g w a]: task [tk] (key, value, callback id, deadline,
   owner = the thread that executed the SetWithCallback call), timer ghost [g], [w] = writer of the entry the timer
   saw at validation, [a] = clock at the call.  [calls s c] is the call thread [c] was started for. *)

Lemma event_timer dflt s tk g w a : reachable dflt s -> In (ECb tk g w a) (events s) ->
  exists t, thr s t = TFired tk /\ thr s (tk_owner tk) = MDone ROk true (tk_dl tk) true /\ task_ok s tk.
Proof.
  intros R E. pose proof (inv_reachable dflt s R) as I. destruct (e_thr s I tk g w a E) as [t Ht].
  exists t. split; [exact Ht|]. apply (t_own s I t tk). rewrite Ht. reflexivity.
Qed.

Theorem B1_at_most_once dflt s : reachable dflt s -> NoDup (map ev_owner (events s)).
Proof. intros R. exact (e_nodup s (inv_reachable dflt s R)). Qed.

Corollary B1_count dflt s c : reachable dflt s ->
  (count_occ Nat.eq_dec (map ev_owner (events s)) c <= 1)%nat.
Proof. intros R. apply (proj1 (NoDup_count_occ Nat.eq_dec _) (B1_at_most_once dflt s R)). Qed.

Theorem B1_one_timer dflt s t1 t2 tk1 tk2 : reachable dflt s ->
  timer_task (thr s t1) = Some tk1 -> timer_task (thr s t2) = Some tk2 -> tk_owner tk1 = tk_owner tk2 -> t1 = t2.
Proof. intros R. exact (t_uniq s (inv_reachable dflt s R) t1 t2 tk1 tk2). Qed.

Theorem B2_not_early dflt s tk g w a : reachable dflt s -> In (ECb tk g w a) (events s) -> tk_dl tk < a.
Proof. intros R E. apply (e_facts s (inv_reachable dflt s R) tk g w a E). Qed.

Theorem B2_not_early_pc dflt s t tk g w : reachable dflt s -> thr s t = TCall tk g w -> tk_dl tk < now s.
Proof.
  intros R P. destruct (g_val s (inv_reachable dflt s R) t tk g w) as (_ & L & _); [rewrite P; reflexivity|exact L].
Qed.

(* In a state where Close has returned the table is empty, the worker has exited, and no Set is about to commit.
   The model's reason: its only writers are the worker and syncMutate callers, and every syncMutate caller that got
   past the isClosed check under drainMu finished before workers.Wait() returned, because the worker's final drain
   needs drainMu.  In writes.go queued Sets are also applied by callers that do not look at isClosed (the drain inside
   syncMutate, tryDrainShard, drainMissAndLookup, Sync, Clear); there the cache stays empty because Close sets
   [finalized] before clearDirect and applyWriteBatch skips Sets once it is set: that argument is ShutdownApply.v
   ([closed_cache_stays_empty]), not this file. *)
Theorem B3_closed_cache_is_empty dflt s : reachable dflt s -> once s = ODone ->
  (forall k, tab s k = None) /\ thr s 0%nat = WkExited /\ closed s = true /\ closeCh s = true /\
  (forall t, precommit (thr s t) = false).
Proof.
  intros R O. pose proof (inv_reachable dflt s R) as I. destruct (k_done s I O) as [W E].
  assert (C : closeCh s = true) by (apply (k_fin s I); rewrite W; reflexivity).
  repeat split; auto.
  - apply (k_ch s I C).
  - intros t. destruct (precommit (thr s t)) eqn:P; [|reflexivity]. elim (k_pre s I t P). exact W.
Qed.

(* Every callback was invoked by a timer goroutine that passed its select BEFORE Close returned
   ([g_sac = false]); if Close has returned at clock value tau, the timer of every invoked callback had
   elapsed by then: g_fire <= g_sel <= tau.  Contrapositive: a timer that elapses after Close returned
   (tau < g_fire) never invokes its callback. *)
Theorem B3_not_after_close_returned dflt s tk g w a tau : reachable dflt s ->
  In (ECb tk g w a) (events s) -> close_at s = Some tau ->
  g_sac g = false /\ g_fire g <= g_sel g /\ g_sel g <= tau.
Proof.
  intros R E C. destruct (e_facts s (inv_reachable dflt s R) tk g w a E) as (A & _ & _ & S).
  split; [exact A|]. split; [exact (so_fire s g S) | exact (so_before s g S A tau C)].
Qed.

(* thread-level form: a timer goroutine that passes its select after Close returned validates against the
   empty table and does not call *)
Theorem B3_select_after_close_no_call dflt s t tk g : reachable dflt s -> g_sac g = true ->
  (forall w, thr s t <> TCall tk g w) /\ (forall r, thr s t = TRUnlock tk g r -> r = None) /\
  (post_sel (thr s t) = Some (tk, g) -> once s = ODone).
Proof.
  intros R S. pose proof (inv_reachable dflt s R) as I. repeat split.
  - intros w P. destruct (g_val s I t tk g w) as (A & _); [rewrite P; reflexivity|congruence].
  - intros [w|] P; [|reflexivity]. destruct (g_val s I t tk g w) as (A & _); [rewrite P; reflexivity|congruence].
  - intros P. exact (so_after s g (g_sel1 s I t tk g P) S).
Qed.

Theorem B3_close_branch_never_calls s t ch tk fire s' :
  thr s t = TSelect tk fire -> ch <> 0%nat -> step s (LStep t ch) = Some s' ->
  closeCh s = true /\ thr s' t = TQuiet tk /\ events s' = events s.
Proof.
  intros P N H. cbn [step] in H. rewrite P in H. cbn [step_thread] in H. destruct ch as [|ch]; [contradiction|].
  destruct (closeCh s); [|discriminate]. injection H as <-. simp_state. rewrite upd_eq. auto.
Qed.
Theorem B3_quiet_is_final s t ch tk : thr s t = TQuiet tk -> step s (LStep t ch) = None.
Proof. intros P. cbn [step]. rewrite P. reflexivity. Qed.

Theorem B4_own_key_value dflt s tk g w a : reachable dflt s -> In (ECb tk g w a) (events s) ->
  exists ttl accept,
    calls s (tk_owner tk) = Some (CSet (tk_key tk) (tk_val tk) ttl (Some (tk_cb tk)) accept false).
Proof.
  intros R E. destruct (event_timer dflt s tk g w a R E) as (t & _ & _ & T).
  destruct (to_call s tk T) as (ttl & accept & C & _). eauto.
Qed.

(* a timer / a callback exists only for a call that returned nil, committed, and stamped a positive deadline from a
   TTL that resolves (DefaultExpiration -> config.DefaultTTL) to a positive duration *)
Theorem B5_scheduled_only_if dflt s t tk : reachable dflt s -> timer_task (thr s t) = Some tk ->
  thr s (tk_owner tk) = MDone ROk true (tk_dl tk) true /\ 0 < tk_dl tk /\ owner_is_call s tk.
Proof.
  intros R P. destruct (t_own s (inv_reachable dflt s R) t tk P) as (A & T).
  split; [exact A|]. split; [exact (to_pos s tk T) | exact (to_call s tk T)].
Qed.

Definition nothing_for (s : state) (c : tid) : Prop :=
  (forall t tk, timer_task (thr s t) = Some tk -> tk_owner tk <> c) /\
  (forall e, In e (events s) -> ev_owner e <> c).

Lemma nothing_for_intro s c : Inv s ->
  (forall tk, thr s (tk_owner tk) = MDone ROk true (tk_dl tk) true -> owner_is_call s tk -> tk_owner tk <> c) ->
  nothing_for s c.
Proof.
  intros I K. split.
  - intros t tk T. destruct (t_own s I t tk T) as (A & O). exact (K tk A (to_call s tk O)).
  - intros [tk g w a] E. destruct (e_thr s I tk g w a E) as [t Ht].
    destruct (t_own s I t tk) as (A & O); [rewrite Ht; reflexivity|]. exact (K tk A (to_call s tk O)).
Qed.

Lemma unscheduled_nothing s c r com dl : Inv s -> thr s c = MDone r com dl false -> nothing_for s c.
Proof. intros I P. apply (nothing_for_intro s c I). intros tk A _ E. rewrite E, P in A. discriminate A. Qed.

(* by outcome: error (ErrCacheClosed, cost error), rejected by admission, or no expiry -> sched = false and nothing
   exists for the call *)
Theorem B5_nothing_scheduled dflt s c r com dl sched : reachable dflt s ->
  thr s c = MDone r com dl sched -> (r <> ROk \/ com = false \/ dl <= 0) ->
  sched = false /\ nothing_for s c.
Proof.
  intros R P Q. pose proof (inv_reachable dflt s R) as I.
  assert (S : sched = false).
  { destruct sched; [|reflexivity]. destruct (t_sched s I c r com dl P) as (A & B & C). destruct Q as [Q|[Q|Q]]; [congruence|congruence|lia]. }
  subst sched. split; [reflexivity|exact (unscheduled_nothing s c r com dl I P)].
Qed.

(* by the call's arguments: failing setCommand, no callback, or TTL resolving to "never expires" *)
Theorem B5_nothing_scheduled_by_call dflt s c k v ttl cb accept pe : reachable dflt s ->
  calls s c = Some (CSet k v ttl cb accept pe) ->
  (pe = true \/ cb = None \/ resolve_ttl (cfg_ttl s) ttl <= 0) -> nothing_for s c.
Proof.
  intros R C Q. apply (nothing_for_intro s c (inv_reachable dflt s R)).
  intros tk _ (ttl' & adm' & C' & P') E. rewrite E, C in C'. injection C' as -> -> -> -> -> ->.
  destruct Q as [Q|[Q|Q]]; [discriminate|discriminate|lia].
Qed.

Lemma mdone_stable dflt s ls s' c r com dl sched : reachable dflt s -> exec s ls = Some s' ->
  thr s c = MDone r com dl sched -> thr s' c = MDone r com dl sched.
Proof.
  revert s. induction ls as [|l ls IH]; cbn [exec]; intros s R E P.
  - injection E as <-. exact P.
  - destruct (step s l) as [s1|] eqn:S1; [|discriminate]. apply (IH s1); [econstructor; eauto | exact E |].
    rewrite <- P. apply (halted_stays s s1 l S1 (inv_reachable dflt s R)). rewrite P. reflexivity.
Qed.

Theorem B5_nothing_scheduled_for_ever dflt s c r com dl : reachable dflt s ->
  thr s c = MDone r com dl false -> forall ls s', exec s ls = Some s' -> nothing_for s' c.
Proof.
  intros R P ls s' E. apply (unscheduled_nothing s' c r com dl).
  - exact (inv_reachable dflt s' (exec_reachable dflt s ls s' R E)).
  - exact (mdone_stable dflt s ls s' c r com dl false R E P).
Qed.

(* at its validation step the key is gone (Delete, Clear, eviction, expiry removal, Close) or carries another
   deadline (re-Set, in-place update, or no expiry: deadline 0 <> the task's positive deadline): the timer
   goroutine releases the lock and exits without calling *)
Theorem B6_not_for_refreshed s t ch tk g :
  thr s t = TValidate tk g ->
  (tab s (tk_key tk) = None \/ exists e, tab s (tk_key tk) = Some e /\ e_dl e <> tk_dl tk) ->
  exists s1, step s (LStep t ch) = Some s1 /\ thr s1 t = TRUnlock tk g None /\ events s1 = events s.
Proof.
  intros P Q. cbn [step]. rewrite P. cbn [step_thread]. eexists; split; [reflexivity|]. simp_state. rewrite upd_eq.
  split; [|reflexivity]. f_equal. unfold validate. destruct Q as [Q|(e & Q & D)]; rewrite Q; [reflexivity|].
  destruct (Z.eqb_spec (e_dl e) (tk_dl tk)); [contradiction|reflexivity].
Qed.
Theorem B6_failed_validation_exits s t ch tk g :
  thr s t = TRUnlock tk g None ->
  exists s1, step s (LStep t ch) = Some s1 /\ thr s1 t = TQuiet tk /\ events s1 = events s.
Proof.
  intros P. cbn [step]. rewrite P. cbn [step_thread]. eexists; split; [reflexivity|]. simp_state. rewrite upd_eq. auto.
Qed.

Theorem B6_validated dflt s tk g w a : reachable dflt s -> In (ECb tk g w a) (events s) ->
  exists v, In (w, tk_key tk, v, tk_dl tk) (wlog s).
Proof. intros R E. apply (e_facts s (inv_reachable dflt s R) tk g w a E). Qed.

(* the residual case as an explicit hypothesis: committed writes of DIFFERENT calls to the same key never carry the
   same positive deadline.  Then the entry seen at validation is the call's own write - never a later one. *)
Definition distinct_deadlines (s : state) : Prop :=
  forall w1 w2 k v1 v2 dl, 0 < dl -> In (w1, k, v1, dl) (wlog s) -> In (w2, k, v2, dl) (wlog s) -> w1 = w2.

Theorem B6_own_write dflt s tk g w a : reachable dflt s -> distinct_deadlines s ->
  In (ECb tk g w a) (events s) -> w = tk_owner tk.
Proof.
  intros R D E. destruct (B6_validated dflt s tk g w a R E) as [v L].
  destruct (event_timer dflt s tk g w a R E) as (t & _ & _ & T).
  exact (D w (tk_owner tk) (tk_key tk) v (tk_val tk) (tk_dl tk) (to_pos s tk T) L (to_logged s tk T)).
Qed.

Theorem B7_no_lock_held dflt s t tk g w : reachable dflt s -> thr s t = TCall tk g w ->
  rw_w (smu s) <> Some t /\ ~ In t (rw_r (smu s)) /\ dmu s <> Some t.
Proof.
  intros R P. pose proof (inv_reachable dflt s R) as I. repeat split.
  - intros E. apply (l_sw s I) in E. rewrite P in E. discriminate.
  - intros E. apply (l_sr s I) in E. rewrite P in E. discriminate.
  - intros E. apply (l_d s I) in E. rewrite P in E. discriminate.
Qed.

Theorem B7_call_step s l s' e : step s l = Some s' -> events s' = e :: events s ->
  exists t ch tk g w, l = LStep t ch /\ thr s t = TCall tk g w /\ e = ECb tk g w (now s).
Proof.
  intros H E. destruct (step_events s s' l H) as [Ev|(ch & tk & g & w & El & C & _ & Ev)]; rewrite Ev in E.
  - apply (f_equal (@length _)) in E. cbn in E. lia.
  - injection E as <-. exists (actor s l), ch, tk, g, w. auto.
Qed.

Theorem B7_mutual_exclusion dflt s : reachable dflt s ->
  (forall t, holds_d (thr s t) = true <-> dmu s = Some t) /\
  (forall t, holds_sw (thr s t) = true <-> rw_w (smu s) = Some t) /\
  (forall t, holds_sr (thr s t) = true <-> In t (rw_r (smu s))) /\
  (rw_w (smu s) <> None -> rw_r (smu s) = []).
Proof.
  intros R. pose proof (inv_reachable dflt s R) as I.
  exact (conj (l_d s I) (conj (l_sw s I) (conj (l_sr s I) (l_mutex s I)))).
Qed.


(* thread 0 is the worker; the first spawned call is thread 1; a SetWithCallback call takes 8 steps
   (isClosed, drainMu.Lock, isClosed, s.mu.Lock, apply, s.mu.Unlock, drainMu.Unlock, scheduleCallback), a Set
   without callback or a Delete 7; the timer goroutine: NewTimer, select, RLock, validate, RUnlock, (call). *)
Definition s0 := init 0.
Definition swc := CSet 1 10 100 (Some 7%nat) true false.     (* SetWithCallback(key 1, value 10, ttl 100, cb 7) *)

(** ** B8: SetWithCallback(ttl 100); Delete; Set(ttl 10); time passes: no callback (the entry present at the
    validation carries deadline 10, not the task's 100). *)
Definition sched_B8 : list label :=
  [LSpawn swc] ++ steps 1 8 ++ steps 2 1          (* thread 1 commits deadline 100, timer = thread 2 armed for 100 *)
  ++ [LSpawn (CDelete 1)] ++ steps 3 7
  ++ [LSpawn (CSet 1 11 10 None true false)] ++ steps 4 7
  ++ [LTick 101] ++ steps 2 4.                    (* select(timer), RLock, validate, RUnlock -> exits *)
Example B8_delete_reset_no_callback :
  option_map (fun s => (fired s, entry_of s 1%nat, thr s 2%nat, now s)) (exec s0 sched_B8) =
  Some ([], Some (11%nat, 10), TQuiet (mkTask 1 10 100 7 1), 101).
Proof. vm_compute. reflexivity. Qed.

(** ** the callback does fire when nothing interferes (the model is not vacuous) *)
Definition sched_fire : list label := [LSpawn swc] ++ steps 1 8 ++ steps 2 1 ++ [LTick 101] ++ steps 2 5.
Example callback_fires :
  option_map (fun s => (fired s, thr s 2%nat)) (exec s0 sched_fire) =
  Some ([(7%nat, 1%nat, 10%nat, 101)], TFired (mkTask 1 10 100 7 1)).
Proof. vm_compute. reflexivity. Qed.

(** ** B6 residual: Delete, then at time 50 a Set with ttl 50 stamps the SAME deadline 100.  The timer cannot tell
    the two writes apart and invokes cb(1, 10) although the live entry is (11, written by thread 4).  The
    hypothesis [distinct_deadlines] of [B6_own_write] fails here. *)
Definition sched_same : list label :=
  [LSpawn swc] ++ steps 1 8 ++ steps 2 1
  ++ [LSpawn (CDelete 1)] ++ steps 3 7
  ++ [LTick 50; LSpawn (CSet 1 11 50 None true false)] ++ steps 4 7
  ++ [LTick 51] ++ steps 2 5.
Example B6_same_deadline_residual :
  option_map (fun s => (fired s, entry_of s 1%nat,
                        map (fun e => match e with ECb tk _ w _ => (tk_owner tk, w) end) (events s), wlog s))
             (exec s0 sched_same) =
  Some ([(7%nat, 1%nat, 10%nat, 101)], Some (11%nat, 100), [(1%nat, 4%nat)],
        [(4%nat, 1%nat, 11%nat, 100); (1%nat, 1%nat, 10%nat, 100)]).
Proof. vm_compute. reflexivity. Qed.

(** ** B3, what is NOT true: "no callback starts after Close returned".  The timer goroutine validates (entry
    present, expired) and releases the read lock; then Close runs to completion (closed, closeCh, worker exits,
    clearDirect, return); then the goroutine invokes the callback.  Close does not wait for timer goroutines. *)
Definition close_all (c : tid) : list label :=
  steps c 3                                              (* closeOnce, closed=true, close(closeCh) *)
  ++ [LStep 0 1; LStep 0 0; LStep 0 0]                   (* worker: closeCh branch, final drain, exit *)
  ++ steps c 4.                                          (* workers.Wait, clearDirect (3 steps), return *)
Definition sched_late_call : list label :=
  [LSpawn swc] ++ steps 1 8 ++ steps 2 1 ++ [LTick 101] ++ steps 2 4   (* ... RUnlock: about to call *)
  ++ [LSpawn CClose] ++ close_all 3
  ++ steps 2 1.                                                         (* the callback runs *)
Example B3_callback_after_close_returned :
  option_map (fun s => (fired s, once s, close_at s, entry_of s 1%nat)) (exec s0 sched_late_call) =
  Some ([(7%nat, 1%nat, 10%nat, 101)], ODone, Some 101, None).
Proof. vm_compute. reflexivity. Qed.

(** ** B3: after close(closeCh) a goroutine that has NOT yet passed its select may still take the timer branch when
    its timer has elapsed too (Go picks a ready case at random); before clearDirect the entry is still there, so it
    calls. *)
Definition sched_select_after_closeCh : list label :=
  [LSpawn swc] ++ steps 1 8 ++ steps 2 1 ++ [LTick 101]
  ++ [LSpawn CClose] ++ steps 3 3                        (* closeCh is closed, Close still running *)
  ++ steps 2 5.                                          (* select takes timer.C; validate ok; call *)
Example B3_select_after_closeCh_may_call :
  option_map (fun s => (fired s, closeCh s, once s)) (exec s0 sched_select_after_closeCh) =
  Some ([(7%nat, 1%nat, 10%nat, 101)], true, ORunning).
Proof. vm_compute. reflexivity. Qed.

(** ** B3, what IS true: the timer elapses after Close returned -> even on the timer branch nothing is called *)
Definition sched_timer_after_close : list label :=
  [LSpawn swc] ++ steps 1 8 ++ steps 2 1
  ++ [LSpawn CClose] ++ close_all 3
  ++ [LTick 101] ++ steps 2 4.
Example B3_timer_after_close_quiet :
  option_map (fun s => (fired s, thr s 2%nat, close_at s)) (exec s0 sched_timer_after_close) =
  Some ([], TQuiet (mkTask 1 10 100 7 1), Some 0).
Proof. vm_compute. reflexivity. Qed.

(** ** B5: a rejected insert, a never-expiring write, a failing setCommand, a Set on a closed cache: no goroutine *)
Example B5_rejected :
  option_map (fun s => (thr s 1%nat, nthr s)) (exec s0 ([LSpawn (CSet 1 10 100 (Some 7%nat) false false)] ++ steps 1 7)) =
  Some (MDone ROk false 100 false, 2%nat).
Proof. vm_compute. reflexivity. Qed.
Example B5_no_expiration :
  option_map (fun s => (thr s 1%nat, nthr s)) (exec s0 ([LSpawn (CSet 1 10 (-1) (Some 7%nat) true false)] ++ steps 1 7)) =
  Some (MDone ROk true 0 false, 2%nat).
Proof. vm_compute. reflexivity. Qed.
Example B5_default_ttl_used :
  option_map (fun s => (thr s 1%nat, nthr s)) (exec (init 30) ([LSpawn (CSet 1 10 0 (Some 7%nat) true false)] ++ steps 1 8)) =
  Some (MDone ROk true 30 true, 3%nat).
Proof. vm_compute. reflexivity. Qed.
Example B5_failed :
  option_map (fun s => (thr s 1%nat, nthr s)) (exec s0 ([LSpawn (CSet 1 10 100 (Some 7%nat) true true)] ++ steps 1 1)) =
  Some (MDone EErr false 0 false, 2%nat).
Proof. vm_compute. reflexivity. Qed.
Example B5_closed :
  option_map (fun s => (thr s 2%nat, nthr s)) (exec s0 ([LSpawn CClose] ++ close_all 1 ++ [LSpawn swc] ++ steps 2 1)) =
  Some (MDone EClosed false 0 false, 3%nat).
Proof. vm_compute. reflexivity. Qed.
