(* Nibble.v — arithmetic of 4-bit counters packed into machine words.
   A word is viewed as its little-endian base-16 digit list; the three facts the sketch
   needs (read a nibble, bump a nibble without carry, halve every nibble with one
   shift-and-mask) are proved once for every word by induction on the digit list. *)
Require Import KV.Base.
Open Scope N_scope.
(* from here on, and in every file that imports this one, lia also handles / and mod *)
Ltac Zify.zify_post_hook ::= Z.div_mod_to_equations.

Fixpoint to_word (l : list N) : N :=
  match l with [] => 0 | c :: r => c + 16 * to_word r end.

Definition nibs_ok (l : list N) : Prop := Forall (fun c => c < 16) l.

Fixpoint upd (l : list N) (j : nat) (v : N) : list N :=
  match l, j with
  | [], _ => []
  | _ :: r, O => v :: r
  | c :: r, S j' => c :: upd r j' v
  end.

Definition nib (w sh : N) : N := N.land (N.shiftr w sh) 15.

Lemma testbit_split x y i : x < 16 ->
  N.testbit (x + 16 * y) i = if i <? 4 then N.testbit x i else N.testbit y (i - 4).
Proof.
  intros Hx. replace (x + 16 * y) with (x + y * 2 ^ 4) by (change (2 ^ 4) with 16; lia).
  destruct (i <? 4) eqn:E.
  - assert (Hi : i < 4) by lia.
    rewrite <- (N.mod_pow2_bits_low (x + y * 2 ^ 4) 4 i Hi).
    rewrite N.mod_add by (change (2 ^ 4) with 16; lia).
    rewrite N.mod_small by (change (2 ^ 4) with 16; lia). reflexivity.
  - assert (Hi : 4 <= i) by lia.
    replace i with ((i - 4) + 4) at 1 by lia.
    rewrite <- N.div_pow2_bits.
    rewrite N.div_add by (change (2 ^ 4) with 16; lia).
    rewrite N.div_small by (change (2 ^ 4) with 16; lia). reflexivity.
Qed.

Lemma land_lt16 a b : a < 16 -> N.land a b < 16.
Proof.
  intros Ha.
  assert (H : N.land a b = N.land (N.land a b) (N.ones 4)).
  { rewrite <- N.land_assoc, (N.land_comm b), N.land_assoc.
    rewrite (N.land_ones a 4). change (2 ^ 4) with 16. rewrite (N.mod_small a 16 Ha). reflexivity. }
  rewrite H, N.land_ones. change (2 ^ 4) with 16. apply N.mod_lt. lia.
Qed.

Lemma land_split a b a' b' : a < 16 -> a' < 16 ->
  N.land (a + 16 * b) (a' + 16 * b') = N.land a a' + 16 * N.land b b'.
Proof.
  intros Ha Ha'. apply N.bits_inj. intros i.
  rewrite N.land_spec, !testbit_split by (try assumption; apply land_lt16; assumption).
  destruct (i <? 4); rewrite N.land_spec; reflexivity.
Qed.

Lemma to_word_bound l : nibs_ok l -> to_word l < 16 ^ N.of_nat (length l).
Proof.
  induction 1 as [|c r Hc Hr IH]; cbn [to_word length].
  - cbn. lia.
  - rewrite Nat2N.inj_succ, N.pow_succ_r'. lia.
Qed.

Lemma digits_exist n w : w < 16 ^ N.of_nat n ->
  exists l, length l = n /\ nibs_ok l /\ to_word l = w.
Proof.
  revert w; induction n as [|n IH]; intros w Hw.
  - exists []. cbn in *. repeat split; [constructor|lia].
  - rewrite Nat2N.inj_succ, N.pow_succ_r' in Hw.
    destruct (IH (w / 16)) as [r [Hl [Hok Hv]]].
    { apply N.div_lt_upper_bound; lia. }
    exists (w mod 16 :: r). cbn [length to_word]. rewrite Hl, Hv.
    repeat split; [constructor; [apply N.mod_lt; lia|assumption]|].
    pose proof (N.div_mod w 16 ltac:(lia)). lia.
Qed.

Lemma shiftr4_cons c r : c < 16 -> N.shiftr (c + 16 * to_word r) 4 = to_word r.
Proof.
  intros Hc. rewrite N.shiftr_div_pow2. change (2 ^ 4) with 16.
  replace (c + 16 * to_word r) with (c + to_word r * 16) by lia.
  rewrite N.div_add by lia. rewrite N.div_small by lia. lia.
Qed.

Lemma land15_cons c x : c < 16 -> N.land (c + 16 * x) 15 = c.
Proof.
  intros Hc. change 15 with (N.ones 4). rewrite N.land_ones. change (2 ^ 4) with 16.
  replace (c + 16 * x) with (c + x * 16) by lia. rewrite N.mod_add by lia. apply N.mod_small; lia.
Qed.

Lemma nib_read l j : nibs_ok l -> nib (to_word l) (4 * N.of_nat j) = nth j l 0.
Proof.
  intros Hok. revert j; induction Hok as [|c r Hc Hr IH]; intros j.
  - destruct j; cbn [to_word nth]; unfold nib; rewrite N.shiftr_0_l; reflexivity.
  - destruct j as [|j]; cbn [to_word nth].
    + unfold nib. cbn [N.of_nat]. rewrite N.mul_0_r, N.shiftr_0_r. apply land15_cons; assumption.
    + unfold nib in *. rewrite Nat2N.inj_succ.
      replace (4 * N.succ (N.of_nat j)) with (4 + 4 * N.of_nat j) by lia.
      rewrite <- N.shiftr_shiftr, shiftr4_cons by assumption. apply IH.
Qed.

Lemma nib_incr l j : nibs_ok l -> (j < length l)%nat -> nth j l 0 < 15 ->
  to_word l + N.shiftl 1 (4 * N.of_nat j) = to_word (upd l j (nth j l 0 + 1)) /\
  nibs_ok (upd l j (nth j l 0 + 1)).
Proof.
  intros Hok. revert j; induction Hok as [|c r Hc Hr IH]; intros j Hj Hlt.
  - cbn in Hj. lia.
  - destruct j as [|j]; cbn [to_word nth upd] in *.
    + cbn [N.of_nat]. rewrite N.mul_0_r, N.shiftl_0_r. split; [lia|]. constructor; [lia|assumption].
    + cbn [length] in Hj. destruct (IH j ltac:(lia) Hlt) as [IH1 IH2].
      rewrite Nat2N.inj_succ.
      replace (4 * N.succ (N.of_nat j)) with (4 * N.of_nat j + 4) by lia.
      rewrite <- N.shiftl_shiftl, (N.shiftl_mul_pow2 _ 4). change (2 ^ 4) with 16.
      split; [rewrite <- IH1; lia|]. constructor; assumption.
Qed.

Lemma nth_upd_same l j v : (j < length l)%nat -> nth j (upd l j v) 0 = v.
Proof.
  revert j; induction l as [|c r IH]; intros j Hj; cbn in Hj; [lia|].
  destruct j; cbn [upd nth]; [reflexivity|apply IH; lia].
Qed.

Lemma nth_upd_other l j k v : j <> k -> nth k (upd l j v) 0 = nth k l 0.
Proof.
  revert j k; induction l as [|c r IH]; intros j k Hne; [destruct j, k; reflexivity|].
  destruct j, k; cbn [upd nth]; try reflexivity; [lia|apply IH; lia].
Qed.

Lemma upd_length l j v : length (upd l j v) = length l.
Proof. revert j; induction l as [|c r IH]; intros j; destruct j; cbn; auto. Qed.

Lemma shiftr1_cons c R : c < 16 ->
  N.shiftr (c + 16 * R) 1 = (c / 2 + 8 * (R mod 2)) + 16 * (R / 2).
Proof.
  intros Hc. rewrite N.shiftr_div_pow2. change (2 ^ 1) with 2. lia.
Qed.

Lemma land_low7 x b : x < 8 -> b < 2 -> N.land (x + 8 * b) 7 = x.
Proof.
  intros Hx Hb. change 7 with (N.ones 3). rewrite N.land_ones. change (2 ^ 3) with 8.
  replace (x + 8 * b) with (x + b * 8) by lia. rewrite N.mod_add by lia. apply N.mod_small; lia.
Qed.

Lemma age_digits l k : nibs_ok l -> (length l <= k)%nat ->
  N.land (N.shiftr (to_word l) 1) (to_word (repeat 7 k)) = to_word (map (fun c => c / 2) l).
Proof.
  intros Hok. revert k; induction Hok as [|c r Hc Hr IH]; intros k Hk.
  - cbn [to_word map]. rewrite N.shiftr_0_l. apply N.land_0_l.
  - destruct k as [|k]; [cbn in Hk; lia|]. cbn [length] in Hk.
    cbn [to_word map repeat].
    rewrite shiftr1_cons by assumption.
    assert (Hm : to_word r mod 2 < 2) by (apply N.mod_lt; lia).
    assert (Hc2 : c / 2 < 8) by (apply N.div_lt_upper_bound; lia).
    rewrite land_split by lia.
    rewrite land_low7 by assumption.
    rewrite <- (N.shiftr_div_pow2 (to_word r) 1) at 1.
    replace (to_word r / 2) with (N.shiftr (to_word r) 1) by (rewrite N.shiftr_div_pow2; reflexivity).
    rewrite IH by lia. reflexivity.
Qed.

Lemma agingMask_digits : 8608480567731124087 = to_word (repeat 7 16).
Proof. vm_compute. reflexivity. Qed.

Lemma nibs_ok_half l : nibs_ok l -> nibs_ok (map (fun c => c / 2) l).
Proof.
  induction 1 as [|c r Hc Hr IH]; cbn [map]; constructor; [|assumption].
  apply N.div_lt_upper_bound; lia.
Qed.

Lemma nth_map_half l j : nth j (map (fun c => c / 2) l) 0 = nth j l 0 / 2.
Proof.
  revert j; induction l as [|c r IH]; intros j; destruct j; cbn [map nth]; try reflexivity; apply IH.
Qed.

Lemma nib_le15 w sh : nib w sh <= 15.
Proof.
  unfold nib. change (N.land (N.shiftr w sh) 15) with (N.land (N.shiftr w sh) (N.ones 4)).
  rewrite N.land_ones. change (2 ^ 4) with 16.
  pose proof (N.mod_lt (N.shiftr w sh) 16 ltac:(lia)). lia.
Qed.

Lemma word_digits w : w < 18446744073709551616 ->
  exists l, length l = 16%nat /\ nibs_ok l /\ to_word l = w.
Proof. intros H. apply (digits_exist 16). exact H. Qed.

Theorem nib_bump w j : w < 18446744073709551616 -> (j < 16)%nat -> nib w (4 * N.of_nat j) < 15 ->
  let w' := w + N.shiftl 1 (4 * N.of_nat j) in
  w' < 18446744073709551616 /\
  nib w' (4 * N.of_nat j) = nib w (4 * N.of_nat j) + 1 /\
  (forall k, (k < 16)%nat -> k <> j -> nib w' (4 * N.of_nat k) = nib w (4 * N.of_nat k)).
Proof.
  intros Hw Hj Hlt. destruct (word_digits w Hw) as [l [Hl [Hok Hv]]]. subst w.
  rewrite nib_read in Hlt by assumption.
  destruct (nib_incr l j Hok ltac:(lia) Hlt) as [He Hok'].
  cbv zeta. rewrite He. split; [|split].
  - pose proof (to_word_bound _ Hok') as Hb. rewrite upd_length, Hl in Hb. exact Hb.
  - rewrite !nib_read by assumption. apply nth_upd_same. lia.
  - intros k Hk Hne. rewrite !nib_read by assumption. apply nth_upd_other. lia.
Qed.

Theorem nib_age w j : w < 18446744073709551616 -> (j < 16)%nat ->
  let w' := N.land (N.shiftr w 1) 8608480567731124087 in
  w' < 18446744073709551616 /\ nib w' (4 * N.of_nat j) = nib w (4 * N.of_nat j) / 2.
Proof.
  intros Hw Hj. destruct (word_digits w Hw) as [l [Hl [Hok Hv]]]. subst w.
  cbv zeta. rewrite agingMask_digits, age_digits by (try assumption; lia).
  pose proof (nibs_ok_half l Hok) as Hok'. split.
  - pose proof (to_word_bound _ Hok') as Hb. rewrite map_length, Hl in Hb. exact Hb.
  - rewrite !nib_read by assumption. apply nth_map_half.
Qed.
