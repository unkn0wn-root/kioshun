(* Lock-protected operations are linearizable (Herlihy–Wing), with the lock acquisition as
   linearization point.  The instrumented system [wstate] / [wstep] carries MutexAtomicity's
   state untouched and adds ghosts: the history of invocation and response events, and the
   order of lock acquisitions, which is the witness.  A blocking call may be invoked any time
   before it acquires the lock, and its response may be recorded any time after the Unlock step
   and before the thread's next step.  The main theorem is [lock_protected_linearizable];
   [LossyRegister] instantiates it to one key of the cache and connects it to the
   specification of LinCheck.v. *)
From KV Require Import Base MutexAtomicity.
From KV Require LinCheck.
Close Scope Z_scope.
Open Scope nat_scope.

Set Implicit Arguments.

Section ListFacts.
  Variable A : Type.

  Lemma filter_filter_imp (f g : A -> bool) l :
    (forall x, f x = true -> g x = true) -> filter f (filter g l) = filter f l.
  Proof.
    intros H. induction l as [|a l IH]; cbn; auto.
    destruct (g a) eqn:G; cbn; destruct (f a) eqn:F; cbn; try rewrite IH; auto.
    rewrite (H a F) in G. discriminate.
  Qed.

  Lemma flen_app (f : A -> bool) a b :
    length (filter f (a ++ b)) = length (filter f a) + length (filter f b).
  Proof. rewrite filter_app, app_length. reflexivity. Qed.

  Lemma nth_error_split_firstn (l : list A) p x :
    nth_error l p = Some x -> exists l2, l = firstn p l ++ x :: l2.
  Proof.
    revert p; induction l as [|a l IH]; intros [|p] H; cbn in *; try discriminate.
    - inversion H; subst. exists l; auto.
    - destruct (IH _ H) as (l2 & E). exists l2. congruence.
  Qed.

  Lemma flen_firstn_lt (f : A -> bool) l p x :
    nth_error l p = Some x -> f x = true ->
    length (filter f (firstn p l)) < length (filter f l).
  Proof.
    intros H Hf. destruct (nth_error_split_firstn _ _ H) as (l2 & E).
    rewrite E at 2. rewrite flen_app. cbn. rewrite Hf. cbn. lia.
  Qed.

  Lemma nth_error_snoc (l : list A) x p y :
    nth_error (l ++ [x]) p = Some y ->
    (p < length l /\ nth_error l p = Some y) \/ (p = length l /\ y = x).
  Proof.
    intros H. destruct (Nat.lt_ge_cases p (length l)) as [Hlt|Hge].
    - left. rewrite nth_error_app1 in H; auto.
    - right. rewrite nth_error_app2 in H; auto.
      destruct (p - length l) as [|d] eqn:E; cbn in H.
      + inversion H. split; auto. lia.
      + destruct d; discriminate.
  Qed.

  Lemma firstn_snoc_le (l : list A) x p : p <= length l -> firstn p (l ++ [x]) = firstn p l.
  Proof.
    intros H. rewrite firstn_app. replace (p - length l) with 0 by lia.
    cbn. apply app_nil_r.
  Qed.
  Lemma nth_error_firstn_lt (l : list A) n i : i < n -> nth_error (firstn n l) i = nth_error l i.
  Proof.
    revert n i; induction l as [|a l IH]; intros [|n] [|i] H; cbn; auto; try lia.
    apply IH. lia.
  Qed.
  Lemma nth_error_filter (f : A -> bool) l p x :
    nth_error l p = Some x -> f x = true ->
    nth_error (filter f l) (length (filter f (firstn p l))) = Some x.
  Proof.
    intros H Hf. destruct (nth_error_split_firstn _ _ H) as (l2 & E).
    rewrite E at 1. rewrite filter_app. cbn. rewrite Hf.
    rewrite nth_error_app2 by lia. rewrite Nat.sub_diag. reflexivity.
  Qed.

  Fixpoint nth_pos (f : A -> bool) (l : list A) (k : nat) : option nat :=
    match l with
    | [] => None
    | a :: r =>
        if f a then
          match k with
          | O => Some 0
          | Datatypes.S k' => option_map Datatypes.S (nth_pos f r k')
          end
        else option_map Datatypes.S (nth_pos f r k)
    end.

  Lemma nth_pos_sound f l k p :
    nth_pos f l k = Some p ->
    exists x, nth_error l p = Some x /\ f x = true /\ length (filter f (firstn p l)) = k.
  Proof.
    revert k p; induction l as [|a l IH]; intros k p H; cbn in H; [discriminate|].
    destruct (f a) eqn:F.
    - destruct k as [|k].
      + inversion H; subst. exists a; auto.
      + destruct (nth_pos f l k) as [q|] eqn:E; [|discriminate]. inversion H; subst.
        destruct (IH _ _ E) as (x & H1 & H2 & H3). exists x. cbn. rewrite F. cbn. auto.
    - destruct (nth_pos f l k) as [q|] eqn:E; [|discriminate]. inversion H; subst.
      destruct (IH _ _ E) as (x & H1 & H2 & H3). exists x. cbn. rewrite F. auto.
  Qed.

  Lemma nth_pos_complete f l k p x :
    nth_error l p = Some x -> f x = true -> length (filter f (firstn p l)) = k ->
    nth_pos f l k = Some p.
  Proof.
    revert k p; induction l as [|a l IH]; intros k [|p] H Hf Hk; cbn in H; try discriminate.
    - inversion H; subst. cbn. rewrite Hf. reflexivity.
    - cbn [firstn filter] in Hk. cbn [nth_pos]. destruct (f a) eqn:F.
      + cbn [length] in Hk. subst k. rewrite (IH _ _ H Hf eq_refl). reflexivity.
      + rewrite (IH _ _ H Hf Hk). reflexivity.
  Qed.

  Lemma nth_pos_some f l k : k < length (filter f l) -> exists p, nth_pos f l k = Some p.
  Proof.
    revert k; induction l as [|a l IH]; intros k H; cbn in *; [lia|].
    destruct (f a); [destruct k as [|k]; [eauto|]; cbn in H|];
      (destruct (IH k) as (p & ->); [lia|]; cbn; eauto).
  Qed.

  Lemma flen_ex (f : A -> bool) l k :
    k < length (filter f l) ->
    exists i x, nth_error l i = Some x /\ f x = true /\ length (filter f (firstn i l)) = k.
  Proof. intros H. destruct (nth_pos_some _ _ H) as (p & E). exists p. exact (nth_pos_sound _ _ _ E). Qed.

  Lemma nth_pos_none f l k : nth_pos f l k = None -> length (filter f l) <= k.
  Proof.
    intros H. destruct (Nat.lt_ge_cases k (length (filter f l))) as [Hlt|]; auto.
    destruct (nth_pos_some _ _ Hlt) as (p & E). congruence.
  Qed.
End ListFacts.

Section Lin.
  Variables S R : Type.

  (* a call on the object: a write-locked body, or a read-locked list of pure observations *)
  Inductive lcall :=
  | LW (c : call S R)
  | LR (obs : list (S -> R)).

  Inductive res :=
  | RW (r : R)                (* result of a write-locked body *)
  | RR (rs : list R).         (* the values a read-locked section observed, in order *)

  Inductive event :=
  | EInv (t : nat) (c : lcall)
  | ERes (t : nat) (r : res).

  (* the SEQUENTIAL object: one call applied atomically *)
  Definition apply (c : lcall) (s : S) : S * res :=
    match c with
    | LW c => (fst (body c s), RW (snd (body c s)))
    | LR obs => (s, RR (map (fun f => f s) obs))
    end.

  Definition lop := (nat * lcall * res)%type.
  Definition op_tid (x : lop) : nat := fst (fst x).
  Definition op_call (x : lop) : lcall := snd (fst x).
  Definition op_res (x : lop) : res := snd x.

  Fixpoint spec_run (s : S) (l : list (nat * lcall)) : list lop :=
    match l with
    | [] => []
    | x :: r => (fst x, snd x, snd (apply (snd x) s)) :: spec_run (fst (apply (snd x) s)) r
    end.

  Definition spec_state (s : S) (l : list (nat * lcall)) : S :=
    fold_left (fun s x => fst (apply (snd x) s)) l s.

  (* W is a legal sequential execution of the object from s *)
  Definition legal (s : S) (W : list lop) : Prop := W = spec_run s (map fst W).

  Definition seqh (W : list lop) : list event :=
    flat_map (fun x => [EInv (op_tid x) (op_call x); ERes (op_tid x) (op_res x)]) W.

  Definition ev_tid (e : event) : nat := match e with EInv t _ => t | ERes t _ => t end.
  Definition proj (t : nat) (h : list event) : list event :=
    filter (fun e => ev_tid e =? t) h.

  (* the events of t in h are those of t in W, up to the (at most one) pending call of t,
     which W either drops or completes *)
  Definition thread_equiv (t : nat) (h : list event) (W : list lop) : Prop :=
    proj t h = proj t (seqh W) \/
    (exists c, proj t h = proj t (seqh W) ++ [EInv t c]) \/
    (exists r, proj t h ++ [ERes t r] = proj t (seqh W)).

  Definition is_inv (t : nat) (e : event) : bool :=
    match e with EInv t' _ => t' =? t | _ => false end.
  Definition is_res (t : nat) (e : event) : bool :=
    match e with ERes t' _ => t' =? t | _ => false end.
  Definition icount (t : nat) (h : list event) : nat := length (filter (is_inv t) h).
  Definition rcount (t : nat) (h : list event) : nat := length (filter (is_res t) h).
  Definition cnt (t : nat) (ts : list nat) : nat := length (filter (Nat.eqb t) ts).

  (* position i of the order [ts] (thread ids) holds the k-th operation of thread t *)
  Definition is_op (ts : list nat) (i t k : nat) : Prop :=
    nth_error ts i = Some t /\ cnt t (firstn i ts) = k.

  (* real time: if the response of A (the ka-th response of ta, at position p) precedes the
     invocation of B (the kb-th invocation of tb, at position q) in h, and B is in the order at
     position j, then A is in the order at some position i < j *)
  Definition rt_respected (h : list event) (ts : list nat) : Prop :=
    forall p q ta ra tb cb j,
      nth_error h p = Some (ERes ta ra) -> nth_error h q = Some (EInv tb cb) -> p < q ->
      is_op ts j tb (icount tb (firstn q h)) ->
      exists i, i < j /\ is_op ts i ta (rcount ta (firstn p h)).

  Definition linearizable_with (s : S) (h : list event) (W : list lop) : Prop :=
    legal s W /\ (forall t, thread_equiv t h W) /\ rt_respected h (map op_tid W).

  Definition linearizable (s : S) (h : list event) : Prop :=
    exists W, linearizable_with s h W.

  Lemma icount_app t a b : icount t (a ++ b) = icount t a + icount t b.
  Proof. apply flen_app. Qed.
  Lemma rcount_app t a b : rcount t (a ++ b) = rcount t a + rcount t b.
  Proof. apply flen_app. Qed.
  Lemma cnt_app t a b : cnt t (a ++ b) = cnt t a + cnt t b.
  Proof. apply flen_app. Qed.
  Lemma proj_app t a b : proj t (a ++ b) = proj t a ++ proj t b.
  Proof. apply filter_app. Qed.

  Lemma icount_proj t h : icount t (proj t h) = icount t h.
  Proof.
    unfold icount, proj. rewrite filter_filter_imp; auto.
    intros [t' c|t' r]; cbn; auto. discriminate.
  Qed.
  Lemma res_filter_proj t h : filter (is_res t) (proj t h) = filter (is_res t) h.
  Proof.
    unfold proj. apply filter_filter_imp. intros [t' c|t' r]; cbn; auto. discriminate.
  Qed.
  Lemma rcount_proj t h : rcount t (proj t h) = rcount t h.
  Proof. unfold rcount. rewrite res_filter_proj. reflexivity. Qed.

  Lemma seqh_app a b : seqh (a ++ b) = seqh a ++ seqh b.
  Proof. apply flat_map_app. Qed.

  Lemma icount_seqh t W : icount t (seqh W) = cnt t (map op_tid W).
  Proof.
    induction W as [|x W IH]; auto.
    unfold icount, cnt in *. cbn. rewrite (Nat.eqb_sym t).
    destruct (op_tid x =? t); cbn; auto.
  Qed.
  Lemma rcount_seqh t W : rcount t (seqh W) = cnt t (map op_tid W).
  Proof.
    induction W as [|x W IH]; auto.
    unfold rcount, cnt in *. cbn. rewrite (Nat.eqb_sym t).
    destruct (op_tid x =? t); cbn; auto.
  Qed.

  Lemma cnt_firstn_lt ts i t : nth_error ts i = Some t -> cnt t (firstn i ts) < cnt t ts.
  Proof. intros H. apply (flen_firstn_lt _ _ _ H), Nat.eqb_refl. Qed.

  Lemma rcount_firstn_lt h p t r :
    nth_error h p = Some (ERes t r) -> rcount t (firstn p h) < rcount t h.
  Proof. intros H. apply (flen_firstn_lt _ _ _ H). cbn. apply Nat.eqb_refl. Qed.

  Lemma cnt_ex ts t k : k < cnt t ts -> exists i, is_op ts i t k.
  Proof.
    intros H. destruct (flen_ex _ _ H) as (i & x & H1 & H2 & H3).
    apply Nat.eqb_eq in H2. subst x. exists i. split; auto.
  Qed.

  Lemma is_op_lt ts i t k : is_op ts i t k -> i < length ts.
  Proof. intros [H _]. apply nth_error_Some. congruence. Qed.

  Lemma is_op_snoc ts x i t k : i < length ts -> (is_op (ts ++ [x]) i t k <-> is_op ts i t k).
  Proof.
    intros H. unfold is_op. rewrite nth_error_app1 by auto.
    rewrite firstn_snoc_le by lia. tauto.
  Qed.

  Lemma cnt_firstn_mono ts i j t :
    nth_error ts i = Some t -> i < j -> cnt t (firstn i ts) < cnt t (firstn j ts).
  Proof.
    intros H Hij.
    assert (Hn : nth_error (firstn j ts) i = Some t) by (rewrite nth_error_firstn_lt; auto).
    pose proof (cnt_firstn_lt _ _ Hn) as Hc.
    rewrite firstn_firstn in Hc. replace (Nat.min i j) with i in Hc by lia. exact Hc.
  Qed.

  Lemma is_op_unique ts i i' t k : is_op ts i t k -> is_op ts i' t k -> i = i'.
  Proof.
    intros [H1 H2] [H3 H4]. destruct (Nat.lt_trichotomy i i') as [Hlt|[E|Hlt]]; auto;
      [pose proof (cnt_firstn_mono _ H1 Hlt) | pose proof (cnt_firstn_mono _ H3 Hlt)]; lia.
  Qed.

  (* program order is built into the identification of operations by (thread, index) *)
  Lemma witness_program_order ts i j t k1 k2 :
    is_op ts i t k1 -> is_op ts j t k2 -> k1 < k2 -> i < j.
  Proof.
    intros [H1 H2] [H3 H4] Hk. destruct (Nat.lt_trichotomy i j) as [|[->|Hlt]]; auto; [lia|].
    pose proof (cnt_firstn_mono _ H3 Hlt). lia.
  Qed.

  Lemma spec_state_app s a b : spec_state s (a ++ b) = spec_state (spec_state s a) b.
  Proof. unfold spec_state. apply fold_left_app. Qed.

  Lemma spec_run_app s a b :
    spec_run s (a ++ b) = spec_run s a ++ spec_run (spec_state s a) b.
  Proof. revert s; induction a as [|x a IH]; intros s; cbn; auto. rewrite IH. reflexivity. Qed.

  Lemma spec_run_tids s L : map op_tid (spec_run s L) = map fst L.
  Proof. revert s; induction L as [|x L IH]; intros s; cbn; auto. f_equal; auto. Qed.

  Lemma spec_run_calls s L : map fst (spec_run s L) = L.
  Proof.
    revert s; induction L as [|[t c] L IH]; intros s; cbn; auto. f_equal; auto.
  Qed.

  Lemma spec_run_legal s L : legal s (spec_run s L).
  Proof. unfold legal. rewrite spec_run_calls. reflexivity. Qed.

  Lemma spec_run_length s L : length (spec_run s L) = length L.
  Proof. revert s; induction L as [|x L IH]; intros s; cbn; auto. Qed.

  Lemma spec_run_nth s L0 x L2 :
    nth_error (spec_run s (L0 ++ x :: L2)) (length L0) =
    Some (fst x, snd x, snd (apply (snd x) (spec_state s L0))).
  Proof.
    rewrite spec_run_app, nth_error_app2; rewrite spec_run_length; [|lia].
    rewrite Nat.sub_diag. reflexivity.
  Qed.

  (* a new last event adds an obligation only if it is an invocation, and then only for an
     operation that the order does not hold yet *)
  Lemma rt_move_event h ts e :
    rt_respected h ts -> (forall t c, e = EInv t c -> icount t h = cnt t ts) ->
    rt_respected (h ++ [e]) ts.
  Proof.
    intros Hrt Hc p q ta ra tb cb j Hp Hq Hpq Hj.
    apply nth_error_snoc in Hq as [[Hql Hq]|[Hql Heq]].
    - rewrite nth_error_app1 in Hp by lia. rewrite firstn_snoc_le in Hj by lia.
      rewrite firstn_snoc_le by lia. eapply Hrt; eauto.
    - exfalso. subst q. specialize (Hc _ _ (eq_sym Heq)).
      rewrite firstn_app, Nat.sub_diag, firstn_all in Hj. cbn in Hj. rewrite app_nil_r in Hj.
      destruct Hj as [Hj1 Hj2]. pose proof (cnt_firstn_lt _ _ Hj1). lia.
  Qed.

  Lemma rt_move_lin h ts t :
    rt_respected h ts -> (forall ta, rcount ta h <= cnt ta ts) -> rt_respected h (ts ++ [t]).
  Proof.
    intros Hrt Hc p q ta ra tb cb j Hp Hq Hpq Hj.
    pose proof (is_op_lt Hj) as Hjl. rewrite app_length in Hjl. cbn in Hjl.
    destruct (Nat.eq_dec j (length ts)) as [->|Hne].
    - pose proof (rcount_firstn_lt _ _ Hp) as Hlt. specialize (Hc ta).
      destruct (@cnt_ex ts ta (rcount ta (firstn p h))) as (i & Hi); [lia|].
      pose proof (is_op_lt Hi). exists i. split; auto. apply is_op_snoc; auto.
    - assert (Hjl' : j < length ts) by lia.
      apply is_op_snoc in Hj; auto.
      destruct (Hrt _ _ _ _ _ _ _ Hp Hq Hpq Hj) as (i & Hij & Hi).
      exists i. split; auto. apply is_op_snoc; auto. lia.
  Qed.

  Variable s0 : S.

  Inductive phase :=
  | PIdle                 (* no call in flight *)
  | PInv (c : lcall)      (* invoked c, lock not yet acquired *)
  | PAcq (k : nat).       (* lock acquired: the call is entry k of the linearization order *)

  (* [tph h W ph t]: what the phase of thread t says about its events in the history h and in
     the witness W.  It is [thread_equiv] with the disjunct chosen by the phase; in phase
     [PAcq k] the call is entry k of W, whose result is the response still to come. *)
  Definition tph (h : list event) (W : list lop) (ph : phase) (t : nat) : Prop :=
    match ph with
    | PIdle => proj t h = proj t (seqh W)
    | PInv c => proj t h = proj t (seqh W) ++ [EInv t c]
    | PAcq k => exists c r, nth_error W k = Some (t, c, r) /\
                            proj t h ++ [ERes t r] = proj t (seqh W)
    end.

  Lemma tph_equiv h W ph t : tph h W ph t -> thread_equiv t h W.
  Proof.
    destruct ph; cbn; intros H.
    - left; auto.
    - right; left; eauto.
    - right; right. destruct H as (c & r & _ & H); eauto.
  Qed.

  Lemma icount_one_inv t c : icount t [EInv t c] = 1.
  Proof. unfold icount; cbn. rewrite Nat.eqb_refl. reflexivity. Qed.
  Lemma rcount_one_res t r : rcount t [ERes t r] = 1.
  Proof. unfold rcount; cbn. rewrite Nat.eqb_refl. reflexivity. Qed.

  Lemma proj_eq_counts t (a b : list event) :
    a = b -> icount t a = icount t b /\ rcount t a = rcount t b.
  Proof. intros ->. auto. Qed.

  (* pushes [icount] / [rcount] through [++], [proj] and [seqh] down to [cnt] of the order *)
  Hint Rewrite icount_app rcount_app icount_proj rcount_proj icount_seqh rcount_seqh
       icount_one_inv rcount_one_res : counts.

  Lemma tph_counts h W ph t : tph h W ph t ->
    match ph with
    | PIdle => icount t h = cnt t (map op_tid W) /\ rcount t h = cnt t (map op_tid W)
    | PInv _ => icount t h = cnt t (map op_tid W) + 1 /\ rcount t h = cnt t (map op_tid W)
    | PAcq _ => icount t h = cnt t (map op_tid W) /\ rcount t h + 1 = cnt t (map op_tid W)
    end.
  Proof.
    destruct ph; cbn [tph]; [intros E | intros E | intros (c & r & _ & E)];
      apply (proj_eq_counts t) in E; autorewrite with counts in E; cbn in E; lia.
  Qed.

  Definition upd_fun (A : Type) (f : nat -> A) (t : nat) (v : A) : nat -> A :=
    fun x => if x =? t then v else f x.

  Lemma upd_fun_eq (A : Type) (f : nat -> A) t v : upd_fun f t v t = v.
  Proof. unfold upd_fun. rewrite Nat.eqb_refl. reflexivity. Qed.
  Lemma upd_fun_ne (A : Type) (f : nat -> A) t v t' : t' <> t -> upd_fun f t v t' = f t'.
  Proof. unfold upd_fun. intros H. apply Nat.eqb_neq in H. rewrite H. reflexivity. Qed.

  (* The ghost invariant: with W the sequential execution of the acquisition order L, every
     thread's events agree with W as its phase says, and L respects the real-time order of h. *)
  Definition Ginv (h : list event) (L : list (nat * lcall)) (ph : nat -> phase) : Prop :=
    (forall t, tph h (spec_run s0 L) (ph t) t) /\ rt_respected h (map fst L).

  Lemma proj_snoc_other t' h e : ev_tid e <> t' -> proj t' (h ++ [e]) = proj t' h.
  Proof.
    intros H. rewrite proj_app. cbn. apply Nat.eqb_neq in H. rewrite H. apply app_nil_r.
  Qed.
  Lemma proj_snoc_same t h e : ev_tid e = t -> proj t (h ++ [e]) = proj t h ++ [e].
  Proof. intros H. rewrite proj_app. cbn. rewrite H, Nat.eqb_refl. reflexivity. Qed.

  Lemma tph_hist_other h W ph t' e : ev_tid e <> t' -> tph h W ph t' -> tph (h ++ [e]) W ph t'.
  Proof. intros H. unfold tph. rewrite proj_snoc_other; auto. Qed.

  Lemma seqh_snoc W x :
    seqh (W ++ [x]) = seqh W ++ [EInv (op_tid x) (op_call x); ERes (op_tid x) (op_res x)].
  Proof. rewrite seqh_app. reflexivity. Qed.

  Lemma tph_lin_other h W ph t' x : op_tid x <> t' -> tph h W ph t' -> tph h (W ++ [x]) ph t'.
  Proof.
    intros H. unfold tph. rewrite seqh_snoc, proj_app. cbn. apply Nat.eqb_neq in H. rewrite H.
    rewrite app_nil_r. destruct ph; auto.
    intros (c & r & Hn & E). exists c, r. split; auto.
    rewrite nth_error_app1; auto. apply nth_error_Some. congruence.
  Qed.

  Lemma Ginv_counts h L ph t : Ginv h L ph ->
    match ph t with
    | PIdle => icount t h = cnt t (map fst L) /\ rcount t h = cnt t (map fst L)
    | PInv _ => icount t h = cnt t (map fst L) + 1 /\ rcount t h = cnt t (map fst L)
    | PAcq _ => icount t h = cnt t (map fst L) /\ rcount t h + 1 = cnt t (map fst L)
    end.
  Proof.
    intros [H _]. specialize (H t). apply tph_counts in H.
    rewrite spec_run_tids in H. exact H.
  Qed.

  Lemma Ginv_init : Ginv [] [] (fun _ => PIdle).
  Proof.
    split; cbn; auto. intros p q ta ra tb cb j Hp. destruct p; discriminate.
  Qed.

  Lemma Ginv_inv h L ph t c :
    Ginv h L ph -> ph t = PIdle -> Ginv (h ++ [EInv t c]) L (upd_fun ph t (PInv c)).
  Proof.
    intros G Hph. pose proof (Ginv_counts t G) as Hc. rewrite Hph in Hc.
    destruct G as [H1 H2]. split.
    - intros t'. destruct (Nat.eq_dec t' t) as [->|Hne].
      + rewrite upd_fun_eq. cbn. rewrite proj_snoc_same by reflexivity.
        specialize (H1 t). rewrite Hph in H1. cbn in H1. rewrite H1. reflexivity.
      + rewrite upd_fun_ne by auto. apply tph_hist_other; auto; cbn; congruence.
    - apply rt_move_event; auto. intros t0 c0 [= <- _]. tauto.
  Qed.

  Lemma Ginv_lin h L ph t c :
    Ginv h L ph -> ph t = PInv c -> Ginv h (L ++ [(t, c)]) (upd_fun ph t (PAcq (length L))).
  Proof.
    intros G Hph.
    assert (Hle : forall ta, rcount ta h <= cnt ta (map fst L)).
    { intros ta. pose proof (Ginv_counts ta G) as Hc. destruct (ph ta); lia. }
    destruct G as [H1 H2]. split.
    - intros t'. rewrite spec_run_app. cbn [spec_run fst snd].
      destruct (Nat.eq_dec t' t) as [->|Hne].
      + rewrite upd_fun_eq. cbn [tph].
        exists c, (snd (apply c (spec_state s0 L))). split.
        * rewrite nth_error_app2; rewrite spec_run_length; [|lia].
          rewrite Nat.sub_diag. reflexivity.
        * specialize (H1 t). rewrite Hph in H1. cbn in H1. rewrite H1.
          rewrite seqh_snoc, proj_app. cbn. rewrite Nat.eqb_refl.
          rewrite <- app_assoc. reflexivity.
      + rewrite upd_fun_ne by auto. apply tph_lin_other; auto; cbn; congruence.
    - rewrite map_app. cbn. apply rt_move_lin; auto.
  Qed.

  Lemma Ginv_res h L ph t k x :
    Ginv h L ph -> ph t = PAcq k -> nth_error (spec_run s0 L) k = Some x ->
    Ginv (h ++ [ERes t (op_res x)]) L (upd_fun ph t PIdle).
  Proof.
    intros [H1 H2] Hph Hx. split.
    - intros t'. destruct (Nat.eq_dec t' t) as [->|Hne].
      + rewrite upd_fun_eq. cbn. rewrite proj_snoc_same by reflexivity.
        specialize (H1 t). rewrite Hph in H1. cbn in H1.
        destruct H1 as (c & r & Hn & E). rewrite Hx in Hn. inversion Hn; subst x. exact E.
      + rewrite upd_fun_ne by auto. apply tph_hist_other; auto; cbn; congruence.
    - apply rt_move_event; auto. discriminate.
  Qed.

  Lemma Ginv_linearizable h L ph :
    Ginv h L ph -> linearizable_with s0 h (spec_run s0 L).
  Proof.
    intros [H1 H2]. split; [apply spec_run_legal|]. split.
    - intros t. eapply tph_equiv; eauto.
    - rewrite spec_run_tids. exact H2.
  Qed.

  Variable scripts : list (list (op S R)).

  (* the inner-level operation a thread will attempt next (when it is outside any section) *)
  Definition next_iop (th : thread S R) : option (iop S R) :=
    match t_in th with
    | Idle _ _ =>
        match t_outer th with
        | Some (i :: _) => Some i
        | Some [] => None
        | None => match t_prog th with OIn i :: _ => Some i | _ => None end
        end
    | _ => None
    end.

  (* what a scheduler step of thread t does at the level of calls; computed from the PRE-state *)
  Inductive action :=
  | ANone                               (* local step, outer lock, failed TryLock, micro-step *)
  | AAcqW (c : call S R)                (* Lock / TryLock succeeds *)
  | AAcqR (obs : list (S -> R))         (* RLock succeeds *)
  | AUnlock (r : R)                     (* Unlock, returning r *)
  | AObs (v : R)                        (* one observation under the read lock *)
  | ARUnlock.                           (* RUnlock *)

  Definition act (st : state S R) (t : nat) : action :=
    match nth_error (thr st) t with
    | None => ANone
    | Some th =>
      match t_in th with
      | InW _ [] r => AUnlock r
      | InW _ (_ :: _) _ => ANone
      | InR (f :: _) => AObs (f (sh st))
      | InR [] => ARUnlock
      | Idle _ _ =>
          match next_iop th with
          | Some (IWrite _ c) => if wlk st || (0 <? rdc st) then ANone else AAcqW c
          | Some (IRead obs) => if wlk st then ANone else AAcqR obs
          | _ => ANone
          end
      end
    end.

  (* the blocking call thread t is about to make: Lock (not TryLock) or RLock *)
  Definition next_call (st : state S R) (t : nat) : option lcall :=
    match nth_error (thr st) t with
    | None => None
    | Some th =>
      match next_iop th with
      | Some (IWrite false c) => Some (LW c)
      | Some (IRead obs) => Some (LR obs)
      | _ => None
      end
    end.

  Definition status (st : state S R) (t : nat) : istatus S R :=
    match nth_error (thr st) t with Some th => t_in th | None => Idle _ _ end.

  Lemma consumes_next_iop th i th0 :
    t_in th = Idle _ _ -> consumes th i th0 -> next_iop th = Some i /\ t_in th0 = Idle _ _.
  Proof.
    intros Hin Hc. unfold next_iop. rewrite Hin.
    destruct Hc as [rest Ho|p Ho Hp]; rewrite Ho, ?Hp; auto.
  Qed.

  (* [step_kind] read through [act]: for each value of [act st t], what the step does to the
     entry of t (th before, th' after), to [g_acq] and what it found in the lock words *)
  Lemma step_effect st t st' : step st t = Some st' ->
    exists th th', nth_error (thr st) t = Some th /\ thr st' = upd (thr st) t th' /\
      match act st t with
      | AAcqW c =>
          t_in th = Idle _ _ /\ (exists try, next_iop th = Some (IWrite try c)) /\
          t_in th' = InW c (c_steps c) (c_init c) /\
          g_acq st' = g_acq st ++ [(t, c)] /\ wlk st = false /\ rdc st = 0
      | AAcqR obs =>
          t_in th = Idle _ _ /\ next_iop th = Some (IRead obs) /\ t_in th' = InR obs /\
          g_acq st' = g_acq st /\ wlk st = false
      | AUnlock r =>
          (exists c, t_in th = InW c [] r) /\ t_in th' = Idle _ _ /\ g_acq st' = g_acq st
      | AObs v =>
          (exists f rem, t_in th = InR (f :: rem) /\ t_in th' = InR rem /\ v = f (sh st)) /\
          g_acq st' = g_acq st
      | ARUnlock => t_in th = InR [] /\ t_in th' = Idle _ _ /\ g_acq st' = g_acq st
      | ANone =>
          g_acq st' = g_acq st /\
          ((t_in th = Idle _ _ /\ t_in th' = Idle _ _ /\ next_call st t = None) \/
           (exists c m rem r r', t_in th = InW c (m :: rem) r /\ t_in th' = InW c rem r'))
      end.
  Proof.
    intros H. destruct (step_inv _ _ H) as (th & Hth & K). clear H. exists th.
    destruct K as [c m rem r Hin|c r Hin|f rem Hin|Hin|Hin Ho|try b p Hin Ho Hp E|b p Hin Ho Hp E
                  |i th0 Hin Hc Hi|try c th0 Hin Hc E E2|obs th0 Hin Hc E];
      try destruct (consumes_next_iop Hin Hc) as [Hn Hin0];
      (eexists; split; [exact Hth|]; split; [reflexivity|]);
      unfold act, next_call; rewrite Hth, Hin; cbn [g_acq t_in].
    - split; [reflexivity | right; repeat eexists].
    - eauto.
    - split; eauto.
    - auto.
    - unfold next_iop. rewrite Hin, Ho. auto.
    - unfold next_iop. rewrite Hin, Ho, Hp. auto.
    - unfold next_iop. rewrite Hin, Ho, Hp. auto.
    - (* a local step or a failed TryLock is not a blocking call *)
      rewrite Hn. destruct Hi as [->|(c & -> & ->)]; auto.
    - rewrite Hn, E, E2. cbn. repeat split; eauto.
    - rewrite Hn, E. repeat split; auto.
  Qed.

  (* The instrumented state: MutexAtomicity's state, untouched, plus ghosts.  The wrapper
     never re-implements [step]: a run step IS [MutexAtomicity.step] on the [w_st] field. *)
  Record wstate := {
    w_st : state S R;
    w_hist : list event;               (* the history of invocations and responses *)
    w_lin : list (nat * lcall);        (* lock acquisitions (write AND read) in order *)
    w_ph : nat -> phase;               (* per-thread phase of the call in flight *)
    w_acc : nat -> list R;             (* values observed so far by a reader *)
    w_ret : nat -> option res          (* unlocked, response not yet delivered to the caller *)
  }.

  Inductive label :=
  | LInv (t : nat)     (* thread t invokes its next blocking call (starts trying to acquire) *)
  | LRun (t : nat)     (* thread t takes one scheduler step of MutexAtomicity *)
  | LRes (t : nat).    (* the call of thread t, already unlocked, returns to its caller *)

  (* deliver the response owed to thread t, if any *)
  Definition flush (w : wstate) (t : nat) : wstate :=
    match w_ret w t with
    | Some r => {| w_st := w_st w; w_hist := w_hist w ++ [ERes t r]; w_lin := w_lin w;
                   w_ph := upd_fun (w_ph w) t PIdle; w_acc := w_acc w;
                   w_ret := upd_fun (w_ret w) t None |}
    | None => w
    end.

  (* Lock / TryLock / RLock succeeds: the call becomes the next entry of the order.  A call
     that was not invoked by an earlier [LInv t] (phase [PIdle]: a TryLock, or a blocking call
     whose invocation nobody recorded) is invoked here, so every entry of the order has its
     invocation event before its linearization point. *)
  Definition acquire (w : wstate) (st' : state S R) (t : nat) (c : lcall) : wstate :=
    {| w_st := st';
       w_hist := match w_ph w t with
                 | PIdle => w_hist w ++ [EInv t c]
                 | _ => w_hist w
                 end;
       w_lin := w_lin w ++ [(t, c)];
       w_ph := upd_fun (w_ph w) t (PAcq (length (w_lin w)));
       w_acc := upd_fun (w_acc w) t [];
       w_ret := w_ret w |}.

  (* Unlock / RUnlock: the result is fixed; the response event is emitted by a later [LRes t]
     (immediately after, for a history that records the response at the Unlock step), or at
     the latest just before the thread's next scheduler step *)
  Definition owe (w : wstate) (st' : state S R) (t : nat) (r : res) : wstate :=
    {| w_st := st'; w_hist := w_hist w; w_lin := w_lin w; w_ph := w_ph w; w_acc := w_acc w;
       w_ret := upd_fun (w_ret w) t (Some r) |}.

  Definition run1 (w : wstate) (st' : state S R) (t : nat) (a : action) : wstate :=
    match a with
    | ANone => {| w_st := st'; w_hist := w_hist w; w_lin := w_lin w;
                  w_ph := w_ph w; w_acc := w_acc w; w_ret := w_ret w |}
    | AAcqW c => acquire w st' t (LW c)
    | AAcqR obs => acquire w st' t (LR obs)
    | AUnlock r => owe w st' t (RW r)
    | AObs v => {| w_st := st'; w_hist := w_hist w; w_lin := w_lin w; w_ph := w_ph w;
                   w_acc := upd_fun (w_acc w) t (w_acc w t ++ [v]); w_ret := w_ret w |}
    | ARUnlock => owe w st' t (RR (w_acc w t))
    end.

  Definition wstep (w : wstate) (l : label) : option wstate :=
    match l with
    | LInv t =>
        match w_ph w t, next_call (w_st w) t with
        | PIdle, Some c =>
            Some {| w_st := w_st w; w_hist := w_hist w ++ [EInv t c]; w_lin := w_lin w;
                    w_ph := upd_fun (w_ph w) t (PInv c); w_acc := w_acc w;
                    w_ret := w_ret w |}
        | _, _ => None
        end
    | LRes t => match w_ret w t with Some _ => Some (flush w t) | None => None end
    | LRun t =>
        match step (w_st w) t with
        | None => None
        | Some st' => Some (run1 (flush w t) st' t (act (w_st w) t))
        end
    end.

  Definition winit : wstate :=
    {| w_st := init s0 scripts; w_hist := []; w_lin := [];
       w_ph := fun _ => PIdle; w_acc := fun _ => []; w_ret := fun _ => None |}.

  Inductive wreachable : wstate -> Prop :=
  | WR_init : wreachable winit
  | WR_step w l w' : wreachable w -> wstep w l = Some w' -> wreachable w'.

  Fixpoint wexec (ls : list label) (w : wstate) : wstate :=
    match ls with
    | [] => w
    | l :: r => wexec r (match wstep w l with Some w' => w' | None => w end)
    end.

  Lemma wexec_reachable ls w : wreachable w -> wreachable (wexec ls w).
  Proof.
    revert w; induction ls as [|l r IH]; intros w H; cbn; auto.
    apply IH. destruct (wstep w l) eqn:E; auto. eapply WR_step; eauto.
  Qed.

  Lemma flush_st w t : w_st (flush w t) = w_st w.
  Proof. unfold flush. destruct (w_ret w t); reflexivity. Qed.

  Lemma run1_st w st' t a : w_st (run1 w st' t a) = st'.
  Proof. destruct a; reflexivity. Qed.

  Lemma wstep_run_projects w t w' :
    wstep w (LRun t) = Some w' -> step (w_st w) t = Some (w_st w').
  Proof.
    cbn. destruct (step (w_st w) t) as [st'|]; [|discriminate].
    intros H; inversion H; subst; clear H. rewrite run1_st. reflexivity.
  Qed.

  Lemma wstep_inv_projects w t w' : wstep w (LInv t) = Some w' -> w_st w' = w_st w.
  Proof.
    cbn. destruct (w_ph w t); try discriminate.
    destruct (next_call (w_st w) t); try discriminate.
    intros H; inversion H; reflexivity.
  Qed.

  Lemma wstep_res_projects w t w' : wstep w (LRes t) = Some w' -> w_st w' = w_st w.
  Proof.
    cbn. destruct (w_ret w t) eqn:E; try discriminate.
    intros H; inversion H. apply flush_st.
  Qed.

  Lemma wstep_run_complete w t st' :
    step (w_st w) t = Some st' -> exists w', wstep w (LRun t) = Some w' /\ w_st w' = st'.
  Proof.
    intros H. cbn. rewrite H. eexists; split; [reflexivity|]. apply run1_st.
  Qed.

  Theorem wreachable_reachable w : wreachable w -> reachable s0 scripts (w_st w).
  Proof.
    induction 1 as [|w l w' Hw IH Hs]; [constructor|]. destruct l as [t|t|t].
    - rewrite (wstep_inv_projects _ _ Hs). exact IH.
    - eapply R_step; [exact IH | apply wstep_run_projects; exact Hs].
    - rewrite (wstep_res_projects _ _ Hs). exact IH.
  Qed.

  Theorem reachable_wreachable st :
    reachable s0 scripts st -> exists w, wreachable w /\ w_st w = st.
  Proof.
    induction 1 as [|st t st' Hr (w & Hw & E) Hs].
    - exists winit; split; [constructor | reflexivity].
    - subst st. destruct (wstep_run_complete w _ Hs) as (w' & Hs' & E').
      exists w'; split; auto. eapply WR_step; eauto.
  Qed.

  Definition is_read_entry (x : nat * lcall) : Prop :=
    match snd x with LR _ => True | LW _ => False end.

  Definition writes_of (L : list (nat * lcall)) : list (nat * call S R) :=
    flat_map (fun x => match snd x with LW c => [(fst x, c)] | LR _ => [] end) L.

  Lemma writes_of_app a b : writes_of (a ++ b) = writes_of a ++ writes_of b.
  Proof. apply flat_map_app. Qed.

  Lemma spec_state_writes s L : spec_state s L = seq_state s (map snd (writes_of L)).
  Proof.
    revert s; induction L as [|[t [c|obs]] L IH]; intros s; auto.
    - unfold spec_state, seq_state in *. cbn. apply IH.
    - unfold spec_state, seq_state in *. cbn. apply IH.
  Qed.

  Lemma spec_state_reads s L : Forall is_read_entry L -> spec_state s L = s.
  Proof.
    revert s; induction L as [|[t [c|obs]] L IH]; intros s H; auto; inversion H; subst.
    - contradiction.
    - unfold spec_state in *. cbn. apply IH; auto.
  Qed.

  (* [sinv3 ... t]: the ghosts of thread t agree with its status in MutexAtomicity's state.
       - outside any section: no call in flight; or an invoked call that is the blocking call
         the thread will make next; or an unlocked call whose owed response [ret t] is the
         result the witness gives to its entry k;
       - inside a write section on c: c is the LAST entry of the order (nobody acquires
         while the write lock is held), at the index the phase records;
       - inside a read section: its entry (t, LR obs) is followed by read entries only (no
         writer acquires while a reader is inside), so the state every observation sees is
         still the sequential state [spec_state s0 L1] at its entry; [acc t] are the
         observations made so far, computed on that state. *)
  Definition sinv3 (st : state S R) (L : list (nat * lcall)) (ph : nat -> phase)
             (acc : nat -> list R) (ret : nat -> option res) (t : nat) : Prop :=
    match status st t with
    | Idle _ _ =>
        (ph t = PIdle /\ ret t = None) \/
        (exists c, ph t = PInv c /\ next_call st t = Some c /\ ret t = None) \/
        (exists k x, ph t = PAcq k /\ nth_error (spec_run s0 L) k = Some x /\
                     ret t = Some (op_res x))
    | InW c _ _ => exists L0, L = L0 ++ [(t, LW c)] /\ ph t = PAcq (length L0) /\ ret t = None
    | InR rem =>
        exists L1 L2 obs done,
          L = L1 ++ (t, LR obs) :: L2 /\ Forall is_read_entry L2 /\
          ph t = PAcq (length L1) /\ obs = done ++ rem /\
          acc t = map (fun f => f (spec_state s0 L1)) done /\ ret t = None
    end.

  Definition WInv (w : wstate) : Prop :=
    reachable s0 scripts (w_st w) /\
    writes_of (w_lin w) = g_acq (w_st w) /\
    (forall t, sinv3 (w_st w) (w_lin w) (w_ph w) (w_acc w) (w_ret w) t) /\
    Ginv (w_hist w) (w_lin w) (w_ph w).

  Lemma status_inw_wlk st t c rem r :
    reachable s0 scripts st -> status st t = InW c rem r -> wlk st = true.
  Proof.
    intros Hr H. apply (in_write_wlk (t:=t) (lock_inv_reachable Hr)).
    unfold status in H. destruct (nth_error (thr st) t) as [th|] eqn:E; [|discriminate].
    exists th; split; auto. unfold isW. rewrite H. reflexivity.
  Qed.

  Lemma status_inr st t rem :
    reachable s0 scripts st -> status st t = InR rem -> wlk st = false /\ 1 <= rdc st.
  Proof.
    intros Hr H. apply (in_read_rdc (t:=t) (lock_inv_reachable Hr)).
    unfold status in H. destruct (nth_error (thr st) t) as [th|] eqn:E; [|discriminate].
    exists th; split; auto. unfold isR. rewrite H. reflexivity.
  Qed.

  Lemma next_call_idle st t c : next_call st t = Some c -> status st t = Idle _ _.
  Proof.
    unfold next_call, status, next_iop. destruct (nth_error (thr st) t) as [th|]; [|discriminate].
    destruct (t_in th); auto; discriminate.
  Qed.

  Lemma Ginv_ext h L ph ph' : (forall t, ph t = ph' t) -> Ginv h L ph -> Ginv h L ph'.
  Proof. intros E [H1 H2]. split; auto. intros t. rewrite <- E. auto. Qed.

  (* A step of thread t: the other threads keep their entries and ghosts, and the order grows
     at most by the acquisition of t; what holds of t afterwards is shown case by case. *)
  Lemma sinv3_frame st st' t L L' ph ph' acc acc' ret ret' :
    reachable s0 scripts st ->
    (forall t', t' <> t -> nth_error (thr st') t' = nth_error (thr st) t') ->
    (forall t', sinv3 st L ph acc ret t') ->
    (forall t', t' <> t -> ph' t' = ph t') -> (forall t', t' <> t -> acc' t' = acc t') ->
    (forall t', t' <> t -> ret' t' = ret t') ->
    L' = L \/ (exists xs, L' = L ++ xs /\ wlk st = false /\
                          (rdc st = 0 \/ Forall is_read_entry xs)) ->
    sinv3 st' L' ph' acc' ret' t ->
    forall t', sinv3 st' L' ph' acc' ret' t'.
  Proof.
    intros Hr Hn H3 Hp Ha Hre HL Ht t'. destruct (Nat.eq_dec t' t) as [->|Hne]; [exact Ht|].
    assert (Es : status st' t' = status st t') by (unfold status; rewrite Hn; auto).
    assert (En : next_call st' t' = next_call st t') by (unfold next_call; rewrite Hn; auto).
    specialize (H3 t'). unfold sinv3 in *. rewrite Es, En, Hp, Ha, Hre by assumption.
    destruct HL as [->|(xs & -> & Hw & Hxs)]; [exact H3|].
    destruct (status st t') as [|c rem r|rem] eqn:E.
    - destruct H3 as [H|[H|(k & x & H1 & H2 & H4)]]; auto.
      right; right. exists k, x. repeat split; auto.
      rewrite spec_run_app, nth_error_app1; auto. apply nth_error_Some. congruence.
    - pose proof (status_inw_wlk _ Hr E). congruence.
    - destruct H3 as (L1 & L2 & obs & done & -> & HF & H1 & H2 & H4 & H5).
      exists L1, (L2 ++ xs), obs, done. rewrite <- app_assoc. repeat split; auto.
      apply Forall_app; split; auto. destruct Hxs as [Hd|]; auto.
      destruct (status_inr _ Hr E). lia.
  Qed.

  Lemma Ginv_acquire h L ph t c :
    Ginv h L ph -> ph t = PIdle \/ ph t = PInv c ->
    Ginv (match ph t with PIdle => h ++ [EInv t c] | _ => h end) (L ++ [(t, c)])
         (upd_fun ph t (PAcq (length L))).
  Proof.
    intros G [Hp|Hp]; rewrite Hp.
    - eapply Ginv_ext; [|apply Ginv_lin; [apply Ginv_inv; eauto | apply upd_fun_eq]].
      intros x. unfold upd_fun. destruct (x =? t); auto.
    - apply Ginv_lin; auto.
  Qed.

  Lemma WInv_init : WInv winit.
  Proof.
    split; [constructor|]. split; [reflexivity|]. split; [|apply Ginv_init].
    intros t. unfold sinv3, status. cbn.
    destruct (nth_error _ t) as [th|] eqn:E; auto.
    apply nth_error_In in E. apply in_map_iff in E. destruct E as (q & <- & _). cbn. auto.
  Qed.

  Lemma WInv_flush w t : WInv w -> WInv (flush w t) /\ w_ret (flush w t) t = None.
  Proof.
    intros (Hr & Hw & H3 & HG). unfold flush. destruct (w_ret w t) as [r|] eqn:Hret.
    2:{ split; [exact (conj Hr (conj Hw (conj H3 HG))) | exact Hret]. }
    cbn [w_ret]. split; [|apply upd_fun_eq].
    unfold WInv; cbn [w_st w_hist w_lin w_ph w_acc w_ret].
    pose proof (H3 t) as H3t. unfold sinv3 in H3t.
    assert (Hidle : status (w_st w) t = Idle _ _ /\
                    exists k x, w_ph w t = PAcq k /\
                      nth_error (spec_run s0 (w_lin w)) k = Some x /\ r = op_res x).
    { destruct (status (w_st w) t) as [|c rem r0|rem].
      - split; auto. destruct H3t as [[_ H]|[(c & _ & _ & H)|(k & x & H1 & H2 & H4)]];
          try congruence. exists k, x. repeat split; auto. congruence.
      - destruct H3t as (L0 & _ & _ & H). congruence.
      - destruct H3t as (L1 & L2 & obs & done & _ & _ & _ & _ & _ & H). congruence. }
    destruct Hidle as (Hidle & k & x & Hp & Hx & ->).
    split; [auto|]. split; [auto|]. split.
    - apply sinv3_frame with (st := w_st w) (t := t) (L := w_lin w) (ph := w_ph w)
                             (acc := w_acc w) (ret := w_ret w); auto using upd_fun_ne.
      unfold sinv3. rewrite Hidle. left. rewrite !upd_fun_eq. auto.
    - apply (@Ginv_res _ _ _ t _ _ HG Hp Hx).
  Qed.

  Lemma WInv_run1 w t st' :
    WInv w -> w_ret w t = None -> step (w_st w) t = Some st' ->
    WInv (run1 w st' t (act (w_st w) t)).
  Proof.
    intros (Hr & Hw & H3 & HG) Hret Hst.
    destruct (step_effect _ _ Hst) as (th & th' & Hth & Hthr & Heff).
    split; [rewrite run1_st; eapply R_step; eauto|].
    assert (Hst_t : status st' t = t_in th').
    { unfold status. rewrite Hthr. erewrite nth_upd_eq; eauto. }
    assert (Hidle : t_in th = Idle _ _ ->
              w_ph w t = PIdle \/ exists c, w_ph w t = PInv c /\ next_call (w_st w) t = Some c).
    { intros Hi. pose proof (H3 t) as H3t. unfold sinv3, status in H3t. rewrite Hth, Hi in H3t.
      destruct H3t as [[Hp _]|[(c & Hp & Hnc & _)|(k & x & _ & _ & Hx)]]; eauto. congruence. }
    pose proof (H3 t) as H3t. unfold sinv3, status in H3t. rewrite Hth in H3t.
    assert (Hframe := fun L' ph' acc' ret' =>
              @sinv3_frame (w_st w) st' t (w_lin w) L' (w_ph w) ph' (w_acc w) acc'
                           (w_ret w) ret' Hr
                           (fun t' Hne => eq_trans (f_equal (fun l => nth_error l t') Hthr)
                                                   (nth_upd_ne _ _ (not_eq_sym Hne))) H3).
    destruct (act (w_st w) t) as [|c|obs|r|v|] eqn:Hact;
      unfold run1, acquire, owe; cbn [w_st w_hist w_lin w_ph w_acc w_ret].
    - destruct Heff as [Hg Hcase]. split; [congruence|]. split; [|exact HG].
      apply Hframe; auto. unfold sinv3. rewrite Hst_t.
      destruct Hcase as [(Hi & Hi' & Hnn)|(c & m & rem & r & r' & Hi & Hi')]; rewrite Hi'.
      + left. split; [|exact Hret]. destruct (Hidle Hi) as [Hp|(c & Hp & Hnc)]; [exact Hp|].
        congruence.
      + rewrite Hi in H3t. exact H3t.
    - destruct Heff as (Hi & (try & Hni) & Hi' & Hg & Hwl & Hrd).
      split; [rewrite writes_of_app, Hw, Hg; reflexivity|].
      assert (Hp : w_ph w t = PIdle \/ w_ph w t = PInv (LW c)).
      { destruct (Hidle Hi) as [Hp|(c0 & Hp & Hnc)]; [left; exact Hp | right].
        unfold next_call in Hnc. rewrite Hth, Hni in Hnc.
        destruct try; inversion Hnc; subst; exact Hp. }
      split; [|apply Ginv_acquire; auto].
      apply Hframe; auto using upd_fun_ne.
      + right. exists [(t, LW c)]. auto.
      + unfold sinv3. rewrite Hst_t, Hi'. exists (w_lin w). rewrite upd_fun_eq. auto.
    - destruct Heff as (Hi & Hni & Hi' & Hg & Hwl).
      split; [rewrite writes_of_app, Hw, Hg; cbn; apply app_nil_r|].
      assert (Hp : w_ph w t = PIdle \/ w_ph w t = PInv (LR obs)).
      { destruct (Hidle Hi) as [Hp|(c0 & Hp & Hnc)]; [left; exact Hp | right].
        unfold next_call in Hnc. rewrite Hth, Hni in Hnc. inversion Hnc; subst; exact Hp. }
      split; [|apply Ginv_acquire; auto].
      apply Hframe; auto using upd_fun_ne.
      + right. exists [(t, LR obs)]. repeat split; auto. right. repeat constructor.
      + unfold sinv3. rewrite Hst_t, Hi'. exists (w_lin w), [], obs, [].
        rewrite !upd_fun_eq. repeat split; auto.
    - (* Unlock: the response owed carries the sequential result *)
      destruct Heff as ((c & Hi) & Hi' & Hg).
      rewrite Hi in H3t. destruct H3t as (L0 & HL & Hp & _).
      split; [congruence|]. split; [|exact HG].
      apply Hframe; auto using upd_fun_ne.
      assert (Hres : snd (body c (spec_state s0 L0)) = r).
      { destruct (atom_inv_reachable Hr) as [_ A2].
        destruct (A2 t c [] r) as (acq' & done & Ha & Hc & Hrun & Hret').
        { exists th; auto. }
        rewrite app_nil_r in Hc. rewrite <- Hw, HL, writes_of_app in Ha. cbn in Ha.
        apply app_inj_tail in Ha as [Ha _].
        unfold body. rewrite spec_state_writes, Ha, Hc, Hrun. reflexivity. }
      pose proof (spec_run_nth s0 L0 (t, LW c) []) as Hx. rewrite <- HL in Hx.
      unfold sinv3. rewrite Hst_t, Hi'. right; right.
      eexists; eexists. split; [exact Hp|]. split; [exact Hx|].
      rewrite upd_fun_eq. cbn. rewrite Hres. reflexivity.
    - destruct Heff as ((f & rem & Hi & Hi' & Hv) & Hg).
      rewrite Hi in H3t.
      destruct H3t as (L1 & L2 & obs & done & HL & HF & Hp & Hobs & Hacc & Hrt).
      split; [congruence|]. split; [|exact HG].
      apply Hframe; auto using upd_fun_ne.
      unfold sinv3. rewrite Hst_t, Hi'. exists L1, L2, obs, (done ++ [f]).
      rewrite upd_fun_eq. repeat split; auto.
      + rewrite <- app_assoc. exact Hobs.
      + rewrite map_app, Hacc. cbn. subst v. do 3 f_equal.
        assert (Hs : status (w_st w) t = InR (f :: rem)) by (unfold status; rewrite Hth; exact Hi).
        destruct (status_inr _ Hr Hs) as [Hwl _].
        destruct (atom_inv_reachable Hr) as [A1 _]. destruct (A1 Hwl) as [Hsh _].
        rewrite Hsh, <- Hw, <- spec_state_writes, HL, spec_state_app.
        apply spec_state_reads. constructor; auto. exact I.
    - (* RUnlock: the response owed carries the observed values *)
      destruct Heff as (Hi & Hi' & Hg).
      rewrite Hi in H3t.
      destruct H3t as (L1 & L2 & obs & done & HL & HF & Hp & Hobs & Hacc & Hrt).
      split; [congruence|]. split; [|exact HG].
      apply Hframe; auto using upd_fun_ne.
      pose proof (spec_run_nth s0 L1 (t, LR obs) L2) as Hx. rewrite <- HL in Hx.
      unfold sinv3. rewrite Hst_t, Hi'. right; right.
      eexists; eexists. split; [exact Hp|]. split; [exact Hx|].
      rewrite upd_fun_eq. cbn. rewrite app_nil_r in Hobs. subst obs.
      rewrite Hacc. reflexivity.
  Qed.

  Lemma WInv_step w l w' : WInv w -> wstep w l = Some w' -> WInv w'.
  Proof.
    intros HW Hs. destruct l as [t|t|t].
    - destruct HW as (Hr & Hw & H3 & HG).
      cbn in Hs. destruct (w_ph w t) eqn:Hph; try discriminate.
      destruct (next_call (w_st w) t) as [c|] eqn:Hnc; try discriminate.
      inversion Hs; subst w'; clear Hs. unfold WInv; cbn [w_st w_hist w_lin w_ph w_acc w_ret].
      split; [auto|]. split; [auto|]. split.
      + intros t'. destruct (Nat.eq_dec t' t) as [->|Hne].
        * pose proof (H3 t) as H3t. unfold sinv3 in *.
          rewrite (next_call_idle _ _ Hnc) in *. right; left. exists c.
          rewrite upd_fun_eq. repeat split; auto.
          destruct H3t as [[_ H]|[(c' & _ & _ & H)|(k & x & H & _)]]; auto. congruence.
        * specialize (H3 t'). unfold sinv3 in *. rewrite upd_fun_ne by auto. exact H3.
      + apply Ginv_inv; auto.
    - cbn in Hs. destruct (step (w_st w) t) as [st'|] eqn:Hst; [|discriminate].
      inversion Hs; subst w'; clear Hs.
      destruct (WInv_flush t HW) as [HW1 Hret1].
      rewrite <- (flush_st w t) in Hst |- *. apply WInv_run1; auto.
    - cbn in Hs. destruct (w_ret w t); [|discriminate]. inversion Hs; subst w'.
      apply WInv_flush; auto.
  Qed.

  Lemma WInv_reachable w : wreachable w -> WInv w.
  Proof. induction 1; [apply WInv_init | eapply WInv_step; eauto]. Qed.

  (* Every history of the instrumented system is linearizable; the witness is the order of
     lock acquisitions [w_lin] (write Lock/TryLock successes and RLock successes), each call
     carrying the result the SEQUENTIAL object gives it; the write acquisitions in it are
     exactly MutexAtomicity's [g_acq]. *)
  Theorem lock_protected_linearizable w : wreachable w ->
    linearizable_with s0 (w_hist w) (spec_run s0 (w_lin w)) /\
    writes_of (w_lin w) = g_acq (w_st w).
  Proof.
    intros H. destruct (WInv_reachable H) as (_ & Hw & _ & HG). split; auto.
    eapply Ginv_linearizable; eauto.
  Qed.

  Corollary lock_protected_history_linearizable w :
    wreachable w -> linearizable s0 (w_hist w).
  Proof. intros H. eexists. apply (lock_protected_linearizable H). Qed.

  (* stated on MutexAtomicity's own reachability: every reachable state is the projection of
     an instrumented run, and every instrumented run over it has a linearizable history *)
  Corollary lock_protected_linearizable_reachable st :
    reachable s0 scripts st ->
    (exists w, wreachable w /\ w_st w = st) /\
    (forall w, wreachable w -> w_st w = st ->
       linearizable_with s0 (w_hist w) (spec_run s0 (w_lin w)) /\
       writes_of (w_lin w) = g_acq st).
  Proof.
    intros H. split; [apply reachable_wreachable; auto|].
    intros w Hw <-. apply lock_protected_linearizable; auto.
  Qed.

  (* a read-locked call is linearized at its RLock acquisition: after exactly the k write
     sections acquired before it — the k of [MutexAtomicity.reader_observations] — and its
     result is the list of its observation functions applied to that sequential state *)
  Theorem read_linearization_point w L1 t obs L2 :
    wreachable w -> w_lin w = L1 ++ (t, LR obs) :: L2 ->
    let k := length (writes_of L1) in
    k <= length (g_acq (w_st w)) /\
    nth_error (spec_run s0 (w_lin w)) (length L1) =
      Some (t, LR obs,
            RR (map (fun f => f (seq_state s0 (map snd (firstn k (g_acq (w_st w)))))) obs)).
  Proof.
    intros H HL k. destruct (WInv_reachable H) as (_ & Hw & _ & _).
    rewrite HL, writes_of_app in Hw. rewrite <- Hw. split.
    - rewrite app_length. lia.
    - rewrite HL, spec_run_nth. cbn [fst snd apply].
      subst k. rewrite firstn_app, Nat.sub_diag, firstn_all. cbn [firstn]. rewrite app_nil_r.
      rewrite <- spec_state_writes. reflexivity.
  Qed.

  (* a write-locked call is linearized at its Lock acquisition, after the write sections
     acquired before it; its result is its body's result on that sequential state *)
  Theorem write_linearization_point w L1 t c L2 :
    wreachable w -> w_lin w = L1 ++ (t, LW c) :: L2 ->
    let k := length (writes_of L1) in
    nth_error (g_acq (w_st w)) k = Some (t, c) /\
    nth_error (spec_run s0 (w_lin w)) (length L1) =
      Some (t, LW c,
            RW (snd (body c (seq_state s0 (map snd (firstn k (g_acq (w_st w)))))))).
  Proof.
    intros H HL k. destruct (WInv_reachable H) as (_ & Hw & _ & _).
    rewrite HL, writes_of_app in Hw. rewrite <- Hw. split.
    - rewrite nth_error_app2 by (subst k; lia). subst k. rewrite Nat.sub_diag. reflexivity.
    - rewrite HL, spec_run_nth. cbn [fst snd apply].
      subst k. rewrite firstn_app, Nat.sub_diag, firstn_all. cbn [firstn]. rewrite app_nil_r.
      rewrite <- spec_state_writes. reflexivity.
  Qed.

  (* recording the response AT the Unlock step is the schedule [LRun t; LRes t] *)
  Lemma unlock_then_respond w t st' r :
    step (w_st w) t = Some st' -> act (w_st w) t = AUnlock r ->
    exists w1 w2, wstep w (LRun t) = Some w1 /\ wstep w1 (LRes t) = Some w2 /\
                  w_st w2 = st' /\ w_hist w2 = w_hist w1 ++ [ERes t (RW r)].
  Proof.
    intros Hs Ha.
    set (w1 := owe (flush w t) st' t (RW r)).
    assert (H1 : wstep w (LRun t) = Some w1) by (unfold wstep; rewrite Hs, Ha; reflexivity).
    assert (Hr1 : w_ret w1 t = Some (RW r)) by (unfold w1, owe; cbn [w_ret]; apply upd_fun_eq).
    exists w1, (flush w1 t). split; auto. split; [unfold wstep; rewrite Hr1; reflexivity|].
    unfold flush. rewrite Hr1. cbn [w_st w_hist]. split; reflexivity.
  Qed.

  Lemma flush_lin w t : w_lin (flush w t) = w_lin w.
  Proof. unfold flush. destruct (w_ret w t); reflexivity. Qed.

  Section IopInv.
    Variable P : iop S R -> Prop.
    (* [pi_op] is [MutexAtomicity.op_sat P] and [pi_scripts] the hypothesis of
       [state_sat_reachable]; they are written out for the statements that mention them *)
    Definition pi_op (o : op S R) : Prop :=
      match o with OIn i => P i | OOuter _ b => Forall P b end.
    Definition pi_scripts : Prop := Forall (Forall pi_op) scripts.

    Lemma pi_next_iop th i : thread_sat P th -> next_iop th = Some i -> P i.
    Proof.
      intros [H1 H2]. unfold next_iop. destruct (t_in th); try discriminate.
      destruct (t_outer th) as [[|j b]|].
      - discriminate.
      - intros E; inversion E; subst. inversion H2; auto.
      - destruct (t_prog th) as [|[j|try b] p]; try discriminate.
        intros E; inversion E; subst. inversion H1; auto.
    Qed.

    Definition pi_entry (x : nat * lcall) : Prop :=
      match snd x with
      | LW c => exists try, P (IWrite try c)
      | LR obs => P (IRead obs)
      end.

    Lemma pi_lin w : pi_scripts -> wreachable w -> Forall pi_entry (w_lin w).
    Proof.
      intros Hs. induction 1 as [|w l w' Hw IH Hst]; [constructor|].
      destruct l as [t|t|t]; cbn in Hst.
      - destruct (w_ph w t); try discriminate.
        destruct (next_call (w_st w) t); try discriminate. inversion Hst; subst; exact IH.
      - destruct (step (w_st w) t) as [st'|] eqn:Hs'; [|discriminate].
        inversion Hst; subst w'; clear Hst.
        destruct (step_effect _ _ Hs') as (th & th' & Hth & _ & Heff).
        pose proof (proj1 (state_sat_reachable (Q:=P) Hs (wreachable_reachable Hw)) _ _ Hth) as Hpi.
        destruct (act (w_st w) t) as [|c|obs|r|v|]; cbn [run1 acquire owe w_lin];
          rewrite flush_lin; auto.
        + apply Forall_app; split; auto. constructor; auto.
          destruct Heff as (_ & (try & Hni) & _). exists try. exact (pi_next_iop Hpi Hni).
        + apply Forall_app; split; auto. constructor; auto.
          destruct Heff as (_ & Hni & _). exact (pi_next_iop Hpi Hni).
      - destruct (w_ret w t) eqn:E; [|discriminate]. inversion Hst; subst w'.
        rewrite flush_lin. exact IH.
    Qed.
  End IopInv.

  Definition nr_iop (i : iop S R) : Prop := match i with IRead _ => False | _ => True end.
  Definition write_only : Prop := pi_scripts nr_iop.

  Definition lift_w (tc : nat * call S R) : nat * lcall := (fst tc, LW (snd tc)).

  Lemma write_only_lin w :
    write_only -> wreachable w -> w_lin w = map lift_w (writes_of (w_lin w)).
  Proof.
    intros Hs H. pose proof (pi_lin Hs H) as HF.
    induction (w_lin w) as [|[t [c|obs]] L IH]; auto; inversion HF; subst.
    - cbn. f_equal. apply IH; auto.
    - contradiction.
  Qed.

  Lemma spec_run_lift s acq :
    map (fun x => (op_tid x, op_res x)) (spec_run s (map lift_w acq)) =
    map (fun tr => (fst tr, RW (snd tr))) (seq_rets s acq).
  Proof.
    revert s; induction acq as [|[t c] acq IH]; intros s; cbn; auto.
    f_equal. apply IH.
  Qed.

  (* Scripts whose calls are all write-locked.  The witness is precisely
     MutexAtomicity's acquisition order [g_acq], and the results are [seq_rets s0 g_acq],
     the results of the sequential execution of [atomicity]. *)
  Theorem lock_protected_linearizable_writes w :
    write_only -> wreachable w ->
    let W := spec_run s0 (map lift_w (g_acq (w_st w))) in
    linearizable_with s0 (w_hist w) W /\
    map (fun x => (op_tid x, op_res x)) W =
      map (fun tr => (fst tr, RW (snd tr))) (seq_rets s0 (g_acq (w_st w))).
  Proof.
    intros Hs H W. destruct (lock_protected_linearizable H) as [HL Hw].
    subst W. rewrite <- Hw, <- (write_only_lin Hs H). split; auto.
    rewrite (write_only_lin Hs H) at 1. rewrite Hw. apply spec_run_lift.
  Qed.

  (* the per-thread index of the operation at position i of the order ts *)
  Definition op_index (ts : list nat) (i : nat) : nat := cnt (nth i ts 0) (firstn i ts).
  (* the time (position in h) of its invocation, and of its response; an operation that has
     not responded yet gets the time [length h], after every event of h *)
  Definition inv_pos (h : list event) (ts : list nat) (i : nat) : nat :=
    match nth_pos (is_inv (nth i ts 0)) h (op_index ts i) with Some q => q | None => 0 end.
  Definition ret_pos (h : list event) (ts : list nat) (i : nat) : nat :=
    match nth_pos (is_res (nth i ts 0)) h (op_index ts i) with
    | Some p => p
    | None => length h
    end.

  Lemma is_inv_inv t e : is_inv t e = true -> exists c, e = EInv t c.
  Proof.
    destruct e as [t' c|t' r]; cbn; intros H; [|discriminate].
    apply Nat.eqb_eq in H. subst. eauto.
  Qed.
  Lemma is_res_inv t e : is_res t e = true -> exists r, e = ERes t r.
  Proof.
    destruct e as [t' c|t' r]; cbn; intros H; [discriminate|].
    apply Nat.eqb_eq in H. subst. eauto.
  Qed.

  Lemma is_op_index ts i : i < length ts -> is_op ts i (nth i ts 0) (op_index ts i).
  Proof. intros H. split; auto. apply nth_error_nth'. auto. Qed.

  (* real time in timestamp form: nobody placed later in the order responded before an earlier
     one was invoked *)
  Theorem rt_timestamps h ts i j :
    rt_respected h ts -> i < j -> j < length ts -> ~ ret_pos h ts j < inv_pos h ts i.
  Proof.
    intros Hrt Hij Hj Hlt. unfold ret_pos, inv_pos in Hlt.
    destruct (nth_pos (is_inv (nth i ts 0)) h (op_index ts i)) as [q|] eqn:Eq; [|lia].
    apply nth_pos_sound in Eq as (x & Hx & Fx & Cx).
    destruct (nth_pos (is_res (nth j ts 0)) h (op_index ts j)) as [p|] eqn:Ep.
    2:{ assert (q < length h) by (apply nth_error_Some; congruence). lia. }
    apply nth_pos_sound in Ep as (y & Hy & Fy & Cy).
    apply is_inv_inv in Fx as (c & ->). apply is_res_inv in Fy as (r & ->).
    destruct (Hrt p q _ r _ c i Hy Hx Hlt) as (i' & Hi' & Hop).
    { split; [apply nth_error_nth'; lia | symmetry; exact Cx]. }
    unfold rcount in Hop. rewrite Cy in Hop.
    pose proof (is_op_unique Hop (is_op_index ts Hj)). lia.
  Qed.

  Lemma res_filter_seqh t W :
    filter (is_res t) (seqh W) =
    map (fun x => ERes t (op_res x)) (filter (fun x => op_tid x =? t) W).
  Proof.
    induction W as [|x W IH]; auto.
    change (seqh (x :: W))
      with ([EInv (op_tid x) (op_call x); ERes (op_tid x) (op_res x)] ++ seqh W).
    rewrite filter_app, IH. cbn [filter is_res].
    destruct (op_tid x =? t) eqn:E; cbn [map app]; auto.
    apply Nat.eqb_eq in E. rewrite E. reflexivity.
  Qed.

  Lemma cnt_map_tid t (l : list lop) :
    cnt t (map op_tid l) = length (filter (fun x => op_tid x =? t) l).
  Proof.
    unfold cnt. induction l as [|x l IH]; auto. cbn. rewrite (Nat.eqb_sym t).
    destruct (op_tid x =? t); cbn; auto.
  Qed.

  (* the results observed: the response event of the k-th call of thread t
     carries the result of the k-th operation of t in the witness *)
  Lemma witness_result h W t p r i x :
    thread_equiv t h W -> nth_error h p = Some (ERes t r) ->
    is_op (map op_tid W) i t (rcount t (firstn p h)) -> nth_error W i = Some x ->
    op_res x = r.
  Proof.
    intros Heq Hp [Hi Hk] Hx.
    set (k := rcount t (firstn p h)) in *.
    assert (H1 : nth_error (filter (is_res t) h) k = Some (ERes t r)).
    { apply nth_error_filter; auto. cbn. apply Nat.eqb_refl. }
    assert (H2 : nth_error (filter (is_res t) (seqh W)) k = Some (ERes t r)).
    { rewrite <- (res_filter_proj t h) in H1. rewrite <- (res_filter_proj t (seqh W)).
      destruct Heq as [E|[(c & E)|(r' & E)]].
      - rewrite <- E. exact H1.
      - rewrite E, filter_app in H1. cbn in H1. rewrite app_nil_r in H1. exact H1.
      - rewrite <- E, filter_app. rewrite nth_error_app1; [exact H1|].
        apply nth_error_Some. congruence. }
    rewrite res_filter_seqh in H2.
    assert (H3 : nth_error (filter (fun x => op_tid x =? t) W) k = Some x).
    { assert (Ht : op_tid x = t).
      { rewrite (map_nth_error op_tid _ _ Hx) in Hi. congruence. }
      rewrite firstn_map, cnt_map_tid in Hk. rewrite <- Hk.
      apply nth_error_filter; auto. apply Nat.eqb_eq; auto. }
    rewrite (map_nth_error _ _ _ H3) in H2. inversion H2; auto.
  Qed.

  Lemma thread_equiv_counts t h W :
    thread_equiv t h W ->
    rcount t h <= cnt t (map op_tid W) /\ cnt t (map op_tid W) <= icount t h.
  Proof.
    intros [E|[(c & E)|(r & E)]];
      apply (proj_eq_counts t) in E; autorewrite with counts in E; cbn in E; lia.
  Qed.
End Lin.

Arguments ERes {S R} t r.
Arguments EInv {S R} t c.

(* non-vacuity: two writers and one reader, pairwise overlapping calls *)
Module Example3L.
  (* the object: a counter; [add k] adds k in TWO micro-steps and returns the new value *)
  Definition add (k : nat) : call nat nat :=
    {| c_init := 0;
       c_steps := [ (fun s r => (s + k, r)); (fun s r => (s, s)) ] |}.

  Definition scripts : list (list (op nat nat)) :=
    [ (* T0, writer *) [ OIn (IWrite false (add 1)) ];
      (* T1, writer *) [ OIn (IWrite false (add 10)) ];
      (* T2, reader *) [ OIn (IRead [fun s => s]) ] ].

  Definition sched : list label :=
    [ LInv 0; LInv 1; LInv 2;           (* all three calls invoked: pairwise overlapping *)
      LRun 1;                           (* T1 wins the lock *)
      LRun 0; LRun 2;                   (* T0 and T2 blocked *)
      LRun 1; LRun 1; LRun 1;           (* T1: two micro-steps, Unlock (response not delivered) *)
      LRun 2; LRun 2; LRun 2;           (* T2: RLock, observes 10, RUnlock *)
      LRes 2;                           (* the reader's call returns first *)
      LRun 0; LRun 0; LRun 0; LRun 0;   (* T0: Lock, two micro-steps, Unlock *)
      LRes 0;                           (* T0's call returns *)
      LRes 1 ].                         (* T1's call returns last *)

  Definition final := wexec sched (winit 0 scripts).

  (* (thread, 0 = invoke write / 1 = invoke read / 2 = response, returned values) *)
  Definition ev_view (e : event nat nat) : nat * nat * list nat :=
    match e with
    | EInv t (LW _) => (t, 0, [])
    | EInv t (LR _) => (t, 1, [])
    | ERes t (RW r) => (t, 2, [r])
    | ERes t (RR rs) => (t, 2, rs)
    end.
  Definition res_view (r : res nat) : list nat := match r with RW r => [r] | RR rs => rs end.
  Definition resp_order (h : list (event nat nat)) : list nat :=
    flat_map (fun e => match e with ERes t _ => [t] | _ => [] end) h.
  Definition inv_order (h : list (event nat nat)) : list nat :=
    flat_map (fun e => match e with EInv t _ => [t] | _ => [] end) h.

  Example run_history :
    map ev_view (w_hist final) =
    [ (0, 0, []); (1, 0, []); (2, 1, []);          (* three invocations ...            *)
      (2, 2, [10]); (0, 2, [11]); (1, 2, [10]) ].  (* ... before any response: overlap *)
  Proof. vm_compute. reflexivity. Qed.

  Example run_witness :
    map (fun x => (op_tid x, res_view (op_res x))) (spec_run 0 (w_lin final)) =
    [ (1, [10]); (2, [10]); (0, [11]) ]
    /\ sh (w_st final) = 11
    /\ map fst (g_acq (w_st final)) = [1; 0].
  Proof. vm_compute. repeat split; reflexivity. Qed.

  (* the witness order differs from the response order AND from the invocation order *)
  Example run_orders :
    map fst (w_lin final) = [1; 2; 0] /\
    resp_order (w_hist final) = [2; 0; 1] /\
    inv_order (w_hist final) = [0; 1; 2].
  Proof. vm_compute. repeat split; reflexivity. Qed.

  Example run_wreachable : wreachable 0 scripts final.
  Proof. apply wexec_reachable. constructor. Qed.

  Example run_linearizable :
    linearizable_with 0 (w_hist final) (spec_run 0 (w_lin final)).
  Proof. apply (lock_protected_linearizable run_wreachable). Qed.

  (* If the response is recorded AT the Unlock / RUnlock step (every unlocking [LRun t] is
     immediately followed by [LRes t]), then with two writers and ONE reader the sections are
     totally ordered in time, and one expects the response order to follow the witness order.
     This is not proved in general; [response_order_differs_refuted] evaluates it for this one
     system: [explore] walks the tree of [moves] (an invocation or a run-and-respond step of
     thread 0, 1 or 2) from the initial state to depth 14, where no move is left, and checks
     [resp_follows_witness] at every node.  That [moves] lists every step of such a schedule
     is by construction of [moves], not by a theorem relating it to [wreachable].  (The orders
     do differ as soon as the response is recorded when the call returns to its caller, as in
     [run_orders] above, or with two readers, as in [Example3R] below.) *)
  Definition run_res (w : wstate nat nat) (t : nat) : option (wstate nat nat) :=
    match wstep w (LRun t) with
    | Some w1 => match wstep w1 (LRes t) with Some w2 => Some w2 | None => Some w1 end
    | None => None
    end.
  Definition opt_list (A : Type) (o : option A) : list A :=
    match o with Some x => [x] | None => [] end.
  Definition moves (w : wstate nat nat) : list (wstate nat nat) :=
    flat_map (fun t => opt_list (wstep w (LInv t)) ++ opt_list (run_res w t)) [0; 1; 2].
  Fixpoint prefix_eqb (a b : list nat) : bool :=
    match a, b with
    | [], _ => true
    | x :: a', y :: b' => (x =? y) && prefix_eqb a' b'
    | _ :: _, [] => false
    end.
  Definition resp_follows_witness (w : wstate nat nat) : bool :=
    prefix_eqb (resp_order (w_hist w)) (map fst (w_lin w)).
  Fixpoint explore (fuel : nat) (w : wstate nat nat) : bool :=
    resp_follows_witness w &&
    match fuel with
    | O => match moves w with [] => true | _ => false end    (* fuel must not run out *)
    | Datatypes.S f => forallb (explore f) (moves w)
    end.

  Example response_order_differs_refuted : explore 14 (winit 0 scripts) = true.
  Proof. vm_compute. reflexivity. Qed.
End Example3L.

(* one writer and TWO readers: even with the response recorded at the (R)Unlock step itself the
   witness order (acquisitions) differs from the response order, because read sections overlap *)
Module Example3R.
  Import Example3L.
  Definition scripts : list (list (op nat nat)) :=
    [ (* T0, writer *) [ OIn (IWrite false (add 1)) ];
      (* T1, reader *) [ OIn (IRead [fun s => s]) ];
      (* T2, reader *) [ OIn (IRead [fun s => s; fun s => s + 100]) ] ].

  Definition sched : list label :=
    [ LInv 0;                            (* the writer starts trying to acquire *)
      LRun 1; LRun 2;                    (* both readers RLock (invoked and acquired at once) *)
      LRun 0;                            (* writer blocked *)
      LRun 2; LRun 2; LRun 2; LRes 2;    (* T2 observes twice, RUnlock + response *)
      LRun 1; LRun 1; LRes 1;            (* T1 observes, RUnlock + response *)
      LRun 0; LRun 0; LRun 0; LRun 0; LRes 0 ].

  Definition final := wexec sched (winit 0 scripts).

  Example run_orders :
    map fst (w_lin final) = [1; 2; 0] /\
    resp_order (w_hist final) = [2; 1; 0] /\
    map ev_view (w_hist final) =
      [ (0, 0, []); (1, 1, []); (2, 1, []); (2, 2, [0; 100]); (1, 2, [0]); (0, 2, [1]) ] /\
    map (fun x => (op_tid x, res_view (op_res x))) (spec_run 0 (w_lin final)) =
      [ (1, [0]); (2, [0; 100]); (0, [1]) ].
  Proof. vm_compute. repeat split; reflexivity. Qed.

  Example run_linearizable :
    linearizable_with 0 (w_hist final) (spec_run 0 (w_lin final)).
  Proof.
    apply (@lock_protected_linearizable _ _ 0 scripts). apply wexec_reachable. constructor.
  Qed.
End Example3R.

(* One key of the cache as a lock-protected object: S := option Z (the key's value, if
   present), calls Set v / Delete / Get / Exists and the environment call Evict (eviction or
   an admission rejection drops the value).  A call's result is the [LinCheck.kop] the test
   harness would log for it ([None] for Evict, which is not a client call). *)
Module LossyRegister.
  Definition V := option Z.
  Definition Rr := option LinCheck.kop.
  Definition is_some (s : V) : bool := match s with Some _ => true | None => false end.

  Definition set_f (v : Z) (s : V) : V * Rr := (Some v, Some (LinCheck.KSet v false)).
  Definition set_err_f (v : Z) (s : V) : V * Rr := (s, Some (LinCheck.KSet v true)).
  Definition del_f (s : V) : V * Rr := (None, Some (LinCheck.KDelete (is_some s))).
  Definition get_f (s : V) : V * Rr := (s, Some (LinCheck.KGet s)).
  Definition exists_f (s : V) : V * Rr := (s, Some (LinCheck.KExists (is_some s))).
  Definition evict_f (s : V) : V * Rr := (None, None).
  Definition get_obs (s : V) : Rr := Some (LinCheck.KGet s).
  Definition exists_obs (s : V) : Rr := Some (LinCheck.KExists (is_some s)).

  (* ANY write-locked body (any number of micro-steps) that computes one of these functions *)
  Definition reg_body (c : call V Rr) : Prop :=
    (exists v, forall s, body c s = set_f v s) \/
    (exists v, forall s, body c s = set_err_f v s) \/
    (forall s, body c s = del_f s) \/
    (forall s, body c s = get_f s) \/
    (forall s, body c s = exists_f s) \/
    (forall s, body c s = evict_f s).

  (* Get / Exists may also run under the read lock *)
  Definition reg_lcall (cl : lcall V Rr) : Prop :=
    match cl with
    | LW c => reg_body c
    | LR obs => obs = [get_obs] \/ obs = [exists_obs]
    end.

  Definition reg_iop (i : iop V Rr) : Prop :=
    match i with
    | IWrite _ c => reg_body c
    | IRead obs => obs = [get_obs] \/ obs = [exists_obs]
    | _ => True
    end.

  Definition reg_scripts (scripts : list (list (op V Rr))) : Prop := pi_scripts scripts reg_iop.

  Definition kop_of (r : res Rr) : option LinCheck.kop :=
    match r with
    | RW o => o
    | RR [o] => o
    | RR _ => None
    end.

  (* one call of the sequential object is one [reg_step], or a silent loss *)
  Lemma reg_apply cl s : reg_lcall cl ->
    match kop_of (snd (apply cl s)) with
    | Some k => LinCheck.reg_step s k (fst (apply cl s))
    | None => LinCheck.le (fst (apply cl s)) s
    end.
  Proof.
    destruct cl as [c|obs]; cbn [reg_lcall apply fst snd kop_of].
    - intros [(v & H)|[(v & H)|[H|[H|[H|H]]]]]; rewrite H; cbn.
      + constructor.
      + constructor.
      + destruct s; constructor.
      + constructor.
      + destruct s; constructor.
      + right; reflexivity.
    - intros [->| ->]; cbn.
      + constructor.
      + destruct s; constructor.
  Qed.

  (* the timestamped calls, in witness order: one [LinCheck.call] per operation of W that
     logs a kop; invocation / response times are positions in the history h *)
  Fixpoint calls_from (h : list (event V Rr)) (ts : list nat) (i : nat) (W : list (lop V Rr))
    : list LinCheck.call :=
    match W with
    | [] => []
    | x :: W' =>
        match kop_of (op_res x) with
        | Some k => [LinCheck.mkCall (Z.of_nat (inv_pos h ts i)) (Z.of_nat (ret_pos h ts i)) k]
        | None => []
        end ++ calls_from h ts (Datatypes.S i) W'
    end.

  Lemma calls_from_iff h ts W : forall i d,
    In d (calls_from h ts i W) <->
    exists j x, nth_error W j = Some x /\ kop_of (op_res x) = Some (LinCheck.op d) /\
                LinCheck.inv d = Z.of_nat (inv_pos h ts (i + j)) /\
                LinCheck.ret d = Z.of_nat (ret_pos h ts (i + j)).
  Proof.
    induction W as [|y W IH]; intros i d; cbn [calls_from].
    - split; [intros [] | intros ([|j] & x & H & _); discriminate].
    - rewrite in_app_iff, IH. split.
      + intros [H|(j & x & H)].
        * destruct (kop_of (op_res y)) eqn:E; [|contradiction]. destruct H as [<-|[]].
          exists 0, y. rewrite Nat.add_0_r. cbn. auto.
        * exists (Datatypes.S j), x. rewrite Nat.add_succ_r. exact H.
      + intros ([|j] & x & Hn & Hk & Hi & Hr); cbn in Hn.
        * injection Hn as ->. left. rewrite Hk, Nat.add_0_r in *. left.
          destruct d; cbn in *. congruence.
        * right. exists j, x. rewrite Nat.add_succ_r in *. auto.
  Qed.

  Lemma calls_from_rt h ts :
    (forall a b, a < b -> b < length ts -> ~ ret_pos h ts b < inv_pos h ts a) ->
    forall W i, i + length W <= length ts -> LinCheck.rt_ok (calls_from h ts i W).
  Proof.
    intros Hrt. induction W as [|x W IH]; intros i Hi; cbn [calls_from]; [constructor|].
    cbn [length] in Hi. specialize (IH (Datatypes.S i) ltac:(lia)).
    destruct (kop_of (op_res x)) as [k|]; cbn [app]; auto.
    constructor; auto. rewrite Forall_forall. intros d Hd.
    apply calls_from_iff in Hd as (j & y & Hn & _ & _ & Hret).
    assert (j < length W) by (apply nth_error_Some; congruence).
    rewrite Hret. cbn [LinCheck.inv].
    specialize (Hrt i (Datatypes.S i + j) ltac:(lia) ltac:(lia)). lia.
  Qed.

  Lemma calls_from_lrun h ts : forall L s i,
    Forall (fun x => reg_lcall (snd x)) L ->
    exists t, LinCheck.lrun s (calls_from h ts i (spec_run s L)) t.
  Proof.
    induction L as [|x L IH]; intros s i HF.
    - exists s. constructor. apply LinCheck.le_refl.
    - inversion HF as [|? ? Hx HF']; subst. cbn [spec_run calls_from op_res snd].
      destruct (IH (fst (apply (snd x) s)) (Datatypes.S i) HF') as (t & Ht).
      exists t. pose proof (@reg_apply (snd x) s Hx) as Hstep.
      match goal with
      | |- context [match ?o with Some _ => _ | None => _ end ++ _] =>
          change (match o with
                  | Some k => LinCheck.reg_step s k (fst (apply (snd x) s))
                  | None => LinCheck.le (fst (apply (snd x) s)) s
                  end) in Hstep;
          destruct o as [k|]
      end; cbn [app].
      + eapply LinCheck.lrun_cons; [apply LinCheck.le_refl | exact Hstep | exact Ht].
      + eapply LinCheck.lrun_weaken_start; eauto.
  Qed.

  Section Reg.
    Variable s0 : V.
    Variable scripts : list (list (op V Rr)).

    (* the per-key history in LinCheck's format: every linearized client call, stamped with the
       positions of its invocation and response events (a call still in flight whose effect
       is already visible is completed with the time [length h]) *)
    Definition reg_calls (w : wstate V Rr) : list LinCheck.call :=
      let W := spec_run s0 (w_lin w) in calls_from (w_hist w) (map (@op_tid V Rr) W) 0 W.

    Lemma reg_lin_calls w :
      reg_scripts scripts -> wreachable s0 scripts w ->
      Forall (fun x => reg_lcall (snd x)) (w_lin w).
    Proof.
      intros Hs H. eapply Forall_impl; [|apply (pi_lin Hs H)].
      intros [t [c|obs]]; unfold pi_entry; cbn; auto. intros [try H']; auto.
    Qed.

    (* the history of one key is linearizable w.r.t. LinCheck's lossy register *)
    Theorem register_linearizable w :
      reg_scripts scripts -> wreachable s0 scripts w ->
      LinCheck.linearizable s0 (reg_calls w).
    Proof.
      intros Hs H. destruct (lock_protected_linearizable H) as [(_ & _ & Hrt) _].
      destruct (calls_from_lrun (w_hist w) (map (@op_tid V Rr) (spec_run s0 (w_lin w))) s0 0
                  (reg_lin_calls Hs H)) as (t & Ht).
      exists t, (reg_calls w). split; [apply Permutation.Permutation_refl|]. split; auto.
      apply calls_from_rt.
      - intros a b Hab Hb. apply rt_timestamps; auto.
      - rewrite map_length. cbn. lia.
    Qed.

    (* every completed client call of the history is in [reg_calls], with its event times *)
    Theorem reg_calls_complete w q p t cl r k :
      wreachable s0 scripts w ->
      nth_error (w_hist w) q = Some (EInv t cl) ->
      nth_error (w_hist w) p = Some (ERes t r) ->
      icount t (firstn q (w_hist w)) = rcount t (firstn p (w_hist w)) ->
      kop_of r = Some k ->
      In (LinCheck.mkCall (Z.of_nat q) (Z.of_nat p) k) (reg_calls w).
    Proof.
      intros H Hq Hp Hidx Hk.
      destruct (lock_protected_linearizable H) as [(_ & Heq & _) _].
      set (h := w_hist w) in *. set (W := spec_run s0 (w_lin w)) in *.
      set (ts := map (@op_tid V Rr) W).
      set (k0 := rcount t (firstn p h)) in *.
      pose proof (rcount_firstn_lt _ _ Hp : k0 < rcount t h) as Hlt.
      destruct (thread_equiv_counts (Heq t)) as [Hle _].
      destruct (@cnt_ex ts t k0) as (i & Hop); [fold ts in Hle; lia|].
      pose proof (is_op_lt Hop) as Hil. unfold ts in Hil. rewrite map_length in Hil.
      destruct (nth_error W i) as [x|] eqn:Hx; [|apply nth_error_None in Hx; lia].
      pose proof (@witness_result V Rr h W t p r i x (Heq t) Hp Hop Hx) as Hr.
      destruct Hop as [Hi1 Hi2].
      assert (Hnth : nth i ts 0 = t) by (apply nth_error_nth; auto).
      assert (Hinv : inv_pos h ts i = q).
      { unfold inv_pos, op_index. rewrite Hnth, Hi2.
        rewrite (nth_pos_complete (is_inv t) _ _ Hq (Nat.eqb_refl t) Hidx); reflexivity. }
      assert (Hret : ret_pos h ts i = p).
      { unfold ret_pos, op_index. rewrite Hnth, Hi2.
        rewrite (nth_pos_complete (is_res t) _ _ Hp (Nat.eqb_refl t) (eq_refl k0)); reflexivity. }
      unfold reg_calls. fold h W ts. rewrite <- Hinv, <- Hret.
      apply calls_from_iff. exists i, x. rewrite Hr. auto.
    Qed.

    (* and nothing else is: every element of [reg_calls] is an operation of the witness *)
    Theorem reg_calls_sound w d :
      In d (reg_calls w) ->
      let W := spec_run s0 (w_lin w) in
      let ts := map (@op_tid V Rr) W in
      exists i x, nth_error W i = Some x /\ kop_of (op_res x) = Some (LinCheck.op d) /\
                  LinCheck.inv d = Z.of_nat (inv_pos (w_hist w) ts i) /\
                  LinCheck.ret d = Z.of_nat (ret_pos (w_hist w) ts i).
    Proof.
      intros H W ts. apply calls_from_iff in H. exact H.
    Qed.

    (* the three consequences, in the form LinCheck states them *)
    Corollary reg_no_stale_read w w1 w2 g v1 v2 :
      reg_scripts scripts -> wreachable s0 scripts w ->
      In w2 (reg_calls w) -> In g (reg_calls w) ->
      LinCheck.op w1 = LinCheck.KSet v1 false -> LinCheck.op w2 = LinCheck.KSet v2 false ->
      v1 <> v2 -> LinCheck.only_writer (reg_calls w) v1 w1 ->
      (LinCheck.ret w1 < LinCheck.inv w2)%Z -> (LinCheck.ret w2 < LinCheck.inv g)%Z ->
      LinCheck.op g <> LinCheck.KGet (Some v1).
    Proof.
      intros Hs H. apply LinCheck.no_stale_read with (init := s0).
      apply register_linearizable; auto.
    Qed.

    Corollary reg_no_read_after_delete w wr d g v ok :
      reg_scripts scripts -> wreachable s0 scripts w ->
      In d (reg_calls w) -> In g (reg_calls w) ->
      LinCheck.op wr = LinCheck.KSet v false -> LinCheck.op d = LinCheck.KDelete ok ->
      LinCheck.only_writer (reg_calls w) v wr ->
      (LinCheck.ret wr < LinCheck.inv d)%Z -> (LinCheck.ret d < LinCheck.inv g)%Z ->
      LinCheck.op g <> LinCheck.KGet (Some v).
    Proof.
      intros Hs H. apply LinCheck.no_read_after_delete with (init := s0).
      apply register_linearizable; auto.
    Qed.

    Corollary reg_monotonic_reads w w1 w2 g1 g2 v1 v2 :
      reg_scripts scripts -> wreachable s0 scripts w ->
      In g1 (reg_calls w) -> In g2 (reg_calls w) ->
      LinCheck.op w1 = LinCheck.KSet v1 false -> LinCheck.op w2 = LinCheck.KSet v2 false ->
      LinCheck.op g1 = LinCheck.KGet (Some v2) ->
      v1 <> v2 -> s0 <> Some v2 ->
      LinCheck.only_writer (reg_calls w) v1 w1 -> LinCheck.only_writer (reg_calls w) v2 w2 ->
      (LinCheck.ret w1 < LinCheck.inv w2)%Z -> (LinCheck.ret g1 < LinCheck.inv g2)%Z ->
      LinCheck.op g2 <> LinCheck.KGet (Some v1).
    Proof.
      intros Hs H. apply LinCheck.monotonic_reads with (init := s0).
      apply register_linearizable; auto.
    Qed.
    (* the same, stated directly on the events of the history.  [completed w t q p cl r]:
       thread t invoked cl at time q and that call returned r at time p *)
    Definition completed (w : wstate V Rr) (t q p : nat) (cl : lcall V Rr) (r : res Rr) : Prop :=
      nth_error (w_hist w) q = Some (EInv t cl) /\
      nth_error (w_hist w) p = Some (ERes t r) /\
      icount t (firstn q (w_hist w)) = rcount t (firstn p (w_hist w)).

    (* a Get never returns a value older than a Set that returned before the Get was invoked:
       Set v1 returned before Set v2 was invoked, Set v2 returned before the Get was invoked,
       and v1 was written only by that Set: the Get does not return v1 *)
    Theorem get_not_stale_direct w t1 q1 p1 c1 r1 t2 q2 p2 c2 r2 tg qg pg cg rg v1 v2 :
      reg_scripts scripts -> wreachable s0 scripts w ->
      completed w t1 q1 p1 c1 r1 -> kop_of r1 = Some (LinCheck.KSet v1 false) ->
      completed w t2 q2 p2 c2 r2 -> kop_of r2 = Some (LinCheck.KSet v2 false) ->
      completed w tg qg pg cg rg ->
      v1 <> v2 ->
      LinCheck.only_writer (reg_calls w) v1
        (LinCheck.mkCall (Z.of_nat q1) (Z.of_nat p1) (LinCheck.KSet v1 false)) ->
      p1 < q2 -> p2 < qg ->
      kop_of rg <> Some (LinCheck.KGet (Some v1)).
    Proof.
      intros Hs H (A1 & A2 & A3) K1 (B1 & B2 & B3) K2 (G1 & G2 & G3) Hne Hu H12 H2g Kg.
      eapply (@reg_no_stale_read w _
                (LinCheck.mkCall (Z.of_nat q2) (Z.of_nat p2) (LinCheck.KSet v2 false))
                (LinCheck.mkCall (Z.of_nat qg) (Z.of_nat pg) (LinCheck.KGet (Some v1)))
                v1 v2 Hs H); eauto; cbn; try lia; try reflexivity.
      - eapply reg_calls_complete; eauto.
      - eapply reg_calls_complete; eauto.
    Qed.

    (* a Get never returns a value whose Delete returned before the Get was invoked *)
    Theorem get_not_deleted_direct w t1 q1 p1 c1 r1 td qd pd cd rd ok tg qg pg cg rg v :
      reg_scripts scripts -> wreachable s0 scripts w ->
      completed w t1 q1 p1 c1 r1 -> kop_of r1 = Some (LinCheck.KSet v false) ->
      completed w td qd pd cd rd -> kop_of rd = Some (LinCheck.KDelete ok) ->
      completed w tg qg pg cg rg ->
      LinCheck.only_writer (reg_calls w) v
        (LinCheck.mkCall (Z.of_nat q1) (Z.of_nat p1) (LinCheck.KSet v false)) ->
      p1 < qd -> pd < qg ->
      kop_of rg <> Some (LinCheck.KGet (Some v)).
    Proof.
      intros Hs H (A1 & A2 & A3) K1 (B1 & B2 & B3) K2 (G1 & G2 & G3) Hu H12 H2g Kg.
      eapply (@reg_no_read_after_delete w _
                (LinCheck.mkCall (Z.of_nat qd) (Z.of_nat pd) (LinCheck.KDelete ok))
                (LinCheck.mkCall (Z.of_nat qg) (Z.of_nat pg) (LinCheck.KGet (Some v)))
                v ok Hs H); eauto; cbn; try lia; try reflexivity.
      - eapply reg_calls_complete; eauto.
      - eapply reg_calls_complete; eauto.
    Qed.
  End Reg.
End LossyRegister.

(* a concrete run of the register: two clients and an evicting environment thread *)
Module ExampleRegister.
  Import LossyRegister.
  Definition set (v : Z) : call V Rr := call_of None (set_f v).
  Definition get : call V Rr := call_of None get_f.
  Definition evict : call V Rr := call_of None evict_f.

  Definition scripts : list (list (op V Rr)) :=
    [ (* T0 *) [ OIn (IWrite false (set 1)); OIn (IWrite false get) ];     (* LRU/LFU: Get writes *)
      (* T1 *) [ OIn (IWrite false (set 2)); OIn (IRead [get_obs]) ];      (* Get under RLock *)
      (* T2 *) [ OIn (IWrite true evict) ] ].                              (* the environment *)

  Lemma scripts_reg : reg_scripts scripts.
  Proof.
    unfold reg_scripts, pi_scripts, scripts.
    repeat (apply Forall_cons || apply Forall_nil); cbn [pi_op reg_iop].
    - left. exists 1%Z. reflexivity.
    - do 3 right. left. reflexivity.
    - left. exists 2%Z. reflexivity.
    - left. reflexivity.
    - do 5 right. reflexivity.
  Qed.

  Definition sched : list label :=
    [ LInv 0; LInv 1;                   (* Set 1 and Set 2 invoked *)
      LRun 1; LRun 1; LRun 1;           (* Set 2 takes effect first *)
      LRun 0; LRes 1;                   (* Set 1 acquires; Set 2 returns *)
      LRun 0; LRun 0; LRes 0;           (* Set 1 takes effect and returns *)
      LInv 0; LInv 1;                   (* both Gets invoked *)
      LRun 0; LRun 0; LRun 0; LRes 0;   (* T0's Get returns Some 1 *)
      LRun 2; LRun 2; LRun 2; LRes 2;   (* eviction *)
      LRun 1; LRun 1; LRun 1; LRes 1 ]. (* T1's Get, concurrent with the eviction: None *)

  Definition final := wexec sched (winit None scripts).

  Example run_calls :
    reg_calls None final =
    [ LinCheck.mkCall 1 2 (LinCheck.KSet 2 false);
      LinCheck.mkCall 0 3 (LinCheck.KSet 1 false);
      LinCheck.mkCall 4 6 (LinCheck.KGet (Some 1%Z));
      LinCheck.mkCall 5 9 (LinCheck.KGet None) ].
  Proof. vm_compute. reflexivity. Qed.

  Example run_checked : LinCheck.lin_check None (reg_calls None final) = true.
  Proof. vm_compute. reflexivity. Qed.

  Example run_linearizable : LinCheck.linearizable None (reg_calls None final).
  Proof.
    apply register_linearizable with (scripts := scripts); [apply scripts_reg|].
    apply wexec_reachable. constructor.
  Qed.
End ExampleRegister.
