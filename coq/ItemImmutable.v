(* ItemImmutable.v: items are immutable once allocated, so a lock-free reader that is descheduled between its table
   lookup and its copy of the item's fields still delivers one single write (C11, and C02's "never a mixture").

   Go code modelled (bounded SieveTinyLFU path; cache.go getSieve, writes.go applySet / applySieve, shard.go dropItem):
     reader   item, ok := shard.tab.lookup(kh, key)          (no lock)            = [lookup]
              ... arbitrary delay ...
              value, expire := item.value, item.expireTime                        = [resume]
     writer   update:  fresh := newItem(cmd); tab.swapAt(fresh)                   (the old item is left untouched)
              insert:  item := newItem(cmd); accepted -> tab.store(item) | rejected -> dropItem(item, RemovedRejected)
              Delete / eviction / expiry: tab.removeExact(item)
              evictMain may also drop a PROMOTED RESIDENT with RemovedRejected    = [ORejectResident]
              Clear: tab.clear()
   The heap maps item addresses to contents; [next] is the allocator (the Go runtime never hands out an address that
   is still referenced, and the paused reader references its item).  The flag [recycle] is the seeded change C11q-m1:
   dropItem keeps the last RemovedRejected item in a one-slot spare and the next insert overwrites that struct in place.

   Tied to /repo by conc's pausedReaderProbe (hooks VerifLookup / Resume): the same reader, paused for real. *)
From Coq Require Import List ZArith Bool Lia Arith.
Import ListNotations.
Open Scope Z_scope.

Record item := mkItem { ikey : Z; ival : Z; iexp : Z }.

Record st := mkSt {
  heap : nat -> option item;
  next : nat;
  tab : list (Z * nat);              (* key -> item address *)
  spare : option nat;
  log : list item                    (* ghost: the (key, value, deadline) triple of every Set so far *)
}.

Inductive op :=
| OSet (k v e : Z) (adm : bool)    (* Set / SetAsync applied; [adm] = admission's verdict on a new key *)
| ORemove (k : Z)                    (* Delete, eviction, expiry *)
| ORejectResident (k : Z)            (* evictMain drops a promoted resident with reason rejected *)
| OClear.

Fixpoint lookup (t : list (Z * nat)) (k : Z) : option nat :=
  match t with
  | [] => None
  | (a, p) :: r => if a =? k then Some p else lookup r k
  end.
Definition tremove (k : Z) (t : list (Z * nat)) : list (Z * nat) := filter (fun kp => negb (fst kp =? k)) t.
Definition hupd (h : nat -> option item) (p : nat) (it : item) : nat -> option item :=
  fun q => if Nat.eqb q p then Some it else h q.

Definition init : st := mkSt (fun _ => None) 0 [] None [].

Definition step (recycle : bool) (s : st) (o : op) : st :=
  match o with
  | OSet k v e adm =>
      let it := mkItem k v e in
      match lookup (tab s) k with
      | Some _ =>
          (* update: always a fresh item, pointer swapped *)
          mkSt (hupd (heap s) (next s) it) (S (next s)) ((k, next s) :: tremove k (tab s)) (spare s) (it :: log s)
      | None =>
          let '(p, h, n, sp) :=
            match (if recycle then spare s else None) with
            | Some q => (q, hupd (heap s) q it, next s, None)
            | None => (next s, hupd (heap s) (next s) it, S (next s), spare s)
            end in
          if adm then mkSt h n ((k, p) :: tab s) sp (it :: log s)
          else mkSt h n (tab s) (if recycle then Some p else sp) (it :: log s)
      end
  | ORemove k => mkSt (heap s) (next s) (tremove k (tab s)) (spare s) (log s)
  | ORejectResident k =>
      match lookup (tab s) k with
      | Some p => mkSt (heap s) (next s) (tremove k (tab s)) (if recycle then Some p else spare s) (log s)
      | None => s
      end
  | OClear => mkSt (heap s) (next s) [] (spare s) (log s)
  end.

Definition run (recycle : bool) (s : st) (ops : list op) : st := fold_left (step recycle) ops s.

(* the reader *)
Definition resume (s : st) (p : nat) : option item := heap s p.

(* The code as it is (recycle = false): a step leaves heap, allocator and log alone and only thins the table, or
   it is a Set: one fresh item at [next s], logged, and at most the entry for it added to the table. *)
Lemma step_cases s o : exists t',
  (step false s o = mkSt (heap s) (next s) t' (spare s) (log s) /\ incl t' (tab s)) \/
  exists it, step false s o = mkSt (hupd (heap s) (next s) it) (S (next s)) t' (spare s) (it :: log s) /\
             incl t' ((ikey it, next s) :: tab s).
Proof.
  destruct s as [h n t sp lg]. destruct o as [k v e adm|k|k|]; cbn [step heap next tab spare log].
  - destruct (lookup t k); [|destruct adm]; eexists; right; exists (mkItem k v e); (split; [reflexivity|]).
    + apply incl_cons; [left; reflexivity|apply incl_tl, incl_filter].
    + apply incl_refl.
    + apply incl_tl, incl_refl.
  - eexists. left. split; [reflexivity|apply incl_filter].
  - destruct (lookup t k); eexists; left; (split; [reflexivity|]); [apply incl_filter|apply incl_refl].
  - eexists. left. split; [reflexivity|apply incl_nil_l].
Qed.

Lemma step_alloc_stable s o p it :
  (p < next s)%nat -> heap s p = Some it ->
  (p < next (step false s o))%nat /\ heap (step false s o) p = Some it.
Proof.
  intros Hp Hh. destruct (step_cases s o) as (t' & [[E _]|(it' & E & _)]); rewrite E; cbn [next heap].
  - split; assumption.
  - split; [lia|]. unfold hupd. destruct (Nat.eqb_spec p (next s)); [lia|exact Hh].
Qed.

Lemma run_alloc_stable ops : forall s p it,
  (p < next s)%nat -> heap s p = Some it ->
  (p < next (run false s ops))%nat /\ heap (run false s ops) p = Some it.
Proof.
  induction ops as [|o r IH]; intros s p it Hp Hh; cbn [run fold_left].
  - split; assumption.
  - destruct (step_alloc_stable s o p it Hp Hh) as [Hp' Hh']. apply (IH _ _ _ Hp' Hh').
Qed.

(* every table entry points at an allocated item that carries the entry's key and is the triple of one single Set *)
Definition entry_ok (s : st) (kp : Z * nat) : Prop :=
  (snd kp < next s)%nat /\ exists it, heap s (snd kp) = Some it /\ ikey it = fst kp /\ In it (log s).
Definition WF (s : st) : Prop := Forall (entry_ok s) (tab s).

Lemma lookup_in t k p : lookup t k = Some p -> In (k, p) t.
Proof.
  induction t as [|[a q] r IH]; cbn [lookup]; [discriminate|].
  destruct (Z.eqb_spec a k) as [->|_]; intros H.
  - injection H as <-. left. reflexivity.
  - right. apply IH. exact H.
Qed.

Lemma Forall_tremove (P : Z * nat -> Prop) k t : Forall P t -> Forall P (tremove k t).
Proof. apply incl_Forall, incl_filter. Qed.

Lemma entry_ok_mono s s' kp :
  (forall p it, (p < next s)%nat -> heap s p = Some it -> (p < next s')%nat /\ heap s' p = Some it) ->
  (forall it, In it (log s) -> In it (log s')) ->
  entry_ok s kp -> entry_ok s' kp.
Proof.
  intros Hs Hl [Hp [it [Hh [Hk Hi]]]]. destruct (Hs _ _ Hp Hh) as [Hp' Hh'].
  split; [exact Hp'|]. exists it. repeat split; auto.
Qed.

Lemma WF_step s o : WF s -> WF (step false s o).
Proof.
  intros H. unfold WF in *. rewrite Forall_forall in *. intros kp Hin.
  pose proof (step_alloc_stable s o) as Hst.
  destruct (step_cases s o) as (t' & [[E I]|(it & E & I)]); rewrite E in *; cbn [tab] in Hin.
  - exact (H _ (I _ Hin)).
  - destruct (I _ Hin) as [<-|Hold].
    + split; [cbn; lia|]. exists it. cbn. unfold hupd. rewrite Nat.eqb_refl. auto.
    + apply (entry_ok_mono s); [exact Hst|intros it0 Hi; right; exact Hi|exact (H _ Hold)].
Qed.

Lemma WF_run ops : forall s, WF s -> WF (run false s ops).
Proof.
  induction ops as [|o r IH]; intros s H; cbn [run fold_left]; [exact H|]. apply IH. apply WF_step. exact H.
Qed.

Lemma WF_init : WF init.
Proof. constructor. Qed.

(* C11 / C02: a lock-free Get(k) locates its entry in any reachable state, is descheduled, and completes after ANY
   further writer activity: what it copies out is the (key, value, deadline) triple of one single Set of k - exactly
   what it would have copied at once. *)
Theorem paused_read_delivers_one_write before k p after :
  let s := run false init before in
  lookup (tab s) k = Some p ->
  exists it, resume s p = Some it /\ resume (run false s after) p = Some it /\
             ikey it = k /\ In it (log s).
Proof.
  intros s Hl. assert (W : WF s) by (apply WF_run, WF_init).
  unfold WF in W. rewrite Forall_forall in W. destruct (W _ (lookup_in _ _ _ Hl)) as [Hp [it [Hh [Hk Hi]]]].
  cbn [fst snd] in *. exists it. unfold resume. repeat split; auto.
  apply (run_alloc_stable after s p it Hp Hh).
Qed.

(* the seeded change C11q-m1 (recycle = true): a promoted resident is dropped as "rejected" and the next insert
   overwrites its struct; the paused Get(1) then returns key 2's value and deadline *)
Theorem recycling_refuted :
  exists before k p after it it',
    let s := run true init before in
    lookup (tab s) k = Some p /\ resume s p = Some it /\ ikey it = k /\
    resume (run true s after) p = Some it' /\ ikey it' <> k.
Proof.
  exists [OSet 1 10 100 true], 1, 0%nat, [ORejectResident 1; OSet 2 20 200 true], (mkItem 1 10 100), (mkItem 2 20 200).
  cbn. repeat split; try reflexivity. discriminate.
Qed.

(* non-vacuity: the same schedule on the code as it is *)
Example same_schedule_without_recycling :
  let s := run false init [OSet 1 10 100 true] in
  lookup (tab s) 1 = Some 0%nat /\
  resume (run false s [ORejectResident 1; OSet 2 20 200 true]) 0 = Some (mkItem 1 10 100).
Proof. cbn. split; reflexivity. Qed.

Print Assumptions paused_read_delivers_one_write.
Print Assumptions recycling_refuted.
