(* PtrModel.v: pointer-level model of the intrusive structures behind the eviction
   policies, written statement by statement from shard.go (initLRU, addToLRUHead,
   removeFromLRU, moveToLRUHead), sieve.go (sieveQueue.init/pushFront/remove/holds,
   sieveTinyLFU.insert/insertMain/remove/promote/replaceNode, mainCandidate,
   previousMainItem, findMainVictim, the probation-tail read of evictProbation) and
   lfu.go (the frequency-bucket ring: ensureIndex, removeFreqNode, add, increment,
   remove, removeLFU).

   A heap maps a pointer (Z; 0 is nil, negative numbers are the embedded / allocated
   sentinels, positive numbers are cacheItems named by their key) to the node fields
   the code reads and writes.  Every assignment of the Go code is one heap update, in
   the order the code performs them, so aliasing (e.g. pushFront into an empty queue,
   where head.next is the tail sentinel) is decided by the model, not assumed.
   In the item heap a dereference of nil sets the error flag (the Go code would panic); the
   LFU ring operations do not track nil, their flag is set only by a refused pick.

   PtrProofs.v proves that these operations act on the lists the structures represent
   as cons, remz, subst_ptr and aprev do on key lists, relates those to the list-level
   operations of the cache model (CacheModel.v), and composes the two for the hand scan
   and for the LFU ring.  The file is executable: the `pl` stream runs
   the real structures and this model on the same operation sequences and compares
   the dumped heap (the prev/next/queue/visited/reuse fields of every sentinel and of
   the items 1..n; queueOwner is not dumped) after every operation. *)
From Coq Require Import List ZArith Bool Lia.
From KV Require Import CacheModel.
Import ListNotations.
Open Scope Z_scope.

(* ------------------------------------------------------------------ item heap *)
Record pnode := { pprev : Z; pnext : Z; pq : Z; pown : Z; pvis : bool; preuse : Z }.
Definition nil_node : pnode :=
  {| pprev := 0; pnext := 0; pq := 0; pown := 0; pvis := false; preuse := 0 |}.
Definition heap := Z -> pnode.
Definition upd (h : heap) (p : Z) (n : pnode) : heap := fun x => if x =? p then n else h x.

Definition w_prev (h : heap) (p v : Z) : heap :=
  upd h p {| pprev := v; pnext := pnext (h p); pq := pq (h p); pown := pown (h p);
             pvis := pvis (h p); preuse := preuse (h p) |}.
Definition w_next (h : heap) (p v : Z) : heap :=
  upd h p {| pprev := pprev (h p); pnext := v; pq := pq (h p); pown := pown (h p);
             pvis := pvis (h p); preuse := preuse (h p) |}.
Definition w_q (h : heap) (p v : Z) : heap :=
  upd h p {| pprev := pprev (h p); pnext := pnext (h p); pq := v; pown := pown (h p);
             pvis := pvis (h p); preuse := preuse (h p) |}.
Definition w_own (h : heap) (p v : Z) : heap :=
  upd h p {| pprev := pprev (h p); pnext := pnext (h p); pq := pq (h p); pown := v;
             pvis := pvis (h p); preuse := preuse (h p) |}.
Definition w_vis (h : heap) (p : Z) (v : bool) : heap :=
  upd h p {| pprev := pprev (h p); pnext := pnext (h p); pq := pq (h p); pown := pown (h p);
             pvis := v; preuse := preuse (h p) |}.
Definition w_reuse (h : heap) (p v : Z) : heap :=
  upd h p {| pprev := pprev (h p); pnext := pnext (h p); pq := pq (h p); pown := pown (h p);
             pvis := pvis (h p); preuse := v |}.

Definition qNone := 0. Definition qProb := 1. Definition qMain := 2.
Definition maxItemReuse := 3.
Definition probationPromotionReuse := 1.

(* sentinel addresses *)
Definition lruHead := -1. Definition lruTail := -2.
Definition probHead := -3. Definition probTail := -4.
Definition mainHead := -5. Definition mainTail := -6.

Record queue := { qhd : Z; qtl : Z; qsize : Z; qid : Z; qowner : Z }.
Definition q_size (q : queue) (n : Z) : queue :=
  {| qhd := qhd q; qtl := qtl q; qsize := n; qid := qid q; qowner := qowner q |}.

Record pstate := {
  hp : heap;
  prob : queue;
  mainq : queue;
  hand : Z;          (* 0 = nil *)
  maincap : Z;
  perr : bool        (* a nil pointer was dereferenced *)
}.
Definition st_heap (s : pstate) (h : heap) : pstate :=
  {| hp := h; prob := prob s; mainq := mainq s; hand := hand s; maincap := maincap s; perr := perr s |}.
Definition st_prob (s : pstate) (q : queue) : pstate :=
  {| hp := hp s; prob := q; mainq := mainq s; hand := hand s; maincap := maincap s; perr := perr s |}.
Definition st_main (s : pstate) (q : queue) : pstate :=
  {| hp := hp s; prob := prob s; mainq := q; hand := hand s; maincap := maincap s; perr := perr s |}.
Definition st_hand (s : pstate) (x : Z) : pstate :=
  {| hp := hp s; prob := prob s; mainq := mainq s; hand := x; maincap := maincap s; perr := perr s |}.
Definition st_err (s : pstate) (b : bool) : pstate :=
  {| hp := hp s; prob := prob s; mainq := mainq s; hand := hand s; maincap := maincap s;
     perr := perr s || b |}.
(* a field access through p: flags nil *)
Definition deref (s : pstate) (p : Z) : pstate := st_err s (p =? 0).

(* ------------------------------------------------------------------ shard LRU list (shard.go) *)
(* initLRU: head.next = tail; tail.prev = head (fresh zeroed sentinels) *)
Definition lru_init (h : heap) : heap :=
  let h1 := upd h lruHead nil_node in
  let h2 := upd h1 lruTail nil_node in
  let h3 := w_next h2 lruHead lruTail in
  w_prev h3 lruTail lruHead.

(* addToLRUHead *)
Definition lru_add (s : pstate) (it : Z) : pstate :=
  let h := hp s in
  let oldNext := pnext (h lruHead) in
  let h1 := w_next h lruHead it in
  let h2 := w_next h1 it oldNext in
  let h3 := w_prev h2 it lruHead in
  let h4 := w_prev h3 oldNext it in
  deref (deref (st_heap s h4) it) oldNext.

(* removeFromLRU *)
Definition lru_remove (s : pstate) (it : Z) : pstate :=
  let s0 := deref s it in
  let h := hp s in
  let h1 := if pprev (h it) =? 0 then h else w_next h (pprev (h it)) (pnext (h it)) in
  let h2 := if pnext (h1 it) =? 0 then h1 else w_prev h1 (pnext (h1 it)) (pprev (h1 it)) in
  let h3 := w_prev h2 it 0 in
  let h4 := w_next h3 it 0 in
  st_heap s0 h4.

(* moveToLRUHead *)
Definition lru_move (s : pstate) (it : Z) : pstate :=
  if pnext (hp s lruHead) =? it then s else lru_add (lru_remove s it) it.

(* the LRU/FIFO evictors' victim: tail.prev unless it is the head sentinel (0 = none) *)
Definition lru_victim (s : pstate) : Z :=
  let v := pprev (hp s lruTail) in if v =? lruHead then 0 else v.

(* ------------------------------------------------------------------ sieveQueue (sieve.go) *)
Definition q_init (h : heap) (q : queue) : heap * queue :=
  let h1 := w_prev h (qhd q) 0 in
  let h2 := w_next h1 (qhd q) (qtl q) in
  let h3 := w_q h2 (qhd q) qNone in
  let h4 := w_prev h3 (qtl q) (qhd q) in
  let h5 := w_next h4 (qtl q) 0 in
  let h6 := w_q h5 (qtl q) qNone in
  (h6, q_size q 0).

(* pushFront; returns heap, queue and whether nil was dereferenced *)
Definition q_push (h : heap) (q : queue) (it : Z) : heap * queue * bool :=
  let n := pnext (h (qhd q)) in
  let h1 := w_next h (qhd q) it in
  let h2 := w_prev h1 it (qhd q) in
  let h3 := w_next h2 it n in
  let h4 := w_q h3 it (qid q) in
  let h5 := w_own h4 it (qowner q) in
  let h6 := w_prev h5 n it in
  (h6, q_size q (qsize q + 1), (it =? 0) || (n =? 0)).

Definition owns_tag (h : heap) (q : queue) (it : Z) : bool :=
  negb (it =? 0) && (pq (h it) =? qid q) && (pown (h it) =? qowner q).
Definition is_sentinel (q : queue) (it : Z) : bool := (it =? qhd q) || (it =? qtl q).
Definition holds (h : heap) (q : queue) (it : Z) : bool := owns_tag h q it && negb (is_sentinel q it).

Definition q_remove (h : heap) (q : queue) (it : Z) : heap * queue * bool :=
  if negb (owns_tag h q it) || (pprev (h it) =? 0) || (pnext (h it) =? 0) then (h, q, false)
  else if negb (pnext (h (pprev (h it))) =? it) || negb (pprev (h (pnext (h it))) =? it) then (h, q, false)
  else
    let h1 := w_next h (pprev (h it)) (pnext (h it)) in
    let h2 := w_prev h1 (pnext (h1 it)) (pprev (h1 it)) in
    let h3 := w_prev h2 it 0 in
    let h4 := w_next h3 it 0 in
    let h5 := w_q h4 it qNone in
    (h5, q_size q (if 0 <? qsize q then qsize q - 1 else qsize q), true).

(* ------------------------------------------------------------------ sieveTinyLFU list surgery *)
Definition sieve_init (s : pstate) : pstate :=
  let '(h1, p1) := q_init (hp s) (prob s) in
  let '(h2, m1) := q_init h1 (mainq s) in
  {| hp := h2; prob := p1; mainq := m1; hand := 0; maincap := maincap s; perr := perr s |}.

(* insert (no ghost hit): probation *)
Definition sieve_insert_prob (s : pstate) (it : Z) : pstate :=
  let h1 := w_q (hp s) it qProb in
  let h2 := w_reuse h1 it 0 in
  let h3 := w_vis h2 it false in
  let '(h4, p1, e) := q_push h3 (prob s) it in
  st_err (st_prob (st_heap s h4) p1) e.

(* insertMain *)
Definition sieve_insert_main (s : pstate) (it : Z) : pstate :=
  let h1 := w_q (hp s) it qMain in
  let h2 := w_reuse h1 it 1 in
  let h3 := w_vis h2 it true in
  let '(h4, m1, e) := q_push h3 (mainq s) it in
  let s1 := st_err (st_main (st_heap s h4) m1) e in
  if hand s1 =? 0 then st_hand s1 it else s1.

(* previousMainItem: 0 = nil *)
Definition prev_main_item (s : pstate) (it : Z) : Z :=
  if it =? 0 then 0 else
  let p0 := pprev (hp s it) in
  let p := if (p0 =? 0) || (p0 =? qhd (mainq s)) then pprev (hp s (qtl (mainq s))) else p0 in
  if (p =? it) || negb (holds (hp s) (mainq s) p) then 0 else p.

(* sieveTinyLFU.remove *)
Definition sieve_remove (s : pstate) (it : Z) : pstate * bool :=
  if it =? 0 then (s, false) else
  let qq := pq (hp s it) in
  if qq =? qMain then
    let s1 := if hand s =? it then st_hand s (prev_main_item s it) else s in
    let '(h1, m1, r) := q_remove (hp s1) (mainq s1) it in
    let s2 := st_main (st_heap s1 h1) m1 in
    if r then (st_heap s2 (w_vis (w_reuse (hp s2) it 0) it false), true) else (s2, false)
  else if qq =? qProb then
    let '(h1, p1, r) := q_remove (hp s) (prob s) it in
    let s2 := st_prob (st_heap s h1) p1 in
    if r then (st_heap s2 (w_vis (w_reuse (hp s2) it 0) it false), true) else (s2, false)
  else
    ((if hand s =? it then st_hand s 0 else s), false).

(* promote *)
Definition sieve_promote (s : pstate) (it : Z) : pstate :=
  if (it =? 0) || negb (pq (hp s it) =? qProb) || (maincap s <=? 0) then s
  else
    let '(h1, p1, _) := q_remove (hp s) (prob s) it in
    sieve_insert_main (st_prob (st_heap s h1) p1) it.

(* replaceNode(old, new) *)
Definition sieve_replace (s : pstate) (old new : Z) : pstate :=
  let h := hp s in
  let h1 := w_q h new (pq (h old)) in
  let h2 := w_own h1 new (pown (h1 old)) in
  let h3 := w_reuse h2 new (preuse (h2 old)) in
  let h4 := w_prev h3 new (pprev (h3 old)) in
  let h5 := w_next h4 new (pnext (h4 old)) in
  let h6 := if pprev (h5 old) =? 0 then h5 else w_next h5 (pprev (h5 old)) new in
  let h7 := if pnext (h6 old) =? 0 then h6 else w_prev h6 (pnext (h6 old)) new in
  let h8 := if pvis (h7 old) then w_vis h7 new true else h7 in
  let s1 := if hand s =? old then st_hand s new else s in
  let h9 := w_prev h8 old 0 in
  let h10 := w_next h9 old 0 in
  let h11 := w_q h10 old qNone in
  deref (deref (st_heap s1 h11) old) new.

(* mainCandidate: None = (nil, false); Some c = (c, true), where c may be nil only in a
   corrupted queue (tail.prev = nil) *)
Definition main_cand (s : pstate) (it : Z) : option Z :=
  let c := if holds (hp s) (mainq s) it then it else pprev (hp s (qtl (mainq s))) in
  if is_sentinel (mainq s) c then None else Some c.

(* findMainVictim(scan, force): n = remaining scan budget, it = cursor *)
Fixpoint find_victim_p (n : nat) (s : pstate) (it : Z) (force : bool) : pstate * Z :=
  match n with
  | O =>
    if force then
      match main_cand s it with
      | None => (s, 0)
      | Some c => (st_hand s (prev_main_item s c), c)
      end
    else (st_hand s it, 0)
  | S n' =>
    match main_cand s it with
    | None => (s, 0)
    | Some c =>
      if negb (c =? 0) && pvis (hp s c) then
        let h1 := w_vis (hp s) c false in
        let h2 := if 0 <? preuse (h1 c) then w_reuse h1 c (preuse (h1 c) - 1) else h1 in
        let s1 := st_heap s h2 in
        find_victim_p n' s1 (prev_main_item s1 c) force
      else (st_hand s (prev_main_item s c), c)
    end
  end.
Definition find_main_victim_p (s : pstate) (scan : Z) (force : bool) : pstate * Z :=
  if qsize (mainq s) =? 0 then (s, 0)
  else find_victim_p (Z.to_nat (if scan <=? 0 then 1 else scan)) s (hand s) force.

(* evictProbation's candidate: probation.tail.prev if the queue holds it *)
Definition prob_tail (s : pstate) : Z :=
  if qsize (prob s) =? 0 then 0
  else let c := pprev (hp s (qtl (prob s))) in if holds (hp s) (prob s) c then c else 0.

Definition mark_visited (s : pstate) (it : Z) : pstate :=
  if it =? 0 then s else st_heap s (w_vis (hp s) it true).

Definition pinit (owner mcap : Z) : pstate :=
  let h0 : heap := fun _ => nil_node in
  let s0 := {| hp := lru_init h0;
               prob := {| qhd := probHead; qtl := probTail; qsize := 0; qid := qProb; qowner := owner |};
               mainq := {| qhd := mainHead; qtl := mainTail; qsize := 0; qid := qMain; qowner := owner |};
               hand := 0; maincap := mcap; perr := false |} in
  sieve_init s0.

(* ------------------------------------------------------------------ LFU frequency ring (lfu.go) *)
Record fnode := { ffreq : Z; fitems : list Z; fprev : Z; fnext : Z }.
Definition fheap := Z -> fnode.
Definition fupd (h : fheap) (p : Z) (n : fnode) : fheap := fun x => if x =? p then n else h x.
Definition f_prev (h : fheap) p v := fupd h p {| ffreq := ffreq (h p); fitems := fitems (h p); fprev := v; fnext := fnext (h p) |}.
Definition f_next (h : fheap) p v := fupd h p {| ffreq := ffreq (h p); fitems := fitems (h p); fprev := fprev (h p); fnext := v |}.
Definition f_items (h : fheap) p v := fupd h p {| ffreq := ffreq (h p); fitems := v; fprev := fprev (h p); fnext := fnext (h p) |}.

Fixpoint assoc (l : list (Z * Z)) (k : Z) : option Z :=
  match l with [] => None | (a, b) :: r => if a =? k then Some b else assoc r k end.
Fixpoint assoc_del (l : list (Z * Z)) (k : Z) : list (Z * Z) :=
  match l with [] => [] | (a, b) :: r => if a =? k then assoc_del r k else (a, b) :: assoc_del r k end.
Definition assoc_set (l : list (Z * Z)) (k v : Z) : list (Z * Z) := (k, v) :: assoc_del l k.

Record lfu := {
  fh : fheap;
  fhead : Z;                 (* the sentinel bucket (freq 0) *)
  fmap : list (Z * Z);       (* freqMap: freq -> bucket *)
  ifreq : list (Z * Z);      (* itemFreq: item -> bucket *)
  falloc : Z;                (* next fresh bucket address *)
  lerr : bool }.
Definition lf_set (l : lfu) h m i a : lfu :=
  {| fh := h; fhead := fhead l; fmap := m; ifreq := i; falloc := a; lerr := lerr l |}.

Definition lfu_init : lfu :=
  {| fh := fupd (fun _ => {| ffreq := 0; fitems := []; fprev := 0; fnext := 0 |}) 1
             {| ffreq := 0; fitems := []; fprev := 1; fnext := 1 |};
     fhead := 1; fmap := []; ifreq := []; falloc := 2; lerr := false |}.

(* ensureIndex(prev, freq) *)
Definition ensure_index (l : lfu) (prev freq : Z) : lfu * Z :=
  match assoc (fmap l) freq with
  | Some n => (l, n)
  | None =>
    let nw := falloc l in
    let h0 := fupd (fh l) nw {| ffreq := freq; fitems := []; fprev := 0; fnext := 0 |} in
    let nxt := fnext (h0 prev) in
    let h1 := f_next h0 prev nw in
    let h2 := f_prev h1 nw prev in
    let h3 := f_next h2 nw nxt in
    let h4 := f_prev h3 nxt nw in
    (lf_set l h4 (assoc_set (fmap l) freq nw) (ifreq l) (nw + 1), nw)
  end.

(* removeFreqNode *)
Definition remove_freq_node (l : lfu) (n : Z) : lfu :=
  let h := fh l in
  let h1 := f_next h (fprev (h n)) (fnext (h n)) in
  let h2 := f_prev h1 (fnext (h1 n)) (fprev (h1 n)) in
  lf_set l h2 (assoc_del (fmap l) (ffreq (h n))) (ifreq l) (falloc l).

Definition lfu_add_p (l : lfu) (it : Z) : lfu :=
  let '(l1, n) := ensure_index l (fhead l) 1 in
  lf_set l1 (f_items (fh l1) n (it :: remz (fitems (fh l1 n)) it)) (fmap l1) (assoc_set (ifreq l1) it n) (falloc l1).

Definition lfu_increment_p (l : lfu) (it : Z) : lfu :=
  match assoc (ifreq l) it with
  | None => lfu_add_p l it
  | Some cur =>
    let newFreq := ffreq (fh l cur) + 1 in
    let l0 := lf_set l (f_items (fh l) cur (remz (fitems (fh l cur)) it)) (fmap l) (ifreq l) (falloc l) in
    let t0 := fnext (fh l0 cur) in
    let '(l1, target) :=
      if (t0 =? fhead l0) || negb (ffreq (fh l0 t0) =? newFreq) then ensure_index l0 cur newFreq else (l0, t0) in
    let l2 := lf_set l1 (f_items (fh l1) target (it :: remz (fitems (fh l1 target)) it)) (fmap l1)
                     (assoc_set (ifreq l1) it target) (falloc l1) in
    match fitems (fh l2 cur) with
    | [] => if ffreq (fh l2 cur) =? 0 then l2 else remove_freq_node l2 cur
    | _ => l2
    end
  end.

Definition lfu_remove_p (l : lfu) (it : Z) : lfu :=
  match assoc (ifreq l) it with
  | None => l
  | Some n =>
    let l1 := lf_set l (f_items (fh l) n (remz (fitems (fh l n)) it)) (fmap l) (assoc_del (ifreq l) it) (falloc l) in
    match fitems (fh l1 n) with
    | [] => if ffreq (fh l1 n) =? 0 then l1 else remove_freq_node l1 n
    | _ => l1
    end
  end.

(* removeLFU: Go's map iteration picks the victim; `pick` is that choice (an oracle
   input).  The model refuses (error flag) a pick that is not in head.next's bucket. *)
Definition lfu_remove_lfu_p (l : lfu) (pick : Z) : lfu * Z :=
  let n := fnext (fh l (fhead l)) in
  if n =? fhead l then (l, 0)
  else
    match fitems (fh l n) with
    | [] => (remove_freq_node l n, 0)
    | _ =>
      if memz (fitems (fh l n)) pick then
        let l1 := lf_set l (f_items (fh l) n (remz (fitems (fh l n)) pick)) (fmap l) (assoc_del (ifreq l) pick) (falloc l) in
        match fitems (fh l1 n) with
        | [] => (remove_freq_node l1 n, pick)
        | _ => (l1, pick)
        end
      else ({| fh := fh l; fhead := fhead l; fmap := fmap l; ifreq := ifreq l; falloc := falloc l; lerr := true |}, 0)
    end.

(* ------------------------------------------------------------------ observation (the complete heap) *)
Definition node_dump (h : heap) (p : Z) : list Z :=
  [pprev (h p); pnext (h p); pq (h p); (if pvis (h p) then 1 else 0); preuse (h p)].
Definition items_upto (n : Z) : list Z := map Z.of_nat (seq 1 (Z.to_nat n)).
Definition pdump (s : pstate) (n : Z) : list Z :=
  flat_map (node_dump (hp s)) ([lruHead; lruTail; probHead; probTail; mainHead; mainTail] ++ items_upto n)
  ++ [qsize (prob s); qsize (mainq s); hand s; (if perr s then 1 else 0)].

(* walk the ring from head.next, bounded *)
Fixpoint fwalk (fuel : nat) (l : lfu) (p : Z) (fwd : bool) : list Z :=
  match fuel with
  | O => [-1]
  | S f => if p =? fhead l then []
           else (ffreq (fh l p) :: zlen (fitems (fh l p)) :: sort_z (fitems (fh l p)))
                ++ fwalk f l (if fwd then fnext (fh l p) else fprev (fh l p)) fwd
  end.
Fixpoint bfreqs (fuel : nat) (l : lfu) (p : Z) : list Z :=
  match fuel with
  | O => [-1]
  | S f => if p =? fhead l then [] else ffreq (fh l p) :: bfreqs f l (fprev (fh l p))
  end.
Definition ldump (l : lfu) (n : Z) : list Z :=
  let fuel := S (S (Z.to_nat n)) in
  fwalk fuel l (fnext (fh l (fhead l))) true
  ++ [-2] ++ bfreqs fuel l (fprev (fh l (fhead l)))
  ++ [-3] ++ sort_z (map fst (fmap l))
  ++ [-4] ++ flat_map (fun it => match assoc (ifreq l) it with
                                 | Some b => [it; ffreq (fh l b)] | None => [] end) (items_upto n)
  ++ [(if lerr l then 1 else 0)].

(* ------------------------------------------------------------------ the stream machine *)
Record pl_state := { ps : pstate; pf : lfu; pn : Z }.

Definition b2z (b : bool) : Z := if b then 1 else 0.

(* op = code :: args; the output is result :: dump of the structure the op touched *)
Definition pl_step (st : pl_state) (op : list Z) : pl_state * list Z :=
  let s := ps st in let l := pf st in let n := pn st in
  let outS (s' : pstate) (r : Z) := ({| ps := s'; pf := l; pn := n |}, r :: pdump s' n) in
  let outL (l' : lfu) (r : Z) := ({| ps := s; pf := l'; pn := n |}, r :: ldump l' n) in
  match op with
  | [1; it] => outS (lru_add s it) 0
  | [2; it] => outS (lru_remove s it) 0
  | [3; it] => outS (lru_move s it) 0
  | [4] => outS s (lru_victim s)
  | [10; it] => outS (sieve_insert_prob s it) 0
  | [11; it] => outS (sieve_insert_main s it) 0
  | [12; it] => let '(s', r) := sieve_remove s it in outS s' (b2z r)
  | [13; it] => outS (sieve_promote s it) 0
  | [14; old; new] => outS (sieve_replace s old new) 0
  | [15; scan; force] => let '(s', v) := find_main_victim_p s scan (force =? 1) in outS s' v
  | [16; it] => outS (mark_visited s it) 0
  | [17] => outS (sieve_init s) 0
  | [18] => outS s (prob_tail s)
  | [19; it] => outS s (prev_main_item s it)
  | [20; it] => outL (lfu_add_p l it) 0
  | [21; it] => outL (lfu_increment_p l it) 0
  | [22; it] => outL (lfu_remove_p l it) 0
  | [23; pick] => let '(l', v) := lfu_remove_lfu_p l pick in outL l' v
  | _ => (st, [-9])
  end.

Definition pl_init (owner mcap n : Z) : pl_state := {| ps := pinit owner mcap; pf := lfu_init; pn := n |}.
Definition pl_of_cfg (cfg : list Z) : pl_state :=
  match cfg with
  | [owner; mcap; n] => pl_init owner mcap n
  | _ => pl_init 0 1 8
  end.
