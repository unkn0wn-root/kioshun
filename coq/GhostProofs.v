(* GhostProofs.v — refinement of the ghost queue (GhostModel.v) to an abstract FIFO ring.
   `avalanche` is never unfolded: every lemma holds for an arbitrary hash function.
   EstimatorProofs is imported for its lemmas about getw / setw / setw_nat only. *)
Require Import KV.EstimatorProofs.
Require Import KV.Base KV.EstimatorModel KV.GhostModel.
From Coq Require Import Arith.
Open Scope N_scope.

Ltac ifs :=
  repeat match goal with
  | |- context[if ?b then _ else _] => let E := fresh "E" in destruct b eqn:E
  | H : context[if ?b then _ else _] |- _ => let E := fresh "E" in destruct b eqn:E
  end.

Definition lenN (l : list N) : N := N.of_nat (length l).

Lemma lenN_setw l p v : lenN (setw l p v) = lenN l.
Proof. unfold lenN, setw. now rewrite setw_nat_length. Qed.

(* EstimatorProofs.getw_setw_same with the bound written with lenN, which lia does not unfold *)
Lemma getw_setw_same l p v : p < lenN l -> getw (setw l p v) p = v.
Proof. exact (EstimatorProofs.getw_setw_same l p v). Qed.

Lemma getw_setw l p v q : p < lenN l -> getw (setw l p v) q = if q =? p then v else getw l q.
Proof.
  intros Hp. destruct (N.eqb_spec q p) as [->|Hne];
    [apply getw_setw_same; assumption|apply getw_setw_other; congruence].
Qed.

Lemma getw_beyond l p : lenN l <= p -> getw l p = 0.
Proof. unfold lenN, getw; intros Hp. apply nth_overflow. lia. Qed.

(* slots store ring index + 1; this is the form that `getw ents (v - 1)` takes for v = N.of_nat i + 1 *)
Lemma getw_of_nat l i : getw l (N.of_nat i + 1 - 1) = nth i l 0.
Proof. unfold getw. f_equal. lia. Qed.

Lemma getw_of_nat' l i : getw l (N.of_nat i) = nth i l 0.
Proof. unfold getw. f_equal. lia. Qed.

Definition nz (x : N) : nat := if x =? 0 then 0%nat else 1%nat.

Fixpoint cnt (l : list N) : nat :=
  match l with [] => 0%nat | x :: r => (nz x + cnt r)%nat end.

Lemma cnt_setw_nat l i v :
  (i < length l)%nat -> (cnt (setw_nat l i v) + nz (nth i l 0%N) = cnt l + nz v)%nat.
Proof.
  revert i; induction l as [|x l IH]; intros i Hi; cbn [length] in Hi; [lia|].
  destruct i as [|i]; cbn [setw_nat nth cnt]; [lia|].
  specialize (IH i ltac:(lia)). lia.
Qed.

Lemma cnt_setw l p v :
  p < lenN l -> (cnt (setw l p v) + nz (getw l p) = cnt l + nz v)%nat.
Proof. unfold lenN, setw, getw; intros Hp. apply cnt_setw_nat. lia. Qed.

Lemma cnt_le_length l : (cnt l <= length l)%nat.
Proof. induction l as [|x l IH]; cbn [cnt length]; [lia|]. unfold nz. ifs; lia. Qed.

Lemma cnt_exists_zero l : (cnt l < length l)%nat -> exists p, p < lenN l /\ getw l p = 0.
Proof.
  unfold lenN. induction l as [|x l IH]; cbn [cnt length]; intros H; [lia|].
  destruct (x =? 0) eqn:E.
  - exists 0. split; [lia|]. unfold getw. cbn. lia.
  - unfold nz in H. rewrite E in H.
    destruct IH as [p [Hp Hz]]; [lia|].
    exists (p + 1). split; [lia|].
    unfold getw in *. replace (N.to_nat (p + 1)) with (S (N.to_nat p)) by lia. exact Hz.
Qed.

Lemma getw_repeat0 k p : getw (repeat 0 k) p = 0.
Proof.
  unfold getw. generalize (N.to_nat p) as i. induction k as [|k IH]; intros i; destruct i; cbn; auto.
Qed.

Lemma cnt_repeat0 k : cnt (repeat 0 k) = 0%nat.
Proof. induction k as [|k IH]; [reflexivity|exact IH]. Qed.

Lemma map_const {A B} (b : B) (l : list A) : map (fun _ => b) l = repeat b (length l).
Proof. induction l as [|x l IH]; cbn; [reflexivity|now rewrite IH]. Qed.

(* cyclic arithmetic on positions 0 .. m-1, written with comparisons instead of mod so that lia decides it *)

Definition addm (m a j : N) : N := if a + j <? m then a + j else a + j - m.
Definition dist (m a b : N) : N := if a <=? b then b - a else b + m - a.

(* facts about addm and dist are linear arithmetic once their comparisons are split.  It splits the
   `if`s of every hypothesis too, so callers with a large context first `clear -` what matters. *)
Ltac md := unfold addm, dist in *; ifs; lia.

Lemma addm_lt m a j : a < m -> j <= m -> addm m a j < m.
Proof. intros; md. Qed.
Lemma addm_0 m a : a < m -> addm m a 0 = a.
Proof. intros; md. Qed.
Lemma addm_dist m a b : a < m -> b < m -> addm m a (dist m a b) = b.
Proof. intros; md. Qed.
Lemma dist_addm m a j : a < m -> j < m -> dist m a (addm m a j) = j.
Proof. intros; md. Qed.
Lemma dist_lt m a b : a < m -> b < m -> dist m a b < m.
Proof. intros; md. Qed.
Lemma dist_0 m a b : a < m -> b < m -> dist m a b = 0 -> a = b.
Proof. intros; md. Qed.
Lemma dist_same m a : dist m a a = 0.
Proof. md. Qed.
Lemma addm_addm m a i j : a < m -> i + j <= m -> addm m (addm m a i) j = addm m a (i + j).
Proof. intros; md. Qed.
Lemma addm_inj m a i j : a < m -> i < m -> j < m -> addm m a i = addm m a j -> i = j.
Proof. intros; md. Qed.
Lemma addm_neq m s j p : s < m -> j < m -> j <> dist m s p -> addm m s j <> p.
Proof. intros; md. Qed.
Lemma dist_cross m s h p :
  s < m -> h < m -> p < m -> dist m s h < dist m s p -> dist m s p = dist m s h + dist m h p.
Proof. intros; md. Qed.
Lemma dist_succ m c e : c < m -> e < m -> c <> e -> dist m c e = dist m (addm m c 1) e + 1.
Proof. intros; md. Qed.

(* the Go expression (pos+1) & mask for mask = 2^k - 1 *)
Lemma land_pow2_mod a k : N.land a (2 ^ k - 1) = a mod 2 ^ k.
Proof.
  replace (2 ^ k - 1) with (N.ones k) by (rewrite N.ones_equiv; lia).
  apply N.land_ones.
Qed.

Lemma land_mask_lt a k : N.land a (2 ^ k - 1) < 2 ^ k.
Proof. rewrite land_pow2_mod. apply N.mod_lt. apply N.pow_nonzero. lia. Qed.

Lemma next_land k p : p < 2 ^ k -> N.land (p + 1) (2 ^ k - 1) = addm (2 ^ k) p 1.
Proof.
  intros Hp. rewrite land_pow2_mod. unfold addm.
  destruct (p + 1 <? 2 ^ k) eqn:E.
  - apply N.mod_small. lia.
  - replace (p + 1) with (2 ^ k) by lia. rewrite N.mod_same by lia. lia.
Qed.

Section Probe.
  Variables (m mask : N).
  Hypothesis Hnext : forall p, p < m -> N.land (p + 1) mask = addm m p 1.

  Lemma insert_from_spec d : forall fuel sl pos v,
    pos < m -> d < m -> (N.to_nat d < fuel)%nat ->
    (forall j, j < d -> getw sl (addm m pos j) <> 0) ->
    getw sl (addm m pos d) = 0 ->
    idx_insert_from fuel sl mask pos v = (setw sl (addm m pos d) v, false).
  Proof.
    induction d as [|d IH] using N.peano_ind; intros fuel sl pos v Hpos Hd Hfuel Hne Hz.
    - destruct fuel as [|f]; [lia|]. cbn [idx_insert_from].
      rewrite addm_0 in Hz by assumption. rewrite Hz. cbn [N.eqb].
      rewrite addm_0 by assumption. reflexivity.
    - destruct fuel as [|f]; [lia|]. cbn [idx_insert_from].
      pose proof (Hne 0 ltac:(lia)) as H0. rewrite addm_0 in H0 by assumption.
      destruct (getw sl pos =? 0) eqn:E; [lia|].
      rewrite Hnext by assumption.
      rewrite (IH f sl (addm m pos 1) v).
      + rewrite addm_addm by lia. do 2 f_equal. f_equal. lia.
      + apply addm_lt; lia.
      + lia.
      + lia.
      + intros j Hj. rewrite addm_addm by lia. replace (1 + j) with (j + 1) by lia. apply Hne. lia.
      + rewrite addm_addm by lia. replace (1 + d) with (N.succ d) by lia. exact Hz.
  Qed.

  Lemma find_from_stop d : forall fuel ents sl pos h,
    pos < m -> d < m -> (N.to_nat d < fuel)%nat ->
    (forall j, j < d -> getw sl (addm m pos j) <> 0 /\ getw ents (getw sl (addm m pos j) - 1) <> h) ->
    getw sl (addm m pos d) = 0 \/ getw ents (getw sl (addm m pos d) - 1) = h ->
    idx_find_from fuel ents sl mask pos h = (addm m pos d, negb (getw sl (addm m pos d) =? 0), false).
  Proof.
    induction d as [|d IH] using N.peano_ind; intros fuel ents sl pos h Hpos Hd Hfuel Hne Hstop;
      (destruct fuel as [|f]; [lia|]); cbn [idx_find_from].
    - rewrite addm_0 in Hstop |- * by assumption. destruct (getw sl pos =? 0) eqn:E; [reflexivity|].
      destruct Hstop as [Hz|Hh]; [lia|]. rewrite Hh, N.eqb_refl. reflexivity.
    - destruct (Hne 0 ltac:(lia)) as [H0 H1]. rewrite addm_0 in H0, H1 by assumption.
      destruct (getw sl pos =? 0) eqn:E; [lia|].
      destruct (getw ents (getw sl pos - 1) =? h) eqn:E1; [lia|].
      rewrite Hnext by assumption.
      rewrite (IH f ents sl (addm m pos 1) h).
      + rewrite addm_addm by lia. replace (1 + d) with (N.succ d) by lia. reflexivity.
      + apply addm_lt; lia.
      + lia.
      + lia.
      + intros j Hj. rewrite addm_addm by lia. replace (1 + j) with (j + 1) by lia. apply Hne. lia.
      + rewrite addm_addm by lia. replace (1 + d) with (N.succ d) by lia. exact Hstop.
  Qed.

  Lemma first_empty sl s e :
    s < m -> e < m -> getw sl e = 0 ->
    exists d, d <= dist m s e /\ getw sl (addm m s d) = 0 /\
              forall j, j < d -> getw sl (addm m s j) <> 0.
  Proof.
    intros Hs He Hz.
    destruct (dec_inh_nat_subset_has_unique_least_element (fun x => getw sl (addm m s (N.of_nat x)) = 0))
      as [x [[Hx Hmin] _]].
    - intros x. destruct (N.eq_dec (getw sl (addm m s (N.of_nat x))) 0); auto.
    - exists (N.to_nat (dist m s e)). rewrite N2Nat.id, addm_dist by assumption. exact Hz.
    - exists (N.of_nat x). split; [|split; [exact Hx|]].
      + specialize (Hmin (N.to_nat (dist m s e))). rewrite N2Nat.id, addm_dist in Hmin by assumption.
        specialize (Hmin Hz). lia.
      + intros j Hj Hc. specialize (Hmin (N.to_nat j)). rewrite N2Nat.id in Hmin. specialize (Hmin Hc). lia.
  Qed.
End Probe.

Section Delete.
  Variables (m mask : N) (ents : list N).
  Hypothesis Hnext : forall p, p < m -> N.land (p + 1) mask = addm m p 1.
  Hypothesis Hhome : forall a, N.land a mask < m.

  (* home position of the index value v (= ring index + 1) *)
  Definition hm (v : N) : N := N.land (avalanche (getw ents (v - 1))) mask.

  (* every index entry is reachable from its home position over non-empty slots *)
  Definition good (sl : list N) : Prop :=
    forall p, p < m -> getw sl p <> 0 ->
    forall j, j < dist m (hm (getw sl p)) p -> getw sl (addm m (hm (getw sl p)) j) <> 0.

  Definition inj (sl : list N) : Prop :=
    forall p q, p < m -> q < m -> getw sl p <> 0 -> getw sl p = getw sl q -> p = q.

  (* what reinsert_cluster does to the array: entries move into empty slots, one at a time *)
  Inductive moved : list N -> list N -> Prop :=
  | moved_refl sl : moved sl sl
  | moved_step sl c q sl' :
      c < m -> q < m -> q <> c -> getw sl c <> 0 -> getw sl q = 0 ->
      moved (setw (setw sl c 0) q (getw sl c)) sl' -> moved sl sl'.

  Lemma setw_nat_restore l i a : (i < length l)%nat -> setw_nat (setw_nat l i a) i (nth i l 0) = l.
  Proof.
    revert i; induction l as [|x l IH]; intros i Hi; cbn [length] in Hi; [lia|].
    destruct i as [|i]; cbn [setw_nat nth]; [reflexivity|]. f_equal. apply IH. lia.
  Qed.

  Lemma setw_restore sl c a : c < lenN sl -> setw (setw sl c a) c (getw sl c) = sl.
  Proof. unfold lenN, setw, getw; intros Hc. apply setw_nat_restore. lia. Qed.

  (* Loop invariant of reinsert_cluster.  hl = the single hole in the cluster, the cursor is
     c = hl + k (cyclically), e = an empty slot at or beyond the cursor (termination).
     The last clause says of every entry: its probe path is non-empty except possibly at the hole, and
     if the path crosses the hole then the entry lies at or beyond the cursor, i.e. it is still to be
     visited.  So when the cursor reaches an empty slot no path crosses the hole any more (hole_final). *)
  Definition hole_inv (sl : list N) (hl k e : N) : Prop :=
    lenN sl = m /\ hl < m /\ e < m /\ 1 <= k /\ k <= dist m hl e /\
    getw sl hl = 0 /\ getw sl e = 0 /\
    (forall p, p < m -> getw sl p <> 0 ->
       (forall j, j < dist m (hm (getw sl p)) p -> addm m (hm (getw sl p)) j <> hl ->
                  getw sl (addm m (hm (getw sl p)) j) <> 0) /\
       (dist m (hm (getw sl p)) hl < dist m (hm (getw sl p)) p -> k <= dist m hl p)).

  Lemma hm_lt v : hm v < m.
  Proof. unfold hm. apply Hhome. Qed.

  Lemma hole_final sl hl k e :
    hole_inv sl hl k e -> getw sl (addm m hl k) = 0 -> good sl.
  Proof.
    intros [Hl [Hhl [He [Hk1 [Hke [Hz [Hez Hall]]]]]]] Hc0.
    intros p Hp Hnz j Hj.
    destruct (Hall p Hp Hnz) as [Hw Hc]. clear Hall.
    pose proof (hm_lt (getw sl p)) as Hs. set (s := hm (getw sl p)) in *.
    pose proof (dist_lt m s p Hs Hp) as Hdsp.
    pose proof (dist_lt m hl e Hhl He) as Hdhe.
    destruct (N.eq_dec (addm m s j) hl) as [Ehl|Nhl]; [exfalso|apply Hw; assumption].
    assert (Hj' : j = dist m s hl) by (rewrite <- Ehl; symmetry; apply dist_addm; lia).
    assert (Hk : k <= dist m hl p) by (apply Hc; lia).
    pose proof (dist_cross m s hl p Hs Hhl Hp ltac:(lia)) as Hcr.
    destruct (N.eq_dec k (dist m hl p)) as [Ek|Nk].
    - apply Hnz. rewrite <- (addm_dist m hl p) by assumption. rewrite <- Ek. exact Hc0.
    - apply (Hw (dist m s hl + k)).
      + lia.
      + rewrite <- addm_addm by lia. rewrite addm_dist by assumption. clear - Hhl Hk1 Hke Hdhe. md.
      + rewrite <- addm_addm by lia. rewrite addm_dist by assumption. exact Hc0.
  Qed.

  Lemma hole_stays sl hl k e :
    hole_inv sl hl k e -> getw sl (addm m hl k) <> 0 ->
    ~ (dist m (hm (getw sl (addm m hl k))) hl < dist m (hm (getw sl (addm m hl k))) (addm m hl k)) ->
    hole_inv sl hl (k + 1) e.
  Proof.
    intros [Hl [Hhl [He [Hk1 [Hke [Hz [Hez Hall]]]]]]] Hcnz Hncross.
    pose proof (dist_lt m hl e Hhl He) as Hdhe.
    assert (Hkne : k <> dist m hl e).
    { intros Ek. apply Hcnz. rewrite Ek. rewrite addm_dist by assumption. exact Hez. }
    unfold hole_inv. repeat (split; [first [assumption|lia]|]).
    intros p Hp Hnz. destruct (Hall p Hp Hnz) as [Hw Hc]. split; [exact Hw|].
    intros Hcross. specialize (Hc Hcross).
    destruct (N.eq_dec k (dist m hl p)) as [Ek|Nk]; [|lia].
    exfalso. apply Hncross. rewrite Ek. rewrite addm_dist by assumption. exact Hcross.
  Qed.

  Lemma hole_moves sl hl k e v :
    hole_inv sl hl k e -> getw sl (addm m hl k) = v -> v <> 0 ->
    dist m (hm v) hl < dist m (hm v) (addm m hl k) ->
    hole_inv (setw (setw sl (addm m hl k) 0) hl v) (addm m hl k) 1 e.
  Proof.
    intros [Hl [Hhl [He [Hk1 [Hke [Hz [Hez Hall]]]]]]] Hv Hvnz Hcross.
    pose proof (dist_lt m hl e Hhl He) as Hdhe.
    set (c := addm m hl k) in *.
    assert (Hc : c < m) by (apply addm_lt; lia).
    assert (Hchl : c <> hl) by (unfold c; clear - Hhl Hk1 Hke Hdhe; md).
    assert (Hec : e <> c) by congruence.
    assert (Hehl : e <> hl) by (clear - Hhl He Hk1 Hke; intros ->; rewrite dist_same in Hke; lia).
    assert (G : forall x, getw (setw (setw sl c 0) hl v) x =
                          if x =? hl then v else if x =? c then 0 else getw sl x).
    { intros x. rewrite !getw_setw by (rewrite ?lenN_setw; lia). reflexivity. }
    destruct (Hall c Hc ltac:(congruence)) as [Hwc _]. rewrite Hv in Hwc.
    pose proof (hm_lt v) as Hsv.
    unfold hole_inv. split; [now rewrite !lenN_setw|]. split; [assumption|]. split; [assumption|].
    split; [lia|]. split; [clear - Hc He Hec; md|].
    split. { rewrite G, N.eqb_refl. destruct (N.eqb_spec c hl); [contradiction|reflexivity]. }
    split. { rewrite G. destruct (N.eqb_spec e hl); [contradiction|]. destruct (N.eqb_spec e c); [contradiction|exact Hez]. }
    (* the array changes only at hl (now full) and at c (the new hole) *)
    assert (Hpaths : forall s d, (forall j, j < d -> addm m s j <> hl -> getw sl (addm m s j) <> 0) ->
              forall j, j < d -> addm m s j <> c -> getw (setw (setw sl c 0) hl v) (addm m s j) <> 0).
    { intros s d Hw j Hj Hjc. rewrite G.
      destruct (N.eqb_spec (addm m s j) hl); [assumption|].
      destruct (N.eqb_spec (addm m s j) c); [contradiction|]. apply Hw; assumption. }
    intros p Hp. rewrite (G p).
    destruct (N.eqb_spec p hl) as [->|Hphl].
    - intros _. split; [|intros Hcr; clear - Hc Hhl Hchl; md].
      apply Hpaths. intros j Hj. apply Hwc. exact (N.lt_trans _ _ _ Hj Hcross).
    - destruct (N.eqb_spec p c) as [->|Hpc]; [congruence|].
      intros Hnz. destruct (Hall p Hp Hnz) as [Hw _]. split; [apply Hpaths, Hw|].
      intros _. clear - Hc Hp Hpc. md.
  Qed.

  Lemma reinsert_spec : forall fuel sl hl k e,
    hole_inv sl hl k e -> (N.to_nat (dist m (addm m hl k) e) < fuel)%nat ->
    exists sl', reinsert_cluster fuel ents sl mask (addm m hl k) = (sl', false) /\
                good sl' /\ moved sl sl'.
  Proof.
    induction fuel as [|f IH]; intros sl hl k e Hinv Hfuel; [lia|].
    cbn [reinsert_cluster].
    pose proof Hinv as [Hl [Hhl [He [Hk1 [Hke [Hz [Hez Hall]]]]]]].
    pose proof (dist_lt m hl e Hhl He) as Hdhe.
    set (c := addm m hl k) in *.
    assert (Hc : c < m) by (apply addm_lt; lia).
    assert (Hchl : c <> hl) by (unfold c; clear - Hhl Hk1 Hke Hdhe; md).
    destruct (getw sl c =? 0) eqn:Ec.
    - exists sl. split; [reflexivity|]. split; [|apply moved_refl].
      apply (hole_final sl hl k e Hinv). fold c. lia.
    - assert (Hvnz : getw sl c <> 0) by lia.
      assert (Hec : e <> c) by congruence.
      set (v := getw sl c) in *.
      unfold idx_insert. replace (v - 1 + 1) with v by lia.
      change (N.land (avalanche (getw ents (v - 1))) mask) with (hm v).
      pose proof (hm_lt v) as Hsv.
      destruct (Hall c Hc Hvnz) as [Hwc _]. fold v in Hwc.
      pose proof (dist_lt m (hm v) c Hsv Hc) as Hdsc.
      pose proof (dist_lt m (hm v) hl Hsv Hhl) as Hdsh.
      assert (Hlen1 : length (setw sl c 0) = N.to_nat m).
      { rewrite setw_length. unfold lenN in Hl. lia. }
      rewrite Hlen1. rewrite Hnext by assumption.
      assert (Hfuel' : (N.to_nat (dist m (addm m c 1) e) < f)%nat).
      { pose proof (dist_succ m c e Hc He ltac:(congruence)). lia. }
      (* with c emptied, the probe path of v is blocked nowhere before c, except possibly at the hole *)
      assert (Hpath : forall j, j < dist m (hm v) c -> j <> dist m (hm v) hl ->
                getw (setw sl c 0) (addm m (hm v) j) <> 0).
      { intros j Hj Hjh. pose proof (N.lt_trans _ _ _ Hj Hdsc) as Hjm.
        rewrite getw_setw_other by (apply not_eq_sym, addm_neq, N.lt_neq; assumption).
        apply Hwc; [assumption|]. apply addm_neq; assumption. }
      destruct (N.ltb_spec (dist m (hm v) hl) (dist m (hm v) c)) as [Hcross|Hncross].
      + (* the entry moves into the hole *)
        rewrite (insert_from_spec m mask Hnext (dist m (hm v) hl));
          [|assumption|assumption|lia|intros j Hj; apply Hpath; [exact (N.lt_trans _ _ _ Hj Hcross)|apply N.lt_neq, Hj]|].
        * rewrite addm_dist by assumption.
          pose proof (hole_moves sl hl k e v Hinv eq_refl Hvnz Hcross) as Hinv'. fold c in Hinv'.
          destruct (IH _ c 1 e Hinv' Hfuel') as [sl' [Hrun' [Hgood' Hsc']]].
          exists sl'. split; [exact Hrun'|]. split; [exact Hgood'|].
          exact (moved_step sl c hl sl' Hc Hhl (not_eq_sym Hchl) Hvnz Hz Hsc').
        * rewrite addm_dist by assumption. rewrite getw_setw_other by congruence. exact Hz.
      + (* the entry stays where it is *)
        rewrite (insert_from_spec m mask Hnext (dist m (hm v) c));
          [|assumption|assumption|lia|intros j Hj; apply Hpath; [exact Hj|apply N.lt_neq, (N.lt_le_trans _ _ _ Hj Hncross)]|].
        * rewrite addm_dist by assumption. unfold v. rewrite setw_restore by lia.
          assert (Hinv' : hole_inv sl hl (k + 1) e).
          { apply hole_stays; try assumption. fold c. fold v. lia. }
          assert (Hcc : addm m c 1 = addm m hl (k + 1)) by (unfold c; apply addm_addm; lia).
          rewrite Hcc in Hfuel' |- *. apply (IH sl hl (k + 1) e Hinv' Hfuel').
        * rewrite addm_dist by assumption. apply getw_setw_same. lia.
  Qed.

  Lemma delete_at_spec sl pos e :
    lenN sl = m -> pos < m -> e < m -> good sl ->
    getw sl pos <> 0 -> getw sl e = 0 ->
    exists sl', idx_delete_at ents sl mask pos = (sl', false) /\
                good sl' /\ moved (setw sl pos 0) sl'.
  Proof.
    intros Hl Hpos He Hgood Hnz Hez.
    unfold idx_delete_at. rewrite Hnext by assumption.
    assert (Hpe : pos <> e) by congruence.
    assert (Hlen : length sl = N.to_nat m) by (unfold lenN in Hl; lia).
    rewrite Hlen.
    apply (reinsert_spec (N.to_nat m) (setw sl pos 0) pos 1 e).
    - unfold hole_inv. split; [now rewrite lenN_setw|]. split; [assumption|]. split; [assumption|].
      split; [lia|]. split; [clear - Hpos He Hpe; md|].
      split; [apply getw_setw_same; lia|].
      split; [rewrite getw_setw_other by assumption; exact Hez|].
      intros p Hp.
      destruct (N.eq_dec p pos) as [->|Hne]; [rewrite getw_setw_same by lia; intros; lia|].
      rewrite (getw_setw_other sl pos p) by congruence. intros Hpnz. split.
      + intros j Hj Hjh. rewrite getw_setw_other by congruence. apply Hgood; assumption.
      + intros _. clear - Hpos Hp Hne. md.
    - pose proof (addm_lt m pos 1 Hpos ltac:(lia)) as Hc.
      pose proof (dist_lt m (addm m pos 1) e Hc He). lia.
  Qed.
End Delete.

(* the abstract specification: a ring of n optional fingerprints with a cursor *)

Record aring := { aslots : list (option N); acur : nat }.

Definition cell_is (h : N) (c : option N) : bool :=
  match c with Some x => x =? h | None => false end.

Fixpoint set_nth {A : Type} (l : list A) (i : nat) (v : A) : list A :=
  match l, i with
  | [], _ => []
  | _ :: t, O => v :: t
  | x :: t, S j => x :: set_nth t j v
  end.

Definition a_contains (r : aring) (h : N) : bool := existsb (cell_is h) (aslots r).

Definition a_add (r : aring) (h : N) : aring :=
  if a_contains r h then r
  else {| aslots := set_nth (aslots r) (acur r) (Some h);
          acur := (acur r + 1) mod length (aslots r) |}.

Definition a_remove (r : aring) (h : N) : aring * bool :=
  if a_contains r h
  then ({| aslots := map (fun c => if cell_is h c then None else c) (aslots r); acur := acur r |}, true)
  else (r, false).

Definition a_clear (r : aring) : aring :=
  {| aslots := map (fun _ => None) (aslots r); acur := 0 |}.

Definition a_new (n : nat) : aring := {| aslots := repeat None n; acur := 0 |}.

Definition cell (asl : list (option N)) (i : nat) : option N := nth i asl None.

Fixpoint count_some (l : list (option N)) : nat :=
  match l with
  | [] => 0%nat
  | Some _ :: t => S (count_some t)
  | None :: t => count_some t
  end.

Lemma set_nth_length {A} (l : list A) i v : length (set_nth l i v) = length l.
Proof.
  revert i; induction l as [|x l IH]; intros i; [reflexivity|].
  destruct i; cbn [set_nth length]; [reflexivity|]. now rewrite IH.
Qed.

Lemma cell_set_nth_same asl i v : (i < length asl)%nat -> cell (set_nth asl i v) i = v.
Proof.
  unfold cell. revert i; induction asl as [|x l IH]; intros i Hi; cbn [length] in Hi; [lia|].
  destruct i; cbn [set_nth nth]; [reflexivity|]. apply IH. lia.
Qed.

Lemma cell_set_nth_other asl i j v : i <> j -> cell (set_nth asl i v) j = cell asl j.
Proof.
  unfold cell. revert i j; induction asl as [|x l IH]; intros i j Hij; [destruct i; reflexivity|].
  destruct i, j; cbn [set_nth nth]; try reflexivity; try lia. apply IH. lia.
Qed.

Lemma cell_set_nth asl i v j :
  (i < length asl)%nat -> cell (set_nth asl i v) j = if (j =? i)%nat then v else cell asl j.
Proof.
  intros Hi. destruct (Nat.eqb_spec j i) as [->|Hne];
    [apply cell_set_nth_same; assumption|apply cell_set_nth_other; congruence].
Qed.

Lemma set_nth_twice {A} (l : list A) i a b : set_nth (set_nth l i a) i b = set_nth l i b.
Proof.
  revert i; induction l as [|x l IH]; intros i; [destruct i; reflexivity|].
  destruct i; cbn [set_nth]; [reflexivity|]. f_equal. apply IH.
Qed.

Lemma set_nth_cell asl i : set_nth asl i (cell asl i) = asl.
Proof.
  unfold cell. revert i; induction asl as [|x l IH]; intros i; [destruct i; reflexivity|].
  destruct i; cbn [set_nth nth]; [reflexivity|]. f_equal. apply IH.
Qed.

Lemma cell_some_lt asl i h : cell asl i = Some h -> (i < length asl)%nat.
Proof.
  unfold cell. intros H. destruct (Nat.lt_ge_cases i (length asl)) as [Hlt|Hge]; [assumption|].
  rewrite nth_overflow in H by assumption. discriminate.
Qed.

Definition osome (c : option N) : nat := match c with Some _ => 1%nat | None => 0%nat end.

Lemma count_some_set_nth asl i v :
  (i < length asl)%nat ->
  (count_some (set_nth asl i v) + osome (cell asl i) = count_some asl + osome v)%nat.
Proof.
  unfold cell. revert i; induction asl as [|x l IH]; intros i Hi; cbn [length] in Hi; [lia|].
  destruct i; cbn [set_nth nth count_some].
  - destruct x, v; cbn [osome count_some]; lia.
  - specialize (IH i ltac:(lia)). destruct x; lia.
Qed.

Lemma count_some_le asl : (count_some asl <= length asl)%nat.
Proof. induction asl as [|[x|] l IH]; cbn [count_some length]; lia. Qed.

Lemma count_some_none_lt asl i : (i < length asl)%nat -> cell asl i = None -> (count_some asl < length asl)%nat.
Proof.
  unfold cell. revert i; induction asl as [|x l IH]; intros i Hi Hc; cbn [length] in Hi; [lia|].
  destruct i; cbn [nth] in Hc.
  - subst x. cbn [count_some length]. pose proof (count_some_le l). lia.
  - specialize (IH i ltac:(lia) Hc). destruct x; cbn [count_some length]; lia.
Qed.

Lemma count_some_some_pos asl i h : cell asl i = Some h -> (1 <= count_some asl)%nat.
Proof.
  unfold cell. revert i; induction asl as [|x l IH]; intros i Hc; [destruct i; discriminate|].
  destruct i; cbn [nth] in Hc.
  - subst x. cbn [count_some]. lia.
  - specialize (IH i Hc). destruct x; cbn [count_some]; lia.
Qed.

Lemma count_some_repeat n : count_some (repeat None n) = 0%nat.
Proof. induction n as [|n IH]; [reflexivity|exact IH]. Qed.

Lemma a_contains_true asl cur h :
  a_contains {| aslots := asl; acur := cur |} h = true <-> exists i, cell asl i = Some h.
Proof.
  unfold a_contains, cell. cbn [aslots]. rewrite existsb_exists. split.
  - intros [c [Hin Hc]]. destruct c as [x|]; cbn [cell_is] in Hc; [|discriminate].
    apply N.eqb_eq in Hc. subst x.
    destruct (In_nth _ _ None Hin) as [i [Hi Hnth]]. exists i. exact Hnth.
  - intros [i Hi]. exists (Some h). split.
    + rewrite <- Hi. apply nth_In. apply (cell_some_lt asl i h). exact Hi.
    + cbn [cell_is]. apply N.eqb_refl.
Qed.

Lemma a_contains_false asl cur h :
  a_contains {| aslots := asl; acur := cur |} h = false <-> forall i, cell asl i <> Some h.
Proof.
  split.
  - intros Hf i Hi. assert (a_contains {| aslots := asl; acur := cur |} h = true) by (apply a_contains_true; eauto).
    congruence.
  - intros Hn. destruct (a_contains {| aslots := asl; acur := cur |} h) eqn:E; [|reflexivity].
    apply a_contains_true in E. destruct E as [i Hi]. exfalso. exact (Hn i Hi).
Qed.

Lemma a_remove_eq r h :
  a_remove r h = ({| aslots := map (fun c => if cell_is h c then None else c) (aslots r); acur := acur r |},
                  a_contains r h).
Proof.
  unfold a_remove. destruct (a_contains r h) eqn:E; [reflexivity|].
  destruct r as [asl cur]. cbn [aslots acur]. do 2 f_equal.
  rewrite <- (map_id asl) at 1. apply map_ext_in. intros c Hc.
  destruct (cell_is h c) eqn:Ec; [|reflexivity].
  assert (a_contains {| aslots := asl; acur := cur |} h = true) by (apply existsb_exists; eauto). congruence.
Qed.

Lemma cell_repeat_none n i : cell (repeat None n) i = None.
Proof. unfold cell. revert i; induction n; intros i; destruct i; cbn; auto. Qed.

Lemma cell_map_clear h asl i :
  cell (map (fun c => if cell_is h c then None else c) asl) i
  = if cell_is h (cell asl i) then None else cell asl i.
Proof.
  unfold cell.
  exact (map_nth (fun c => if cell_is h c then None else c) asl None i).
Qed.

Lemma remove_map_set_nth asl i h :
  (forall a b x, cell asl a = Some x -> cell asl b = Some x -> a = b) ->
  cell asl i = Some h ->
  map (fun c => if cell_is h c then None else c) asl = set_nth asl i None.
Proof.
  intros Hnd Hi. pose proof (cell_some_lt asl i h Hi) as Hlt.
  apply (nth_ext _ _ None None); [now rewrite map_length, set_nth_length|]. intros j _.
  change (cell (map (fun c => if cell_is h c then None else c) asl) j = cell (set_nth asl i None) j).
  rewrite cell_map_clear, cell_set_nth by assumption.
  destruct (Nat.eqb_spec j i) as [->|Hne]; [rewrite Hi; cbn [cell_is]; now rewrite N.eqb_refl|].
  destruct (cell asl j) as [x|] eqn:Ej; cbn [cell_is]; [|reflexivity].
  destruct (N.eqb_spec x h) as [->|]; [elim Hne; eapply Hnd; eassumption|reflexivity].
Qed.

(* the shape newGhostQueue gives the index of a ring of n entries: m = max(NextPowerOf2(2n), 8) slots,
   mask = m - 1; 2n <= m is its load condition (at most half of the slots are ever in use) *)
Definition geom (m mask : N) (n : nat) : Prop :=
  (exists k, m = 2 ^ k) /\ mask = m - 1 /\ 2 * N.of_nat n <= m.

Lemma geom_next m mask n : geom m mask n -> forall p, p < m -> N.land (p + 1) mask = addm m p 1.
Proof. intros [[k ->] [-> _]] p Hp. apply next_land. exact Hp. Qed.

Lemma geom_home m mask n : geom m mask n -> forall a, N.land a mask < m.
Proof. intros [[k ->] [-> _]] a. apply land_mask_lt. Qed.

Lemma geom_lt m mask n : geom m mask n -> N.of_nat n < m.
Proof.
  intros [[k ->] [_ H]]. assert (2 ^ k <> 0) by (apply N.pow_nonzero; lia). lia.
Qed.

(* Representation invariant of the index: the slots sl (length m) represent exactly the map
   { h |-> i : cell asl i = Some h } over the ring words ents.  R below mentions it in this flat form;
   the proofs use it as the three facts ring_ok, index_ok and good (RI_parts). *)
Definition RI (m mask : N) (ents sl : list N) (asl : list (option N)) : Prop :=
  lenN sl = m /\ length ents = length asl /\
  (forall i j h, cell asl i = Some h -> cell asl j = Some h -> i = j) /\
  (forall i h, cell asl i = Some h -> nth i ents 0 = h) /\
  cnt sl = count_some asl /\
  (forall p, p < m -> getw sl p <> 0 ->
     exists i h, getw sl p = N.of_nat i + 1 /\ cell asl i = Some h) /\
  (forall i h, cell asl i = Some h -> exists p, p < m /\ getw sl p = N.of_nat i + 1) /\
  inj m sl /\ good m mask ents sl.

(* the ring words agree with the cells (ring_ok); the index values are exactly the live cells, each once
   (index_ok); every index entry is reachable from its home (good).  An operation touches only the
   parts it changes. *)
Definition ring_ok (ents : list N) (asl : list (option N)) : Prop :=
  length ents = length asl /\
  (forall i j h, cell asl i = Some h -> cell asl j = Some h -> i = j) /\
  (forall i h, cell asl i = Some h -> nth i ents 0 = h).

Definition index_ok (m : N) (sl : list N) (asl : list (option N)) : Prop :=
  lenN sl = m /\ cnt sl = count_some asl /\
  (forall p, p < m -> getw sl p <> 0 -> exists i h, getw sl p = N.of_nat i + 1 /\ cell asl i = Some h) /\
  (forall i h, cell asl i = Some h -> exists p, p < m /\ getw sl p = N.of_nat i + 1) /\
  inj m sl.

Lemma RI_parts m mask ents sl asl :
  RI m mask ents sl asl <-> ring_ok ents asl /\ index_ok m sl asl /\ good m mask ents sl.
Proof. unfold RI, ring_ok, index_ok. tauto. Qed.

Lemma ring_set ents asl i c :
  ring_ok ents asl -> (i < length asl)%nat ->
  (forall h, c = Some h -> nth i ents 0 = h /\ forall j, cell asl j <> Some h) ->
  ring_ok ents (set_nth asl i c).
Proof.
  intros [Hel [Hnd Hents]] Hi Hc. pose proof (fun j => cell_set_nth asl i c j Hi) as C.
  split; [now rewrite set_nth_length|]. split.
  - intros a b x. rewrite !C.
    destruct (Nat.eqb_spec a i) as [->|], (Nat.eqb_spec b i) as [->|]; intros Ha Hb;
      [reflexivity|elim (proj2 (Hc x Ha) b Hb)|elim (proj2 (Hc x Hb) a Ha)|eapply Hnd; eassumption].
  - intros a x. rewrite C. destruct (Nat.eqb_spec a i) as [->|]; intros Ha; [apply (Hc x Ha)|apply Hents, Ha].
Qed.

Lemma ring_ents ents asl i x : ring_ok ents asl -> cell asl i = None -> ring_ok (setw_nat ents i x) asl.
Proof.
  intros [Hel [Hnd Hents]] Hi. split; [now rewrite setw_nat_length|]. split; [assumption|].
  intros j h Hj. rewrite nth_setw_nat_other by congruence. apply Hents, Hj.
Qed.

Lemma index_fill m sl asl q i h :
  index_ok m sl asl -> q < m -> getw sl q = 0 -> (i < length asl)%nat -> cell asl i = None ->
  index_ok m (setw sl q (N.of_nat i + 1)) (set_nth asl i (Some h)).
Proof.
  intros [Hl [Hcnt [Hs2c [Hc2s Hinj]]]] Hq Hqz Hi Hci.
  pose proof (fun j => cell_set_nth asl i (Some h) j Hi) as C.
  assert (G : forall x, getw (setw sl q (N.of_nat i + 1)) x = if x =? q then N.of_nat i + 1 else getw sl x)
    by (intros x; apply getw_setw; lia).
  (* cell i was empty, so no slot holds i + 1 yet *)
  assert (Hfresh : forall p, p < m -> getw sl p <> N.of_nat i + 1).
  { intros p Hp Hpv. destruct (Hs2c p Hp ltac:(lia)) as [i' [h' [Hv' Hc']]].
    assert (i' = i) by lia. subst i'. congruence. }
  split; [now rewrite lenN_setw|]. split; [|split; [|split]].
  - pose proof (cnt_setw sl q (N.of_nat i + 1) ltac:(lia)) as H1.
    pose proof (count_some_set_nth asl i (Some h) Hi) as H2. rewrite Hci in H2.
    rewrite Hqz in H1. unfold nz in H1. destruct (N.of_nat i + 1 =? 0) eqn:E; [lia|].
    cbn [N.eqb osome] in *. lia.
  - intros p Hp. rewrite G. destruct (N.eqb_spec p q) as [->|]; intros Hpnz.
    + exists i, h. rewrite C, Nat.eqb_refl. auto.
    + destruct (Hs2c p Hp Hpnz) as [i' [h' [Hv' Hc']]]. exists i', h'. rewrite C.
      destruct (Nat.eqb_spec i' i) as [->|]; [congruence|auto].
  - intros a x. rewrite C. destruct (Nat.eqb_spec a i) as [->|]; intros Ha.
    + exists q. rewrite G, N.eqb_refl. auto.
    + destruct (Hc2s a x Ha) as [p [Hp Hpv]]. exists p. rewrite G.
      destruct (N.eqb_spec p q) as [->|]; [lia|auto].
  - intros p p' Hp Hp'. rewrite !G.
    destruct (N.eqb_spec p q) as [->|], (N.eqb_spec p' q) as [->|]; intros Hpnz Heq;
      [reflexivity|elim (Hfresh p' Hp')|elim (Hfresh p Hp)|apply Hinj]; auto.
Qed.

Lemma index_unset m sl asl pos i :
  index_ok m sl asl -> pos < m -> getw sl pos = N.of_nat i + 1 ->
  index_ok m (setw sl pos 0) (set_nth asl i None).
Proof.
  intros [Hl [Hcnt [Hs2c [Hc2s Hinj]]]] Hpos Hv.
  destruct (Hs2c pos Hpos ltac:(lia)) as [i0 [h0 [Hv0 Hc0]]].
  assert (i0 = i) by lia. subst i0.
  pose proof (cell_some_lt asl i h0 Hc0) as Hi.
  pose proof (fun j => cell_set_nth asl i None j Hi) as C.
  assert (G : forall x, getw (setw sl pos 0) x = if x =? pos then 0 else getw sl x)
    by (intros x; apply getw_setw; lia).
  (* the slots other than pos are the ones that do not hold i + 1 *)
  assert (Huniq : forall p, p < m -> getw sl p = N.of_nat i + 1 -> p = pos).
  { intros p Hp Hpv. apply Hinj; [assumption|assumption|lia|congruence]. }
  split; [now rewrite lenN_setw|]. split; [|split; [|split]].
  - pose proof (cnt_setw sl pos 0 ltac:(lia)) as H1.
    pose proof (count_some_set_nth asl i None Hi) as H2. rewrite Hc0 in H2.
    unfold nz in H1. destruct (getw sl pos =? 0) eqn:E; [lia|]. cbn [N.eqb osome] in *. lia.
  - intros p Hp. rewrite G. destruct (N.eqb_spec p pos) as [->|Hne]; [congruence|]. intros Hpnz.
    destruct (Hs2c p Hp Hpnz) as [i' [h' [Hv' Hc']]]. exists i', h'. split; [assumption|]. rewrite C.
    destruct (Nat.eqb_spec i' i) as [->|]; [|assumption]. elim Hne. apply Huniq; assumption.
  - intros a h. rewrite C. destruct (Nat.eqb_spec a i) as [|Hne]; [discriminate|]. intros Ha.
    destruct (Hc2s a h Ha) as [p0 [Hp0 Hp0v]]. exists p0. split; [assumption|]. rewrite G.
    destruct (N.eqb_spec p0 pos) as [->|]; [lia|assumption].
  - intros p q Hp Hq. rewrite !G.
    destruct (N.eqb_spec p pos); [congruence|]. destruct (N.eqb_spec q pos); [congruence|]. apply Hinj; assumption.
Qed.

(* a move is an unset followed by a fill for the same cell *)
Lemma index_move m sl asl c q :
  index_ok m sl asl -> c < m -> q < m -> q <> c -> getw sl c <> 0 -> getw sl q = 0 ->
  index_ok m (setw (setw sl c 0) q (getw sl c)) asl.
Proof.
  intros Hx Hc Hq Hqc Hv Hq0. pose proof Hx as [Hl [_ [Hs2c _]]].
  destruct (Hs2c c Hc Hv) as [i [h [Hvi Hci]]]. rewrite Hvi.
  pose proof (cell_some_lt asl i h Hci) as Hi.
  replace asl with (set_nth (set_nth asl i None) i (Some h))
    by (rewrite set_nth_twice, <- Hci; apply set_nth_cell).
  apply index_fill; [apply index_unset; assumption|assumption| |now rewrite set_nth_length|].
  - rewrite getw_setw_other by congruence. exact Hq0.
  - apply cell_set_nth_same, Hi.
Qed.

Lemma index_moved m sl sl' asl : moved m sl sl' -> index_ok m sl asl -> index_ok m sl' asl.
Proof. induction 1; intros Hx; [exact Hx|]. apply IHmoved, index_move; assumption. Qed.

Section Index.
  Variables (m mask : N) (n : nat).
  Hypothesis Hgeom : geom m mask n.

  Let Hnext := geom_next m mask n Hgeom.
  Let Hhome := geom_home m mask n Hgeom.

  Lemma RI_exists_empty ents sl asl :
    RI m mask ents sl asl -> length asl = n -> exists e, e < m /\ getw sl e = 0.
  Proof.
    intros [Hl [_ [_ [_ [Hcnt _]]]]] Hn.
    pose proof (geom_lt m mask n Hgeom) as Hnm. pose proof (count_some_le asl) as Hle.
    destruct (cnt_exists_zero sl) as [e [He Hz]].
    - unfold lenN in Hl. lia.
    - exists e. split; [congruence|assumption].
  Qed.

  Lemma find_spec ents sl asl cur h :
    RI m mask ents sl asl -> length asl = n ->
    exists p, idx_find_from (length sl) ents sl mask (N.land (avalanche h) mask) h
                = (p, a_contains {| aslots := asl; acur := cur |} h, false) /\
              forall i, cell asl i = Some h -> p < m /\ getw sl p = N.of_nat i + 1.
  Proof.
    intros HRI Hn.
    destruct (RI_exists_empty ents sl asl HRI Hn) as [e [He Hez]].
    destruct HRI as [Hl [Hel [Hnd [Hents [Hcnt [Hs2c [Hc2s [Hinj Hgood]]]]]]]].
    set (s := N.land (avalanche h) mask). assert (Hs : s < m) by apply Hhome.
    assert (Hfuel : forall d, d < m -> (N.to_nat d < length sl)%nat) by (unfold lenN in Hl; lia).
    assert (K : forall x, x < m -> getw sl x <> 0 -> getw ents (getw sl x - 1) = h ->
                exists i, cell asl i = Some h /\ getw sl x = N.of_nat i + 1).
    { intros x Hx Hxnz Hk. destruct (Hs2c x Hx Hxnz) as [i [h' [Hv Hc]]]. exists i. split; [|exact Hv].
      rewrite Hv, getw_of_nat, (Hents i h' Hc) in Hk. congruence. }
    destruct (a_contains _ h) eqn:E.
    - (* present: good gives a non-empty path to its slot, and no other slot has its key *)
      apply a_contains_true in E. destruct E as [i Hi].
      destruct (Hc2s i h Hi) as [p [Hp Hpv]]. exists p.
      assert (Hown : forall i', cell asl i' = Some h -> p < m /\ getw sl p = N.of_nat i' + 1)
        by (intros i' Hi'; rewrite (Hnd i' i h Hi' Hi); auto).
      split; [|exact Hown].
      pose proof (Hgood p Hp ltac:(lia)) as Hpath. rewrite Hpv in Hpath.
      unfold hm in Hpath. rewrite getw_of_nat, (Hents i h Hi) in Hpath. fold s in Hpath.
      pose proof (dist_lt m s p Hs Hp) as Hd.
      rewrite (find_from_stop m mask Hnext (dist m s p)); [|assumption|assumption|apply Hfuel, Hd| |].
      + rewrite addm_dist by assumption. rewrite Hpv. destruct (N.eqb_spec (N.of_nat i + 1) 0); [lia|reflexivity].
      + intros j Hj. split; [apply Hpath, Hj|]. intros Hk.
        assert (Hxm : addm m s j < m) by (apply addm_lt; lia).
        destruct (K _ Hxm (Hpath j Hj) Hk) as [i' [Hi' Hv']]. destruct (Hown i' Hi') as [_ Hpv'].
        assert (Heq : addm m s j = p) by (apply Hinj; try assumption; [apply Hpath, Hj|congruence]).
        pose proof (dist_addm m s j Hs ltac:(lia)) as Hda. rewrite Heq in Hda. lia.
      + right. rewrite addm_dist by assumption. rewrite Hpv, getw_of_nat. apply Hents, Hi.
    - (* absent: the probe stops at the first empty slot *)
      rewrite a_contains_false in E.
      destruct (first_empty m mask Hnext sl s e Hs He Hez) as [d [Hd [Hdz Hdne]]].
      pose proof (dist_lt m s e Hs He) as Hde. exists (addm m s d). split; [|intros i Hi; elim (E i Hi)].
      rewrite (find_from_stop m mask Hnext d);
        [rewrite Hdz; reflexivity|assumption|lia|apply Hfuel; lia| |left; exact Hdz].
      intros j Hj. split; [apply Hdne, Hj|]. intros Hk.
      assert (Hxm : addm m s j < m) by (apply addm_lt; lia).
      destruct (K _ Hxm (Hdne j Hj) Hk) as [i' [Hi' _]]. exact (E i' Hi').
  Qed.

  Lemma good_ents_ext ents ents' sl :
    (forall p, p < m -> getw sl p <> 0 -> getw ents' (getw sl p - 1) = getw ents (getw sl p - 1)) ->
    good m mask ents sl -> good m mask ents' sl.
  Proof.
    intros Hext Hgood p Hp Hnz j. unfold hm. rewrite (Hext p Hp Hnz). apply Hgood; assumption.
  Qed.

  Lemma RI_ents_change ents sl asl i x :
    RI m mask ents sl asl -> cell asl i = None -> RI m mask (setw_nat ents i x) sl asl.
  Proof.
    intros HRI Hi. apply RI_parts in HRI as [Hr [Hx Hg]]. apply RI_parts.
    split; [apply ring_ents; assumption|]. split; [assumption|].
    apply (good_ents_ext ents); [|assumption].
    intros p Hp Hnz. destruct Hx as [_ [_ [Hs2c _]]]. destruct (Hs2c p Hp Hnz) as [i' [h' [Hv' Hc']]].
    rewrite Hv', !getw_of_nat. apply nth_setw_nat_other. congruence.
  Qed.

  Lemma RI_delete ents sl asl pos i :
    RI m mask ents sl asl -> length asl = n -> pos < m -> getw sl pos = N.of_nat i + 1 ->
    exists sl', idx_delete_at ents sl mask pos = (sl', false) /\ RI m mask ents sl' (set_nth asl i None).
  Proof.
    intros HRI Hn Hpos Hv.
    destruct (RI_exists_empty ents sl asl HRI Hn) as [e [He Hez]].
    apply RI_parts in HRI as [Hr [Hx Hg]]. pose proof Hx as [Hl [_ [Hs2c _]]].
    destruct (delete_at_spec m mask ents Hnext Hhome sl pos e Hl Hpos He Hg ltac:(lia) Hez)
      as [sl' [Hrun [Hg' Hsc]]].
    exists sl'. split; [exact Hrun|]. apply RI_parts.
    destruct (Hs2c pos Hpos ltac:(lia)) as [i0 [h0 [Hv0 Hc0]]]. assert (i0 = i) by lia. subst i0.
    split; [apply ring_set; [assumption|exact (cell_some_lt asl i h0 Hc0)|discriminate]|].
    split; [exact (index_moved m _ sl' _ Hsc (index_unset m sl asl pos i Hx Hpos Hv))|exact Hg'].
  Qed.

  Lemma RI_insert ents sl asl i h :
    RI m mask ents sl asl -> length asl = n -> (i < n)%nat -> cell asl i = None ->
    nth i ents 0 = h -> (forall j, cell asl j <> Some h) ->
    exists sl', idx_insert ents sl mask h (N.of_nat i) = (sl', false) /\
                RI m mask ents sl' (set_nth asl i (Some h)).
  Proof.
    intros HRI Hn Hi Hci Hei Hab.
    destruct (RI_exists_empty ents sl asl HRI Hn) as [e [He Hez]].
    apply RI_parts in HRI as [Hr [Hx Hg]]. pose proof Hx as [Hl _].
    unfold idx_insert.
    set (s := N.land (avalanche h) mask) in *.
    assert (Hs : s < m) by apply Hhome.
    destruct (first_empty m mask Hnext sl s e Hs He Hez) as [d [Hd [Hdz Hdne]]].
    pose proof (dist_lt m s e Hs He) as Hde.
    assert (Hdm : d < m) by lia.
    assert (Hq : addm m s d < m) by (apply addm_lt; lia).
    rewrite <- Hn in Hi.
    exists (setw sl (addm m s d) (N.of_nat i + 1)). split.
    { apply (insert_from_spec m mask Hnext d); try assumption. unfold lenN in Hl. lia. }
    apply RI_parts. split; [apply ring_set; [assumption|assumption|intros x [= <-]; auto]|].
    split; [apply index_fill; assumption|].
    (* the new entry is reachable by the choice of d, the others because a slot was only filled *)
    assert (G : forall x, getw (setw sl (addm m s d) (N.of_nat i + 1)) x
                          = if x =? addm m s d then N.of_nat i + 1 else getw sl x)
      by (intros x; apply getw_setw; lia).
    intros p Hp. rewrite (G p). destruct (N.eqb_spec p (addm m s d)) as [->|].
    - intros _ j. unfold hm. rewrite getw_of_nat, Hei. fold s. rewrite dist_addm by assumption. intros Hj.
      rewrite G. destruct (N.eqb_spec (addm m s j) (addm m s d)); [lia|]. apply Hdne, Hj.
    - intros Hpnz j Hj. rewrite G.
      destruct (N.eqb_spec (addm m (hm mask ents (getw sl p)) j) (addm m s d)); [lia|].
      apply Hg; assumption.
  Qed.

  (* g_add's eviction of the fingerprint stored in the ring cell under the cursor *)
  Lemma evict_spec ents sl asl cur lv :
    RI m mask ents sl asl -> length asl = n -> (cur < n)%nat -> lv = N.of_nat (count_some asl) ->
    exists pos okold sl1 lv1,
      idx_find_from (length sl) ents sl mask (N.land (avalanche (nth cur ents 0)) mask) (nth cur ents 0)
        = (pos, okold, false) /\
      (if okold && (getw sl pos =? N.of_nat cur + 1)
       then let '(s, e) := idx_delete_at ents sl mask pos in (s, lv - 1, e)
       else (sl, lv, false)) = (sl1, lv1, false) /\
      RI m mask ents sl1 (set_nth asl cur None) /\
      lv1 = N.of_nat (count_some (set_nth asl cur None)).
  Proof.
    intros HRI Hn Hcur Hlv.
    pose proof HRI as [Hl [Hel [Hnd [Hents [Hcnt [Hs2c [Hc2s [Hinj Hgood]]]]]]]].
    set (old := nth cur ents 0).
    destruct (find_spec ents sl asl 0%nat old HRI Hn) as [p [Hf Hown]].
    exists p, (a_contains {| aslots := asl; acur := 0 |} old).
    destruct (cell asl cur) as [h0|] eqn:Ec.
    - assert (Hold : old = h0) by (apply Hents; assumption). rewrite Hold in *.
      destruct (Hown cur Ec) as [Hp Hpv].
      destruct (RI_delete ents sl asl p cur HRI Hn Hp Hpv) as [sl1 [Hdel HRI1]].
      exists sl1, (lv - 1). split; [exact Hf|].
      replace (a_contains _ h0) with true by (symmetry; apply a_contains_true; eauto).
      rewrite Hpv, N.eqb_refl. cbn [andb]. rewrite Hdel. split; [reflexivity|]. split; [exact HRI1|].
      pose proof (count_some_set_nth asl cur None ltac:(lia)) as H1. rewrite Ec in H1. cbn [osome] in H1.
      lia.
    - (* empty cell: whatever the stale ring word finds belongs to another cell *)
      replace (set_nth asl cur None) with asl by (rewrite <- Ec; symmetry; apply set_nth_cell).
      exists sl, lv. split; [exact Hf|]. split; [|split; assumption].
      destruct (a_contains _ old) eqn:E; [|reflexivity].
      apply a_contains_true in E. destruct E as [i Hi]. destruct (Hown i Hi) as [_ Hpv].
      assert (i <> cur) by congruence.
      destruct (getw sl p =? N.of_nat cur + 1) eqn:E1; [lia|reflexivity].
  Qed.
End Index.

(* The refinement relation between a ghostQueue and the abstract ring: same cursor, no error, the live
   count is the number of occupied cells, the index has the shape of newGhostQueue and represents the ring. *)
Definition R (g : ghost) (r : aring) : Prop :=
  let n := length (aslots r) in
  (1 <= n)%nat /\ (acur r < n)%nat /\ gnext g = N.of_nat (acur r) /\ gerr g = false /\
  glive g = N.of_nat (count_some (aslots r)) /\
  geom (lenN (gslots g)) (gmask g) n /\
  RI (lenN (gslots g)) (gmask g) (entries g) (gslots g) (aslots r).

Lemma R_fresh (n k : nat) mask : (1 <= n)%nat -> geom (N.of_nat k) mask n ->
  R {| entries := repeat 0 n; gslots := repeat 0 k; gmask := mask; gnext := 0; glive := 0; gerr := false |}
    (a_new n).
Proof.
  intros Hn Hg. unfold R, RI, a_new, lenN. cbn [aslots acur entries gslots gmask gnext glive gerr].
  rewrite !repeat_length, cnt_repeat0, count_some_repeat.
  split; [assumption|]. split; [lia|]. do 3 (split; [reflexivity|]). split; [assumption|].
  do 2 (split; [reflexivity|]).
  split; [intros i j h Hi; rewrite cell_repeat_none in Hi; discriminate|].
  split; [intros i h Hi; rewrite cell_repeat_none in Hi; discriminate|].
  split; [reflexivity|].
  split; [intros p _ Hp; rewrite getw_repeat0 in Hp; congruence|].
  split; [intros i h Hi; rewrite cell_repeat_none in Hi; discriminate|].
  split; [intros p q _ _ Hp; rewrite getw_repeat0 in Hp; congruence|].
  intros p _ Hp. rewrite getw_repeat0 in Hp. congruence.
Qed.

Theorem new_ghost_refines (n : nat) (k : N) :
  (1 <= n)%nat -> 2 * N.of_nat n <= 2 ^ k ->
  R (new_ghost (N.of_nat n) (2 ^ k)) (a_new n).
Proof.
  intros Hn Hm. unfold new_ghost. rewrite Nat2N.id. apply R_fresh; [assumption|]. rewrite N2Nat.id.
  split; [exists k; reflexivity|split; [reflexivity|assumption]].
Qed.

Lemma R_gerr g r : R g r -> gerr g = false.
Proof. intros [_ [_ [_ [Herr _]]]]. exact Herr. Qed.

Lemma R_glive g r : R g r -> glive g = N.of_nat (count_some (aslots r)).
Proof. intros [_ [_ [_ [_ [Hlive _]]]]]. exact Hlive. Qed.

Lemma R_not_disabled g r : R g r -> ghost_disabled g = false.
Proof.
  intros [Hn [_ [_ [_ [_ [_ [_ [Hel _]]]]]]]]. unfold ghost_disabled.
  destruct (entries g); [cbn [length] in Hel; lia|reflexivity].
Qed.

Theorem g_contains_refines g r h : R g r -> g_contains g h = a_contains r h.
Proof.
  intros HR. pose proof (R_not_disabled g r HR) as Hdis.
  destruct HR as [Hn [Hcur [Hnx [Herr [Hlive [Hgeom HRI]]]]]].
  unfold g_contains. rewrite Hdis. unfold idx_find, probe_start.
  destruct r as [asl cur]. cbn [aslots acur] in *.
  destruct (find_spec _ _ _ Hgeom _ _ _ cur h HRI eq_refl) as [p [Hf _]]. rewrite Hf. reflexivity.
Qed.

Theorem g_clear_refines g r : R g r -> R (g_clear g) (a_clear r).
Proof.
  intros [Hn [Hcur [Hnx [Herr [Hlive [Hgeom [Hl [Hel _]]]]]]]].
  unfold g_clear, a_clear. rewrite !map_const, Herr, Hel. apply R_fresh; assumption.
Qed.

(* capacity 0: the ghost is inert *)
Theorem ghost_disabled_inert g h :
  ghost_disabled g = true ->
  g_contains g h = false /\ g_add g h = g /\ g_remove g h = (g, false).
Proof.
  intros Hd. unfold g_contains, g_add, g_remove. rewrite Hd. auto.
Qed.

Lemma new_ghost_0_disabled m : ghost_disabled (new_ghost 0 m) = true.
Proof. reflexivity. Qed.

Lemma ghost_disabled_clear g : ghost_disabled g = true -> ghost_disabled (g_clear g) = true.
Proof. unfold ghost_disabled, g_clear. cbn [entries]. destruct (entries g); [reflexivity|discriminate]. Qed.

Lemma succ_mod_nat c n : (c < n)%nat -> ((c + 1) mod n = if (c + 1 =? n)%nat then 0 else c + 1)%nat.
Proof.
  intros Hc. destruct (c + 1 =? n)%nat eqn:E.
  - apply Nat.eqb_eq in E. rewrite E. apply Nat.mod_same. lia.
  - apply Nat.eqb_neq in E. apply Nat.mod_small. lia.
Qed.

Theorem g_add_refines g r h : R g r -> R (g_add g h) (a_add r h).
Proof.
  intros HR. pose proof (R_not_disabled g r HR) as Hdis.
  pose proof HR as [Hn [Hcur [Hnx [Herr [Hlive [Hgeom HRI]]]]]].
  destruct r as [asl cur]. destruct g as [ents sl mask nx lv er].
  cbn [aslots acur entries gslots gmask gnext glive gerr] in *. subst nx er.
  unfold g_add, a_add. rewrite Hdis. unfold idx_find, probe_start.
  cbn [aslots acur entries gslots gmask gnext glive gerr].
  destruct (find_spec _ _ _ Hgeom _ _ _ cur h HRI eq_refl) as [p [Hf _]]. rewrite Hf.
  destruct (a_contains {| aslots := asl; acur := cur |} h) eqn:E; [exact HR|].
  rewrite a_contains_false in E. cbv zeta. rewrite getw_of_nat'.
  destruct (evict_spec _ _ _ Hgeom ents sl asl cur lv HRI eq_refl Hcur Hlive)
    as [pos [okold [sl1 [lv1 [Hf1 [Hev [HRI1 Hlv1]]]]]]].
  rewrite Hf1, Hev.
  pose proof HRI as [Hl [Hel _]].
  assert (Hc1 : cell (set_nth asl cur None) cur = None) by (apply cell_set_nth_same; exact Hcur).
  replace (setw ents (N.of_nat cur) h) with (setw_nat ents cur h) by (unfold setw; now rewrite Nat2N.id).
  destruct (RI_insert _ _ _ Hgeom (setw_nat ents cur h) sl1 (set_nth asl cur None) cur h
              (RI_ents_change _ _ ents sl1 _ cur h HRI1 Hc1) (set_nth_length _ _ _) Hcur Hc1) as [sl2 [Hins HRI3]].
  { apply nth_setw_nat_same. lia. }
  { intros j. rewrite cell_set_nth by exact Hcur. destruct (Nat.eqb_spec j cur); [discriminate|apply E]. }
  rewrite Hins. rewrite set_nth_twice in HRI3.
  unfold R. cbn [aslots acur entries gslots gmask gnext glive gerr].
  rewrite set_nth_length, (proj1 HRI3).
  split; [assumption|].
  split; [apply Nat.mod_upper_bound; lia|].
  split.
  { rewrite succ_mod_nat, Hel by assumption.
    destruct (Nat.eqb_spec (cur + 1) (length asl)), (N.eqb_spec (N.of_nat cur + 1) (N.of_nat (length asl))); lia. }
  split; [reflexivity|].
  split.
  { pose proof (count_some_set_nth (set_nth asl cur None) cur (Some h) ltac:(rewrite set_nth_length; exact Hcur)) as H1.
    rewrite Hc1, set_nth_twice in H1. cbn [osome] in H1. lia. }
  split; [exact Hgeom|exact HRI3].
Qed.

(* g_remove_refines below in the form that the step and run lemmas use (projections instead of a let) *)
Theorem g_remove_refines' g r h :
  R g r -> snd (g_remove g h) = snd (a_remove r h) /\ R (fst (g_remove g h)) (fst (a_remove r h)).
Proof.
  intros HR. pose proof (R_not_disabled g r HR) as Hdis.
  pose proof HR as [Hn [Hcur [Hnx [Herr [Hlive [Hgeom HRI]]]]]].
  destruct r as [asl cur]. destruct g as [ents sl mask nx lv er].
  cbn [aslots acur entries gslots gmask gnext glive gerr] in *. subst nx er.
  unfold g_remove, a_remove. rewrite Hdis. unfold idx_find, probe_start.
  cbn [aslots acur entries gslots gmask gnext glive gerr].
  destruct (find_spec _ _ _ Hgeom _ _ _ cur h HRI eq_refl) as [p [Hf Hown]]. rewrite Hf.
  destruct (a_contains {| aslots := asl; acur := cur |} h) eqn:E.
  - apply a_contains_true in E. destruct E as [i Hi]. destruct (Hown i Hi) as [Hp Hpv].
    cbn [negb]. cbv zeta.
    destruct (RI_delete _ _ _ Hgeom ents sl asl p i HRI eq_refl Hp Hpv) as [sl1 [Hdel HRI1]].
    rewrite Hdel. cbn [fst snd]. split; [reflexivity|].
    pose proof HRI as [_ [_ [Hnd _]]]. rewrite (remove_map_set_nth asl i h Hnd Hi).
    pose proof (cell_some_lt asl i h Hi) as Hilt.
    assert (Hc1 : cell (set_nth asl i None) i = None) by (apply cell_set_nth_same; assumption).
    replace (setw ents (getw sl p - 1) 0) with (setw_nat ents i 0) by (unfold setw; f_equal; lia).
    unfold R. cbn [aslots acur entries gslots gmask gnext glive gerr].
    rewrite set_nth_length, (proj1 HRI1).
    split; [assumption|]. split; [assumption|]. split; [reflexivity|]. split; [reflexivity|].
    split.
    { pose proof (count_some_set_nth asl i None Hilt) as H1. rewrite Hi in H1. cbn [osome] in H1. lia. }
    split; [exact Hgeom|exact (RI_ents_change _ _ ents sl1 _ i 0 HRI1 Hc1)].
  - cbn [negb fst snd orb]. split; [reflexivity|]. exact HR.
Qed.

Theorem g_remove_refines g r h :
  R g r ->
  let (g', ok) := g_remove g h in let (r', ok') := a_remove r h in ok = ok' /\ R g' r'.
Proof.
  intros HR. pose proof (g_remove_refines' g r h HR) as H.
  destruct (g_remove g h) as [g' ok]. destruct (a_remove r h) as [r' ok']. exact H.
Qed.

Inductive gop := OpAdd (h : N) | OpRemove (h : N) | OpContains (h : N) | OpClear.

Definition g_step (g : ghost) (op : gop) : ghost * option bool :=
  match op with
  | OpAdd h => (g_add g h, None)
  | OpRemove h => let '(g', ok) := g_remove g h in (g', Some ok)
  | OpContains h => (g, Some (g_contains g h))
  | OpClear => (g_clear g, None)
  end.

Definition a_step (r : aring) (op : gop) : aring * option bool :=
  match op with
  | OpAdd h => (a_add r h, None)
  | OpRemove h => let '(r', ok) := a_remove r h in (r', Some ok)
  | OpContains h => (r, Some (a_contains r h))
  | OpClear => (a_clear r, None)
  end.

Lemma step_refines g r op :
  R g r -> snd (g_step g op) = snd (a_step r op) /\ R (fst (g_step g op)) (fst (a_step r op)).
Proof.
  intros HR. destruct op as [h|h|h|]; cbn [g_step a_step].
  - cbn [fst snd]. split; [reflexivity|]. apply g_add_refines. exact HR.
  - pose proof (g_remove_refines' g r h HR) as [H1 H2].
    destruct (g_remove g h) as [g' ok]. destruct (a_remove r h) as [r' ok'].
    cbn [fst snd] in *. split; [congruence|assumption].
  - cbn [fst snd]. split; [|exact HR]. f_equal. apply g_contains_refines. exact HR.
  - cbn [fst snd]. split; [reflexivity|]. apply g_clear_refines. exact HR.
Qed.

Theorem run_refines ops : forall g r,
  R g r ->
  run_out g_step g ops = run_out a_step r ops /\
  R (run_state g_step g ops) (run_state a_step r ops).
Proof. exact (run_simulation g_step a_step R step_refines ops). Qed.

(* the probe loops never run out of fuel *)
Corollary ghost_never_errs (n : nat) (k : N) ops :
  (1 <= n)%nat -> 2 * N.of_nat n <= 2 ^ k ->
  gerr (run_state g_step (new_ghost (N.of_nat n) (2 ^ k)) ops) = false.
Proof.
  intros Hn Hm.
  destruct (run_refines ops _ _ (new_ghost_refines n k Hn Hm)) as [_ HR].
  exact (R_gerr _ _ HR).
Qed.

Corollary ghost_observations (n : nat) (k : N) ops :
  (1 <= n)%nat -> 2 * N.of_nat n <= 2 ^ k ->
  run_out g_step (new_ghost (N.of_nat n) (2 ^ k)) ops = run_out a_step (a_new n) ops /\
  glive (run_state g_step (new_ghost (N.of_nat n) (2 ^ k)) ops)
    = N.of_nat (count_some (aslots (run_state a_step (a_new n) ops))).
Proof.
  intros Hn Hm.
  destruct (run_refines ops _ _ (new_ghost_refines n k Hn Hm)) as [Hout HR].
  split; [exact Hout|exact (R_glive _ _ HR)].
Qed.

(* history of ACCEPTED adds, newest first, each with a "removed since" flag *)
Definition hist := list (N * bool).

Definition live_entry (h : N) (e : N * bool) : bool := (fst e =? h) && negb (snd e).

Definition live_in (n : nat) (H : hist) (h : N) : bool := existsb (live_entry h) (firstn n H).

Definition h_add (n : nat) (H : hist) (h : N) : hist :=
  if live_in n H h then H else (h, false) :: H.

Fixpoint mark_removed (k : nat) (H : hist) (h : N) : hist :=
  match k, H with
  | S k', (x, rm) :: t =>
      if (x =? h) && negb rm then (x, true) :: t else (x, rm) :: mark_removed k' t h
  | _, _ => H
  end.

Definition h_step (n : nat) (H : hist) (op : gop) : hist :=
  match op with
  | OpAdd h => h_add n H h
  | OpRemove h => mark_removed n H h
  | OpContains _ => H
  | OpClear => []
  end.

Definition hcell (H : hist) (j : nat) : option N :=
  match nth_error H j with Some (x, false) => Some x | _ => None end.

Lemma hcell_nil j : hcell [] j = None.
Proof. unfold hcell. destruct j; reflexivity. Qed.

Lemma hcell_cons_S e H j : hcell (e :: H) (S j) = hcell H j.
Proof. reflexivity. Qed.

Lemma hcell_some H j h : hcell H j = Some h <-> nth_error H j = Some (h, false).
Proof.
  unfold hcell. destruct (nth_error H j) as [[x [|]]|]; split; intros E; try discriminate;
    injection E as ->; reflexivity.
Qed.

Lemma live_in_iff n : forall H h, live_in n H h = true <-> exists j, (j < n)%nat /\ hcell H j = Some h.
Proof.
  unfold live_in. induction n as [|n IH]; intros H h.
  - cbn [firstn existsb]. split; [discriminate|]. intros [j [Hj _]]. lia.
  - destruct H as [|[x rm] t].
    + cbn [firstn existsb]. split; [discriminate|]. intros [j [_ Hj]]. rewrite hcell_nil in Hj. discriminate.
    + cbn [firstn existsb]. rewrite Bool.orb_true_iff, IH. split.
      * intros [Hl|[j [Hj Hc]]].
        { unfold live_entry in Hl. cbn [fst snd] in Hl. apply Bool.andb_true_iff in Hl. destruct Hl as [H1 H2].
          apply N.eqb_eq in H1. subst x. destruct rm; [discriminate|].
          exists 0%nat. split; [lia|reflexivity]. }
        { exists (S j). split; [lia|]. rewrite hcell_cons_S. exact Hc. }
      * intros [j [Hj Hc]]. destruct j as [|j].
        { left. unfold hcell in Hc. cbn [nth_error] in Hc. destruct rm; [discriminate|].
          injection Hc as ->. unfold live_entry. cbn [fst snd negb]. now rewrite N.eqb_refl. }
        { right. exists j. split; [lia|]. rewrite hcell_cons_S in Hc. exact Hc. }
Qed.

(* ring cell holding the j-th newest accepted add when the cursor is cur *)
Definition widx (n cur j : nat) : nat :=
  if (j <? cur)%nat then (cur - 1 - j)%nat else (cur + n - 1 - j)%nat.

Lemma widx_lt n cur j : (cur < n)%nat -> (j < n)%nat -> (widx n cur j < n)%nat.
Proof. intros Hc Hj. unfold widx. destruct (Nat.ltb_spec j cur); lia. Qed.

Lemma widx_invol n cur j : (cur < n)%nat -> (j < n)%nat -> widx n cur (widx n cur j) = j.
Proof.
  intros Hc Hj. unfold widx.
  destruct (Nat.ltb_spec j cur) as [H1|H1].
  - destruct (Nat.ltb_spec (cur - 1 - j) cur); lia.
  - destruct (Nat.ltb_spec (cur + n - 1 - j) cur); lia.
Qed.

Lemma widx_succ_0 n cur : (cur < n)%nat -> widx n ((cur + 1) mod n) 0 = cur.
Proof.
  intros Hc. rewrite succ_mod_nat by assumption. unfold widx.
  destruct (Nat.eqb_spec (cur + 1) n) as [E|E].
  - destruct (Nat.ltb_spec 0 0); lia.
  - destruct (Nat.ltb_spec 0 (cur + 1)); lia.
Qed.

Lemma widx_succ_S n cur j :
  (cur < n)%nat -> (S j < n)%nat ->
  widx n ((cur + 1) mod n) (S j) = widx n cur j /\ widx n cur j <> cur.
Proof.
  intros Hc Hj. rewrite succ_mod_nat by assumption. unfold widx.
  destruct (Nat.eqb_spec (cur + 1) n) as [E|E].
  - destruct (Nat.ltb_spec (S j) 0); [lia|]. destruct (Nat.ltb_spec j cur); lia.
  - destruct (Nat.ltb_spec (S j) (cur + 1)); destruct (Nat.ltb_spec j cur); lia.
Qed.

(* the ring holds the window of the history: its j-th newest cell is the j-th entry of H, if still live *)
Definition Wwin (n : nat) (asl : list (option N)) (cur : nat) (H : hist) : Prop :=
  forall j, (j < n)%nat -> cell asl (widx n cur j) = hcell H j.

Definition uniq (n : nat) (H : hist) : Prop :=
  forall j1 j2 h, (j1 < n)%nat -> (j2 < n)%nat -> hcell H j1 = Some h -> hcell H j2 = Some h -> j1 = j2.

(* a live entry in the window is the latest accepted add of its fingerprint *)
Definition latest (n : nat) (H : hist) : Prop :=
  forall j h, (j < n)%nat -> hcell H j = Some h ->
  forall j' e, (j' < j)%nat -> nth_error H j' = Some e -> fst e <> h.

Lemma latest_uniq n H : latest n H -> uniq n H.
Proof.
  intros Hlat.
  assert (K : forall a b h, (a < b)%nat -> (b < n)%nat -> hcell H a = Some h -> hcell H b <> Some h).
  { intros a b h Hab Hb Ha Hcb. apply hcell_some in Ha. exact (Hlat b h Hb Hcb a _ Hab Ha eq_refl). }
  intros j1 j2 h H1 H2 Hc1 Hc2.
  destruct (Nat.lt_trichotomy j1 j2) as [Hlt|[Heq|Hgt]]; [elim (K j1 j2 h)|exact Heq|elim (K j2 j1 h)]; assumption.
Qed.

Definition fifo_inv (n : nat) (r : aring) (H : hist) : Prop :=
  length (aslots r) = n /\ (acur r < n)%nat /\ Wwin n (aslots r) (acur r) H /\ latest n H.

Lemma contains_live_in n r H h : fifo_inv n r H -> a_contains r h = live_in n H h.
Proof.
  intros [Hlen [Hcur [HW _]]]. destruct r as [asl cur]. cbn [aslots acur] in *.
  apply Bool.eq_iff_eq_true. rewrite a_contains_true, live_in_iff. split.
  - intros [i Hi]. pose proof (cell_some_lt asl i h Hi) as Hil. rewrite Hlen in Hil.
    exists (widx n cur i). split; [apply widx_lt; assumption|].
    rewrite <- HW by (apply widx_lt; assumption). rewrite widx_invol by assumption. exact Hi.
  - intros [j [Hj Hc]]. exists (widx n cur j). rewrite HW by assumption. exact Hc.
Qed.

Lemma hcell_mark_removed h : forall k H j,
  uniq k H -> (j < k)%nat ->
  hcell (mark_removed k H h) j = if cell_is h (hcell H j) then None else hcell H j.
Proof.
  induction k as [|k IH]; intros H j Hu Hj; [lia|].
  destruct H as [|[x rm] t].
  - cbn [mark_removed]. rewrite hcell_nil. reflexivity.
  - cbn [mark_removed].
    assert (Hu' : uniq k t).
    { intros j1 j2 y H1 H2 Hc1 Hc2. assert (S j1 = S j2); [|lia].
      apply (Hu (S j1) (S j2) y); try lia; rewrite hcell_cons_S; assumption. }
    destruct ((x =? h) && negb rm) eqn:E.
    + apply Bool.andb_true_iff in E. destruct E as [E1 E2]. apply N.eqb_eq in E1. subst x.
      destruct rm; [discriminate|].
      destruct j as [|j].
      * unfold hcell. cbn [nth_error cell_is]. now rewrite N.eqb_refl.
      * rewrite !hcell_cons_S.
        destruct (hcell t j) as [y|] eqn:Ey; cbn [cell_is]; [|reflexivity].
        destruct (y =? h) eqn:E3; [|reflexivity]. apply N.eqb_eq in E3. subst y.
        exfalso. assert (0 = S j)%nat; [|lia].
        apply (Hu 0%nat (S j) h); try lia; [reflexivity|]. rewrite hcell_cons_S. exact Ey.
    + destruct j as [|j].
      * unfold hcell. cbn [nth_error]. destruct rm; [reflexivity|]. cbn [cell_is].
        rewrite Bool.andb_true_r in E. now rewrite E.
      * rewrite !hcell_cons_S. apply IH; [assumption|lia].
Qed.

Lemma mark_removed_fst h : forall k H j,
  option_map fst (nth_error (mark_removed k H h) j) = option_map fst (nth_error H j).
Proof.
  induction k as [|k IH]; intros H j; [reflexivity|].
  destruct H as [|[x rm] t]; [reflexivity|]. cbn [mark_removed].
  destruct ((x =? h) && negb rm).
  - destruct j; reflexivity.
  - destruct j; [reflexivity|]. cbn [nth_error]. apply IH.
Qed.

Lemma fifo_step n r H op :
  fifo_inv n r H -> fifo_inv n (fst (a_step r op)) (h_step n H op).
Proof.
  intros Hinv. pose proof (fun h => contains_live_in n r H h Hinv) as Hcl.
  destruct Hinv as [Hlen [Hcur [HW Hlat]]]. pose proof (latest_uniq n H Hlat) as Hu.
  destruct r as [asl cur]. cbn [aslots acur] in *.
  destruct op as [h|h|h|]; cbn [a_step h_step fst].
  - unfold a_add, h_add. rewrite <- Hcl.
    destruct (a_contains {| aslots := asl; acur := cur |} h) eqn:E.
    { unfold fifo_inv. cbn [aslots acur]. auto. }
    cbn [aslots acur]. rewrite Hcl in E.
    assert (Hnl : forall j, (j < n)%nat -> hcell H j <> Some h).
    { intros j Hj Hc. assert (live_in n H h = true) by (apply live_in_iff; eauto). congruence. }
    unfold fifo_inv. cbn [aslots acur]. rewrite set_nth_length.
    split; [assumption|]. split; [rewrite Hlen; apply Nat.mod_upper_bound; lia|]. rewrite Hlen.
    split.
    + intros j Hj. destruct j as [|j].
      * rewrite widx_succ_0 by assumption. rewrite cell_set_nth_same by lia. reflexivity.
      * destruct (widx_succ_S n cur j Hcur Hj) as [H1 H2]. rewrite H1.
        rewrite cell_set_nth_other by congruence. rewrite hcell_cons_S. apply HW. lia.
    + intros j y Hj Hc j' e Hj' He.
      destruct j as [|j]; [lia|]. rewrite hcell_cons_S in Hc.
      destruct j' as [|j'].
      * cbn [nth_error] in He. injection He as <-. cbn [fst]. intros ->. apply (Hnl j); [lia|assumption].
      * cbn [nth_error] in He. apply (Hlat j y ltac:(lia) Hc j' e); [lia|assumption].
  - rewrite a_remove_eq. cbn [fst].
    assert (Hsub : forall j y, (j < n)%nat -> hcell (mark_removed n H h) j = Some y -> hcell H j = Some y).
    { intros j y Hj. rewrite hcell_mark_removed by assumption.
      destruct (cell_is h (hcell H j)); [discriminate|auto]. }
    unfold fifo_inv. cbn [aslots acur]. rewrite map_length.
    split; [assumption|]. split; [assumption|]. split.
    + intros j Hj. rewrite cell_map_clear, hcell_mark_removed, !HW by assumption. reflexivity.
    + intros j y Hj Hc j' e Hj' He.
      pose proof (mark_removed_fst h n H j') as Hf. rewrite He in Hf. cbn [option_map] in Hf.
      destruct (nth_error H j') as [e0|] eqn:E0; [|discriminate]. cbn [option_map] in Hf.
      injection Hf as Hf. rewrite Hf.
      apply (Hlat j y Hj (Hsub j y Hj Hc) j' e0 Hj' E0).
  - unfold fifo_inv. cbn [aslots acur]. auto.
  - unfold a_clear, fifo_inv. cbn [aslots acur]. rewrite map_length.
    split; [assumption|]. split; [lia|]. split.
    + intros j Hj. rewrite map_const, cell_repeat_none, hcell_nil. reflexivity.
    + intros j y _ Hc. rewrite hcell_nil in Hc. discriminate.
Qed.

Lemma fifo_inv_new n : (1 <= n)%nat -> fifo_inv n (a_new n) [].
Proof.
  intros Hn. unfold fifo_inv, a_new. cbn [aslots acur]. rewrite repeat_length.
  split; [reflexivity|]. split; [lia|]. split.
  - intros j Hj. rewrite cell_repeat_none, hcell_nil. reflexivity.
  - intros j y _ Hc. rewrite hcell_nil in Hc. discriminate.
Qed.

Lemma fifo_lockstep n ops : forall r H,
  fifo_inv n r H -> fifo_inv n (run_state a_step r ops) (fold_left (h_step n) ops H).
Proof.
  intros r H. rewrite run_state_fold. revert r H.
  induction ops as [|op ops IH]; intros r H Hinv; cbn [fold_left]; [exact Hinv|].
  apply IH. apply fifo_step. exact Hinv.
Qed.

Theorem fifo_window n ops h :
  (1 <= n)%nat ->
  a_contains (run_state a_step (a_new n) ops) h = live_in n (fold_left (h_step n) ops []) h.
Proof.
  intros Hn. apply contains_live_in. apply fifo_lockstep. apply fifo_inv_new. exact Hn.
Qed.

Theorem fifo_window_latest n ops h :
  (1 <= n)%nat ->
  let H := fold_left (h_step n) ops [] in
  a_contains (run_state a_step (a_new n) ops) h = true <->
  exists j, (j < n)%nat /\ nth_error H j = Some (h, false) /\
            forall j' e, (j' < j)%nat -> nth_error H j' = Some e -> fst e <> h.
Proof.
  intros Hn H.
  pose proof (fifo_lockstep n ops _ _ (fifo_inv_new n Hn)) as Hinv. fold H in Hinv.
  rewrite (contains_live_in n _ H h Hinv). rewrite live_in_iff.
  destruct Hinv as [_ [_ [_ Hlat]]].
  split.
  - intros [j [Hj Hc]]. exists j. split; [assumption|]. split; [apply hcell_some, Hc|apply (Hlat j h Hj Hc)].
  - intros [j [Hj [Hc _]]]. exists j. split; [assumption|apply hcell_some, Hc].
Qed.

Corollary ghost_fifo_window (n : nat) (k : N) ops h :
  (1 <= n)%nat -> 2 * N.of_nat n <= 2 ^ k ->
  g_contains (run_state g_step (new_ghost (N.of_nat n) (2 ^ k)) ops) h
  = live_in n (fold_left (h_step n) ops []) h.
Proof.
  intros Hn Hm.
  destruct (run_refines ops _ _ (new_ghost_refines n k Hn Hm)) as [_ HR].
  rewrite (g_contains_refines _ _ h HR). apply fifo_window. exact Hn.
Qed.

Lemma R_reachable g r i h :
  R g r -> cell (aslots r) i = Some h ->
  let m := lenN (gslots g) in
  nth i (entries g) 0 = h /\
  exists d, d < m /\ getw (gslots g) (addm m (probe_start g h) d) = N.of_nat i + 1 /\
            forall j, j < d -> getw (gslots g) (addm m (probe_start g h) j) <> 0.
Proof.
  intros [Hn [Hcur [Hnx [Herr [Hlive [Hgeom HRI]]]]]] Hi m.
  destruct HRI as [Hl [Hel [Hnd [Hents [Hcnt [Hs2c [Hc2s [Hinj Hgood]]]]]]]].
  split; [apply Hents; assumption|].
  destruct (Hc2s i h Hi) as [p [Hp Hpv]].
  pose proof (Hgood p Hp ltac:(lia)) as Hpath. rewrite Hpv in Hpath.
  unfold hm in Hpath. rewrite getw_of_nat, (Hents i h Hi) in Hpath.
  fold (probe_start g h) in Hpath.
  assert (Hs : probe_start g h < m) by (apply (geom_home _ _ _ Hgeom)).
  exists (dist m (probe_start g h) p). split; [apply dist_lt; assumption|].
  split; [rewrite addm_dist by assumption; exact Hpv|exact Hpath].
Qed.

Lemma R_slot_owner g r p :
  R g r -> p < lenN (gslots g) -> getw (gslots g) p <> 0 ->
  exists i h, getw (gslots g) p = N.of_nat i + 1 /\ cell (aslots r) i = Some h /\
              forall q, q < lenN (gslots g) -> getw (gslots g) q = getw (gslots g) p -> q = p.
Proof.
  intros [Hn [Hcur [Hnx [Herr [Hlive [Hgeom HRI]]]]]] Hp Hnz.
  destruct HRI as [Hl [Hel [Hnd [Hents [Hcnt [Hs2c [Hc2s [Hinj Hgood]]]]]]]].
  destruct (Hs2c p Hp Hnz) as [i [h [Hv Hc]]]. exists i, h. split; [assumption|]. split; [assumption|].
  intros q Hq Heq. symmetry. apply Hinj; auto.
Qed.

Lemma R_has_empty_slot g r : R g r -> exists e, e < lenN (gslots g) /\ getw (gslots g) e = 0.
Proof.
  intros [Hn [Hcur [Hnx [Herr [Hlive [Hgeom HRI]]]]]].
  apply (RI_exists_empty _ _ _ Hgeom _ _ _ HRI eq_refl).
Qed.

(* non-vacuity: a concrete ghost of capacity 3 with 8 index slots, with the real avalanche *)

(* 10, 20 and 30 all hash to index position 0, so evicting 10 re-inserts the cluster {20,30};
   40 hashes to 2, 50 to 6.  The adds wrap the ring, remove 40 leaves a hole, 40 is re-added. *)
Example ghost_example :
  let ops1 := [OpAdd 10; OpAdd 20; OpAdd 30; OpAdd 40; OpAdd 50; OpRemove 40] in
  let g1 := run_state g_step (new_ghost 3 8) ops1 in
  let r1 := run_state a_step (a_new 3) ops1 in
  let g2 := g_add (g_add g1 40) 20 in
  let r2 := a_add (a_add r1 40) 20 in
  map (fun h => N.land (avalanche h) 7) [10; 20; 30; 40; 50] = [0; 0; 0; 2; 6] /\
  g1 = {| entries := [0; 50; 30]; gslots := [3; 0; 0; 0; 0; 0; 2; 0]; gmask := 7;
          gnext := 2; glive := 2; gerr := false |} /\
  r1 = {| aslots := [None; Some 50; Some 30]; acur := 2 |} /\
  R g1 r1 /\
  g2 = {| entries := [20; 50; 40]; gslots := [1; 0; 3; 0; 0; 0; 2; 0]; gmask := 7;
          gnext := 1; glive := 3; gerr := false |} /\
  r2 = {| aslots := [Some 20; Some 50; Some 40]; acur := 1 |} /\
  R g2 r2 /\
  map (g_contains g2) [10; 20; 30; 40; 50] = [false; true; false; true; true] /\
  fold_left (h_step 3) (ops1 ++ [OpAdd 40; OpAdd 20]) []
    = [(20, false); (40, false); (50, false); (40, true); (30, false); (20, false); (10, false)].
Proof.
  intros ops1 g1 r1 g2 r2.
  assert (HR1 : R g1 r1).
  { pose proof (new_ghost_refines 3 3 ltac:(lia) ltac:(cbn; lia)) as H0.
    destruct (run_refines ops1 _ _ H0) as [_ H1]. exact H1. }
  assert (HR2 : R g2 r2) by (unfold g2, r2; do 2 apply g_add_refines; exact HR1).
  eassert (E1 : g1 = _) by (vm_compute; reflexivity).
  eassert (E2 : g2 = _) by (unfold g2; rewrite E1; vm_compute; reflexivity).
  split; [vm_compute; reflexivity|].
  split; [exact E1|].
  split; [vm_compute; reflexivity|].
  split; [exact HR1|].
  split; [exact E2|].
  split; [vm_compute; reflexivity|].
  split; [exact HR2|].
  split; [rewrite E2|]; vm_compute; reflexivity.
Qed.

(* the load condition matters: with m < 2n (here n = m = 2) the index fills up and the
   probe loops run out of fuel *)
Example load_condition_needed :
  gerr (run_state g_step (new_ghost 2 2) [OpAdd 1; OpAdd 2; OpAdd 3]) = true.
Proof. vm_compute. reflexivity. Qed.

(* the extracted Z-stream driver (ghost_step / ghost_init) never reports an error *)

Definition decode (op : list Z) : option gop :=
  match op with
  | [1; h] => Some (OpAdd (Z.to_N h))
  | [2; h] => Some (OpRemove (Z.to_N h))
  | [3; h] => Some (OpContains (Z.to_N h))
  | [4] => Some OpClear
  | _ => None
  end%Z.

Lemma ghost_step_decode g op :
  fst (ghost_step g op) = match decode op with Some o => fst (g_step g o) | None => g end.
Proof.
  (* ghost_step and decode branch on the same patterns [1; h], [2; h], [3; h], [4]; once op is split along
     them the two sides coincide, up to the pair that g_step destructures in the remove case *)
  unfold ghost_step, decode.
  repeat match goal with
  | |- context[match ?x with _ => _ end] => is_var x; destruct x
  end; try reflexivity.
  all: cbn [g_step fst]; try reflexivity.
  all: match goal with |- context[g_remove ?g0 ?h] => destruct (g_remove g0 h) end; reflexivity.
Qed.

Lemma ghost_step_R g r op : R g r -> exists r', R (fst (ghost_step g op)) r'.
Proof.
  intros HR. rewrite ghost_step_decode. destruct (decode op) as [o|].
  - exists (fst (a_step r o)). apply step_refines. exact HR.
  - exists r. exact HR.
Qed.

Theorem ghost_stream_never_errs (n : nat) (k : N) (ops : list (list Z)) :
  (1 <= n)%nat -> 2 * N.of_nat n <= 2 ^ k ->
  gerr (run_state ghost_step (ghost_init [Z.of_nat n; Z.of_N (2 ^ k)]) ops) = false.
Proof.
  intros Hn Hm. unfold ghost_init.
  replace (Z.to_N (Z.of_nat n)) with (N.of_nat n) by lia. rewrite N2Z.id.
  pose proof (new_ghost_refines n k Hn Hm) as HR.
  destruct (run_invariant ghost_step (fun g => exists r, R g r) (fun _ => True)) with (ins := ops) (2 := ex_intro _ _ HR)
    as [[r Hr] _]; [|exact (R_gerr _ _ Hr)].
  intros g op [r Hr]. split; [exact (ghost_step_R g r op Hr)|exact I].
Qed.

Lemma ghost_disabled_step g op :
  ghost_disabled g = true ->
  ghost_disabled (fst (g_step g op)) = true /\
  (snd (g_step g op) = None \/ snd (g_step g op) = Some false).
Proof.
  intros Hd. destruct op as [h|h|h|]; cbn [g_step].
  - destruct (ghost_disabled_inert g h Hd) as [_ [-> _]]. cbn [fst snd]. auto.
  - destruct (ghost_disabled_inert g h Hd) as [_ [_ ->]]. cbn [fst snd]. auto.
  - destruct (ghost_disabled_inert g h Hd) as [-> _]. cbn [fst snd]. auto.
  - cbn [fst snd]. split; [apply ghost_disabled_clear; assumption|auto].
Qed.

Theorem ghost_disabled_run ops : forall g,
  ghost_disabled g = true ->
  ghost_disabled (run_state g_step g ops) = true /\
  Forall (fun o => o = None \/ o = Some false) (run_out g_step g ops).
Proof. exact (run_invariant g_step _ _ ghost_disabled_step ops). Qed.
