(* TrieProofs.v — the path index of httpcache (HttpTrie.v, the path-segment trie behind Invalidate; C15).
   abs reads the trie as a map normalized path -> key list; addKey and removeKeyByIdentity are one walk (upd)
   that updates one entry of that map and keeps the trie well formed (TWF: distinct keys, distinct sibling
   names, no empty branch); getMatchingKeys answers are compared with the map through the preorder listing
   to_map; normalize is characterised by Spells. *)
Require Import KV.Base KV.HttpModel KV.CacheModel KV.HttpTrie.
Require Import Coq.Sorting.Permutation.
Open Scope Z_scope.

Lemma str_eqb_eq a b : str_eqb a b = true <-> a = b.
Proof.
  revert b; induction a as [|x a IH]; intros [|y b]; cbn [str_eqb]; split; intros H;
    try reflexivity; try discriminate.
  - apply andb_true_iff in H. destruct H as [H1 H2]. apply Z.eqb_eq in H1. apply IH in H2. congruence.
  - inversion H; subst. apply andb_true_iff; split; [apply Z.eqb_refl | apply IH; reflexivity].
Qed.

Lemma str_eqb_refl a : str_eqb a a = true.
Proof. apply str_eqb_eq; reflexivity. Qed.

Lemma str_eq_dec (a b : str) : {a = b} + {a <> b}.
Proof. apply list_eq_dec, Z.eq_dec. Defined.

Fixpoint segs_eqb (p q : list str) : bool :=
  match p, q with
  | [], [] => true
  | a :: p', b :: q' => str_eqb a b && segs_eqb p' q'
  | _, _ => false
  end.

Lemma segs_eqb_eq p q : segs_eqb p q = true <-> p = q.
Proof.
  revert q; induction p as [|a p IH]; intros [|b q]; cbn [segs_eqb]; split; intros H;
    try reflexivity; try discriminate.
  - apply andb_true_iff in H. destruct H as [H1 H2]. apply str_eqb_eq in H1. apply IH in H2. congruence.
  - inversion H; subst. apply andb_true_iff; split; [apply str_eqb_refl | apply IH; reflexivity].
Qed.

Lemma segs_eqb_neq p q : segs_eqb p q = false <-> p <> q.
Proof.
  split; intros H.
  - intros E. apply segs_eqb_eq in E. congruence.
  - destruct (segs_eqb p q) eqn:E; [|reflexivity]. apply segs_eqb_eq in E. contradiction.
Qed.

Lemma segs_eq_dec (p q : list str) : {p = q} + {p <> q}.
Proof.
  destruct (segs_eqb p q) eqn:E; [left; apply segs_eqb_eq; exact E | right; apply segs_eqb_neq; exact E].
Defined.

Lemma Z_eqb_eq' (a b : Z) : (a =? b) = true <-> a = b.
Proof. apply Z.eqb_eq. Qed.

Section NodeInd.
  Variable P : node -> Prop.
  Hypothesis Hnode : forall ks cs, Forall (fun sc => P (snd sc)) cs -> P (Node ks cs).
  Fixpoint node_ind' (n : node) : P n :=
    match n with
    | Node ks cs =>
      Hnode ks cs
        ((fix go (l : list (str * node)) : Forall (fun sc => P (snd sc)) l :=
            match l as l0 return Forall (fun sc => P (snd sc)) l0 with
            | [] => Forall_nil _
            | (s, c) :: r => @Forall_cons _ (fun sc => P (snd sc)) (s, c) r (node_ind' c) (go r)
            end) cs)
    end.
End NodeInd.

Section Assoc.
  Context {K V : Type} (eqb : K -> K -> bool).
  Hypothesis eqb_spec : forall a b, eqb a b = true <-> a = b.

  Fixpoint afind (l : list (K * V)) (k : K) : option V :=
    match l with [] => None | (k', v) :: r => if eqb k' k then Some v else afind r k end.
  Definition adel (l : list (K * V)) (k : K) := filter (fun x => negb (eqb (fst x) k)) l.
  Definition aset (l : list (K * V)) (k : K) (v : V) := adel l k ++ [(k, v)].

  Lemma eqb_refl' a : eqb a a = true.
  Proof. apply eqb_spec; reflexivity. Qed.
  Lemma eqb_false a b : eqb a b = false <-> a <> b.
  Proof. rewrite <- not_true_iff_false, eqb_spec. reflexivity. Qed.
  Lemma eqb_sym' a b : eqb a b = eqb b a.
  Proof.
    destruct (eqb a b) eqn:E.
    - apply eqb_spec in E. subst. symmetry; apply eqb_refl'.
    - apply eqb_false in E. symmetry. apply eqb_false. congruence.
  Qed.

  Lemma afind_adel l k k' : afind (adel l k) k' = if eqb k k' then None else afind l k'.
  Proof.
    induction l as [|[a v] l IH]; cbn [adel filter afind fst].
    - destruct (eqb k k'); reflexivity.
    - fold (adel l k). destruct (eqb a k) eqn:E1; cbn [negb].
      + apply eqb_spec in E1. subst a. rewrite IH. destruct (eqb k k'); reflexivity.
      + cbn [afind]. rewrite IH. destruct (eqb a k') eqn:E2; [|reflexivity].
        apply eqb_spec in E2. subst a. rewrite eqb_sym', E1. reflexivity.
  Qed.

  Lemma afind_app l1 l2 k : afind (l1 ++ l2) k = match afind l1 k with Some v => Some v | None => afind l2 k end.
  Proof.
    induction l1 as [|[a v] l1 IH]; cbn [app afind]; [reflexivity|].
    destruct (eqb a k); [reflexivity | exact IH].
  Qed.

  Lemma afind_aset l k v k' : afind (aset l k v) k' = if eqb k k' then Some v else afind l k'.
  Proof.
    unfold aset. rewrite afind_app, afind_adel. cbn [afind].
    destruct (eqb k k') eqn:E; [reflexivity|]. destruct (afind l k'); reflexivity.
  Qed.

  Lemma afind_None l k : afind l k = None <-> ~ In k (map fst l).
  Proof.
    induction l as [|[a v] l IH]; cbn [afind map fst In]; [tauto|].
    destruct (eqb a k) eqn:E.
    - apply eqb_spec in E. split; [discriminate | intros H; exfalso; apply H; left; exact E].
    - apply eqb_false in E. rewrite IH. tauto.
  Qed.

  Lemma afind_Some_In l k v : afind l k = Some v -> In (k, v) l.
  Proof.
    induction l as [|[a w] l IH]; cbn [afind In]; [discriminate|].
    destruct (eqb a k) eqn:E.
    - apply eqb_spec in E. intros H; inversion H; subst. left; reflexivity.
    - intros H; right; apply IH; exact H.
  Qed.

  Lemma In_afind l k v : NoDup (map fst l) -> In (k, v) l -> afind l k = Some v.
  Proof.
    induction l as [|[a w] l IH]; cbn [afind In map fst]; [tauto|].
    intros ND [H | H].
    - inversion H; subst. rewrite eqb_refl'. reflexivity.
    - inversion ND as [|? ? Hn ND']; subst. destruct (eqb a k) eqn:E.
      + apply eqb_spec in E. subst a. destruct (Hn (in_map fst l (k, v) H)).
      + apply IH; assumption.
  Qed.

  Lemma adel_keys l k : map fst (adel l k) = filter (fun a => negb (eqb a k)) (map fst l).
  Proof.
    unfold adel. induction l as [|x l IH]; cbn [filter map]; [reflexivity|].
    destruct (negb (eqb (fst x) k)); cbn [map]; rewrite IH; reflexivity.
  Qed.

  Lemma NoDup_adel l k : NoDup (map fst l) -> NoDup (map fst (adel l k)).
  Proof. rewrite adel_keys. apply NoDup_filter. Qed.

  Lemma NoDup_aset l k v : NoDup (map fst l) -> NoDup (map fst (aset l k v)).
  Proof.
    intros ND. unfold aset. rewrite map_app.
    apply nodup_app_iff. split; [apply NoDup_adel; exact ND | split; [repeat constructor; intros []|]].
    intros x Hx [<- | []]. rewrite adel_keys, filter_In, eqb_refl' in Hx. destruct Hx as [_ Hx]. discriminate Hx.
  Qed.

  Lemma adel_In l k k' v : In (k', v) (adel l k) <-> In (k', v) l /\ k' <> k.
  Proof.
    unfold adel. rewrite filter_In. cbn [fst]. rewrite negb_true_iff, eqb_false. tauto.
  Qed.

  Lemma aset_In l k v k' v' : In (k', v') (aset l k v) <-> (In (k', v') l /\ k' <> k) \/ (k' = k /\ v' = v).
  Proof.
    unfold aset. rewrite in_app_iff, adel_In. cbn [In]. split.
    - intros [H | [H | []]]; [left; exact H | right; inversion H; split; reflexivity].
    - intros [H | [H1 H2]]; [left; exact H | right; left; subst; reflexivity].
  Qed.
End Assoc.

(* get_key / del_key / set_key and find_child / del_child / set_child are afind / adel / aset at Z.eqb and
   str_eqb up to conversion, so the generic lemmas apply to them as they stand. *)
Lemma find_child_set_child cs sg c sg' :
  find_child (set_child cs sg c) sg' = if str_eqb sg sg' then Some c else find_child cs sg'.
Proof. exact (afind_aset str_eqb str_eqb_eq cs sg c sg'). Qed.

Lemma find_child_del_child cs sg sg' :
  find_child (del_child cs sg) sg' = if str_eqb sg sg' then None else find_child cs sg'.
Proof. exact (afind_adel str_eqb str_eqb_eq cs sg sg'). Qed.

Lemma find_child_In cs sg c : find_child cs sg = Some c -> In (sg, c) cs.
Proof. exact (afind_Some_In str_eqb str_eqb_eq cs sg c). Qed.

Lemma In_find_child cs sg c : NoDup (map fst cs) -> In (sg, c) cs -> find_child cs sg = Some c.
Proof. exact (In_afind str_eqb str_eqb_eq cs sg c). Qed.

Lemma find_child_None cs sg : find_child cs sg = None <-> ~ In sg (map fst cs).
Proof. exact (afind_None str_eqb str_eqb_eq cs sg). Qed.

Lemma get_key_set_key ks k i k' : get_key (set_key ks k i) k' = if k =? k' then Some i else get_key ks k'.
Proof. exact (afind_aset Z.eqb Z.eqb_eq ks k i k'). Qed.

Lemma get_key_del_key ks k k' : get_key (del_key ks k) k' = if k =? k' then None else get_key ks k'.
Proof. exact (afind_adel Z.eqb Z.eqb_eq ks k k'). Qed.

Lemma get_key_In ks k i : get_key ks k = Some i -> In (k, i) ks.
Proof. exact (afind_Some_In Z.eqb Z.eqb_eq ks k i). Qed.

Lemma In_get_key ks k i : NoDup (map fst ks) -> In (k, i) ks -> get_key ks k = Some i.
Proof. exact (In_afind Z.eqb Z.eqb_eq ks k i). Qed.

Lemma get_key_None ks k : get_key ks k = None <-> ~ In k (map fst ks).
Proof. exact (afind_None Z.eqb Z.eqb_eq ks k). Qed.

Lemma NoDup_set_key ks k i : NoDup (map fst ks) -> NoDup (map fst (set_key ks k i)).
Proof. exact (NoDup_aset Z.eqb Z.eqb_eq ks k i). Qed.

Lemma NoDup_del_key ks k : NoDup (map fst ks) -> NoDup (map fst (del_key ks k)).
Proof. exact (NoDup_adel Z.eqb ks k). Qed.

Definition abs (n : node) (p : list str) : list (Z * Z) :=
  match descend n p with Some m => nkeys m | None => [] end.

Lemma abs_nil n : abs n [] = nkeys n.
Proof. reflexivity. Qed.

Lemma abs_cons n sg p :
  abs n (sg :: p) = match find_child (nkids n) sg with Some c => abs c p | None => [] end.
Proof. unfold abs. cbn [descend]. destruct (find_child (nkids n) sg); reflexivity. Qed.

Lemma abs_empty p : abs empty_node p = [].
Proof. destruct p; reflexivity. Qed.

(* an absent child reads as the empty node, as in add_key *)
Definition kid (n : node) (sg : str) : node :=
  match find_child (nkids n) sg with Some c => c | None => empty_node end.

Lemma abs_kid n sg p : abs n (sg :: p) = abs (kid n sg) p.
Proof.
  rewrite abs_cons. unfold kid. destruct (find_child (nkids n) sg); [reflexivity | symmetry; apply abs_empty].
Qed.

Lemma is_empty_true n : is_empty n = true <-> n = empty_node.
Proof.
  destruct n as [[|x ks] [|y cs]]; cbn [is_empty]; split; intros H; try reflexivity; try discriminate.
Qed.

Lemma is_empty_keys ks cs : ks <> [] -> is_empty (Node ks cs) = false.
Proof. destruct ks; [congruence | reflexivity]. Qed.
Lemma is_empty_kids ks cs : cs <> [] -> is_empty (Node ks cs) = false.
Proof. destruct ks; [|reflexivity]. destruct cs; [congruence | reflexivity]. Qed.

(* key lists have distinct keys, sibling segment names are distinct, and no non-root node is empty
   (no keys and no children).  TWF_no_empty_branch below shows that this local condition is the
   pruning invariant: every non-root node has a key or a descendant with a key. *)
Inductive TWF : node -> Prop :=
| TWF_node ks cs :
    NoDup (map fst ks) -> NoDup (map fst cs) ->
    (forall sg c, In (sg, c) cs -> TWF c) ->
    (forall sg c, In (sg, c) cs -> is_empty c = false) ->
    TWF (Node ks cs).

Lemma TWF_empty : TWF empty_node.
Proof. constructor; try constructor; intros ? ? []. Qed.

Lemma TWF_keys n : TWF n -> NoDup (map fst (nkeys n)).
Proof. intros W; inversion W; subst; assumption. Qed.
Lemma TWF_kids n : TWF n -> NoDup (map fst (nkids n)).
Proof. intros W; inversion W; subst; assumption. Qed.
Lemma TWF_child n sg c : TWF n -> find_child (nkids n) sg = Some c -> TWF c /\ is_empty c = false.
Proof.
  intros W F. apply find_child_In in F. inversion W; subst. cbn [nkids] in F. split; eauto.
Qed.

Lemma TWF_kid n sg : TWF n -> TWF (kid n sg).
Proof.
  intros W. unfold kid.
  destruct (find_child (nkids n) sg) eqn:F; [exact (proj1 (TWF_child _ _ _ W F)) | exact TWF_empty].
Qed.

Lemma TWF_descend n p m :
  TWF n -> descend n p = Some m -> TWF m /\ (p <> [] \/ is_empty n = false -> is_empty m = false).
Proof.
  revert n; induction p as [|sg p IH]; intros n W D; cbn [descend] in D.
  - inversion D; subst. split; [exact W | intros [H | H]; congruence].
  - destruct (find_child (nkids n) sg) as [c|] eqn:F; [|discriminate].
    destruct (TWF_child _ _ _ W F) as [Wc Ec]. destruct (IH c Wc D) as [Wm Em].
    split; [exact Wm | intros _; apply Em; right; exact Ec].
Qed.

(* addKey and removeKeyByIdentity both walk the segment path, rewrite the key list of the node at its end, and
   on the way back re-attach each child, or detach it when it has become empty. *)
Definition put (cs : list (str * node)) (sg : str) (c : node) : list (str * node) :=
  if is_empty c then del_child cs sg else set_child cs sg c.

Fixpoint upd (f : list (Z * Z) -> list (Z * Z)) (n : node) (segs : list str) : node :=
  match segs with
  | [] => Node (f (nkeys n)) (nkids n)
  | sg :: rest => Node (nkeys n) (put (nkids n) sg (upd f (kid n sg) rest))
  end.

Lemma abs_put ks cs sg c sg' p :
  abs (Node ks (put cs sg c)) (sg' :: p) = if str_eqb sg sg' then abs c p else abs (Node ks cs) (sg' :: p).
Proof.
  rewrite !abs_cons. cbn [nkids]. unfold put. destruct (is_empty c) eqn:E.
  - apply is_empty_true in E. subst c. rewrite find_child_del_child, abs_empty. destruct (str_eqb sg sg'); reflexivity.
  - rewrite find_child_set_child. destruct (str_eqb sg sg'); reflexivity.
Qed.

Lemma abs_upd f n segs p : abs (upd f n segs) p = if segs_eqb p segs then f (abs n p) else abs n p.
Proof.
  revert n p; induction segs as [|sg rest IH]; intros n [|sg' p]; cbn [upd segs_eqb]; try reflexivity.
  rewrite abs_put, IH, (eqb_sym' str_eqb str_eqb_eq sg' sg).
  destruct (str_eqb sg sg') eqn:E; [|reflexivity].
  apply str_eqb_eq in E. subst sg'. rewrite (abs_kid n sg p). reflexivity.
Qed.

Lemma abs_upd_same f n segs : abs (upd f n segs) segs = f (abs n segs).
Proof. rewrite abs_upd, (proj2 (segs_eqb_eq segs segs) eq_refl). reflexivity. Qed.

Lemma abs_upd_other f n segs p : p <> segs -> abs (upd f n segs) p = abs n p.
Proof. intros Hp. rewrite abs_upd, (proj2 (segs_eqb_neq p segs) Hp). reflexivity. Qed.

Lemma TWF_put n sg c : TWF n -> TWF c -> TWF (Node (nkeys n) (put (nkids n) sg c)).
Proof.
  intros W Wc. inversion W as [ks cs Hk Hc Hw He]; subst. cbn [nkeys nkids].
  assert (Hch : forall sg' c', In (sg', c') (put cs sg c) -> TWF c' /\ is_empty c' = false).
  { intros sg' c' H. unfold put in H. destruct (is_empty c) eqn:E.
    - apply (adel_In str_eqb str_eqb_eq) in H. destruct H as [H _]. split; eauto.
    - apply (aset_In str_eqb str_eqb_eq) in H. destruct H as [[H _] | [_ ->]]; split; eauto. }
  constructor; [exact Hk | | intros sg' c' H; apply (Hch sg' c' H) ..].
  unfold put. destruct (is_empty c); [apply NoDup_adel | apply (NoDup_aset str_eqb str_eqb_eq)]; exact Hc.
Qed.

Lemma TWF_upd f n segs :
  (forall ks, NoDup (map fst ks) -> NoDup (map fst (f ks))) -> TWF n -> TWF (upd f n segs).
Proof.
  intros Hf. revert n; induction segs as [|sg rest IH]; intros n W; cbn [upd].
  - inversion W; subst. constructor; auto.
  - apply TWF_put; [exact W | apply IH, TWF_kid; exact W].
Qed.

Lemma add_key_nonempty n segs k i : is_empty (add_key n segs k i) = false.
Proof.
  destruct segs; cbn [add_key]; [apply is_empty_keys | apply is_empty_kids];
    intros E; exact (app_cons_not_nil _ _ _ (eq_sym E)).
Qed.

Lemma add_key_upd n segs k i : add_key n segs k i = upd (fun ks => set_key ks k i) n segs.
Proof.
  revert n; induction segs as [|sg rest IH]; intros n; cbn [add_key upd]; [reflexivity|].
  fold (kid n sg). rewrite <- IH. unfold put. rewrite add_key_nonempty. reflexivity.
Qed.

Lemma TWF_add_key n segs k i : TWF n -> TWF (add_key n segs k i).
Proof. rewrite add_key_upd. apply TWF_upd. intros ks. apply NoDup_set_key. Qed.

Theorem add_key_spec n segs k i :
  TWF n ->
  TWF (add_key n segs k i) /\
  abs (add_key n segs k i) segs = set_key (abs n segs) k i /\
  (forall p, p <> segs -> abs (add_key n segs k i) p = abs n p).
Proof.
  intros W. split; [apply TWF_add_key; exact W|]. rewrite add_key_upd.
  split; [apply abs_upd_same | intros p; apply abs_upd_other].
Qed.

Corollary add_key_spec_b n segs k i p :
  abs (add_key n segs k i) p = if segs_eqb p segs then set_key (abs n p) k i else abs n p.
Proof. rewrite add_key_upd. apply abs_upd. Qed.

Definition removable (ks : list (Z * Z)) (k i : Z) : bool :=
  match get_key ks k with Some j => j =? i | None => false end.

Lemma removable_true ks k i : removable ks k i = true <-> get_key ks k = Some i.
Proof.
  unfold removable. destruct (get_key ks k) as [j|]; [rewrite Z.eqb_eq; split; congruence | split; discriminate].
Qed.

Lemma remove_key_upd n segs k i :
  remove_key n segs k i =
  if removable (abs n segs) k i then (upd (fun ks => del_key ks k) n segs, true) else (n, false).
Proof.
  revert n; induction segs as [|sg rest IH]; intros n; cbn [remove_key upd].
  - rewrite abs_nil. unfold removable. destruct (get_key (nkeys n) k) as [j|]; [destruct (j =? i)|]; reflexivity.
  - rewrite abs_cons. unfold kid. destruct (find_child (nkids n) sg) as [c|]; [|reflexivity].
    rewrite IH. destruct (removable (abs c rest) k i); [|reflexivity].
    unfold put. destruct (is_empty _); reflexivity.
Qed.

Lemma TWF_remove_key n segs k i : TWF n -> TWF (fst (remove_key n segs k i)).
Proof.
  intros W. rewrite remove_key_upd. destruct (removable (abs n segs) k i); [|exact W].
  apply TWF_upd; [intros ks; apply NoDup_del_key | exact W].
Qed.

(* TWF n' states in particular that no empty branch is left: pruning is complete. *)
Theorem remove_key_spec n segs k i :
  TWF n ->
  let '(n', ok) := remove_key n segs k i in
  TWF n' /\
  (ok = true <-> get_key (abs n segs) k = Some i) /\
  abs n' segs = (if ok then del_key (abs n segs) k else abs n segs) /\
  (forall p, p <> segs -> abs n' p = abs n p).
Proof.
  intros W. pose proof (TWF_remove_key n segs k i W) as W'. rewrite remove_key_upd in *.
  pose proof (removable_true (abs n segs) k i) as R. destruct (removable (abs n segs) k i); cbn [fst] in W'.
  - split; [exact W'|]. split; [split; intros _; [apply R|]; reflexivity|].
    split; [apply abs_upd_same | intros p; apply abs_upd_other].
  - split; [exact W|]. split; [split; [discriminate | intros H; apply R in H; discriminate H]|].
    split; reflexivity.
Qed.

Theorem remove_key_stale n segs k i :
  get_key (abs n segs) k <> Some i -> remove_key n segs k i = (n, false).
Proof.
  intros H. rewrite remove_key_upd. destruct (removable (abs n segs) k i) eqn:R; [|reflexivity].
  apply removable_true in R. contradiction.
Qed.

Corollary remove_key_stale_id n segs k i j :
  get_key (abs n segs) k = Some j -> j <> i -> remove_key n segs k i = (n, false).
Proof. intros H N. apply remove_key_stale. rewrite H. congruence. Qed.

Corollary remove_key_spec_b n segs k i p :
  abs (fst (remove_key n segs k i)) p =
  if segs_eqb p segs && snd (remove_key n segs k i) then del_key (abs n p) k else abs n p.
Proof.
  rewrite remove_key_upd. destruct (removable (abs n segs) k i); cbn [fst snd].
  - rewrite abs_upd, andb_true_r. reflexivity.
  - rewrite andb_false_r. reflexivity.
Qed.

Definition lookup (n : node) (p : list str) (k : Z) : option Z := get_key (abs n p) k.

Corollary lookup_add_key n segs k i p k' :
  lookup (add_key n segs k i) p k' = if segs_eqb p segs && (k =? k') then Some i else lookup n p k'.
Proof.
  unfold lookup. rewrite add_key_spec_b. destruct (segs_eqb p segs); cbn [andb]; [|reflexivity].
  apply get_key_set_key.
Qed.

Corollary lookup_remove_key n segs k i p k' :
  lookup (fst (remove_key n segs k i)) p k' =
  if segs_eqb p segs && snd (remove_key n segs k i) && (k =? k') then None else lookup n p k'.
Proof.
  unfold lookup. rewrite remove_key_spec_b.
  destruct (segs_eqb p segs && snd (remove_key n segs k i)); cbn [andb]; [|reflexivity].
  apply get_key_del_key.
Qed.

Corollary remove_key_ok_lookup n segs k i :
  snd (remove_key n segs k i) = true <-> lookup n segs k = Some i.
Proof.
  unfold lookup. rewrite remove_key_upd, <- removable_true.
  destruct (removable (abs n segs) k i); reflexivity.
Qed.

Lemma descend_app n p q :
  descend n (p ++ q) = match descend n p with Some m => descend m q | None => None end.
Proof.
  revert n; induction p as [|sg p IH]; intros n; cbn [app descend]; [reflexivity|].
  destruct (find_child (nkids n) sg); [apply IH | reflexivity].
Qed.

Lemma abs_app n p q :
  abs n (p ++ q) = match descend n p with Some m => abs m q | None => [] end.
Proof. unfold abs. rewrite descend_app. destruct (descend n p); reflexivity. Qed.

Lemma nonempty_has_key n : TWF n -> is_empty n = false -> exists q k i, In (k, i) (abs n q).
Proof.
  induction 1 as [ks cs Hk Hc Hw IH He]. intros E. destruct ks as [|[k i] ks].
  - destruct cs as [|[sg c] cs]; [discriminate|].
    destruct (IH sg c (or_introl eq_refl) (He sg c (or_introl eq_refl))) as [q [k [i Hq]]].
    exists (sg :: q), k, i. rewrite abs_cons. cbn [nkids find_child]. rewrite str_eqb_refl. exact Hq.
  - exists [], k, i. left; reflexivity.
Qed.

Theorem TWF_no_empty_branch n p m :
  TWF n -> p <> [] -> descend n p = Some m -> exists q k i, In (k, i) (abs n (p ++ q)).
Proof.
  intros W Hp D. destruct (TWF_descend n p m W D) as [Wm Em].
  destruct (nonempty_has_key m Wm (Em (or_introl Hp))) as [q [k [i H]]].
  exists q, k, i. rewrite abs_app, D. exact H.
Qed.

Lemma TWF_nodes n x :
  TWF n -> ((exists m, descend n x = Some m) <-> x = [] \/ exists q, abs n (x ++ q) <> []).
Proof.
  intros W. split.
  - intros [m D]. destruct x as [|s x]; [left; reflexivity | right].
    destruct (TWF_no_empty_branch n (s :: x) m W ltac:(discriminate) D) as [q [k [i H]]].
    exists q. intros E. rewrite E in H. destruct H.
  - intros [-> | [q H]]; [exists n; reflexivity|]. rewrite abs_app in H.
    destruct (descend n x) as [m|]; [exists m; reflexivity | congruence].
Qed.

(* normalizePath keeps the non-empty runs between '/'.  split_on is taken with an arbitrary accumulator, so
   that the inductions go through. *)
Definition nonempty {A} (l : list A) : bool := match l with [] => false | _ => true end.
Definition norm_acc (s cur : str) : list str := filter nonempty (split_on 47 s cur).

Lemma norm_acc_app_slash a b cur : norm_acc (a ++ 47 :: b) cur = norm_acc a cur ++ norm_acc b [].
Proof.
  revert cur; induction a as [|c a IH]; intros cur; unfold norm_acc in *; cbn [app split_on].
  - rewrite Z.eqb_refl. cbn [filter]. destruct (nonempty (rev cur)); reflexivity.
  - destruct (c =? 47); [|apply IH].
    cbn [filter]. rewrite IH. destruct (nonempty (rev cur)); reflexivity.
Qed.

Theorem normalize_app_slash a b : normalize (a ++ 47 :: b) = normalize a ++ normalize b.
Proof. exact (norm_acc_app_slash a b []). Qed.

Theorem normalize_trailing_slash a : normalize (a ++ [47]) = normalize a.
Proof. rewrite normalize_app_slash. apply app_nil_r. Qed.

Theorem normalize_leading_slash a : normalize ([47] ++ a) = normalize a.
Proof. exact (normalize_app_slash [] a). Qed.

Theorem normalize_double_slash a b : normalize (a ++ [47; 47] ++ b) = normalize (a ++ [47] ++ b).
Proof.
  cbn [app]. rewrite !normalize_app_slash.
  (* normalize (47 :: b) and normalize b are convertible *)
  reflexivity.
Qed.

Theorem normalize_slash_run a b m : normalize (a ++ repeat 47 (S m) ++ b) = normalize (a ++ [47] ++ b).
Proof.
  induction m as [|m IH]; [reflexivity|].
  rewrite <- IH. change (repeat 47 (S (S m)) ++ b) with ([47; 47] ++ repeat 47 m ++ b).
  rewrite normalize_double_slash. reflexivity.
Qed.

Definition good (sg : str) : Prop := sg <> [] /\ ~ In 47 sg.

Lemma split_on_seg sg cur : ~ In 47 sg -> split_on 47 sg cur = [rev cur ++ sg].
Proof.
  revert cur; induction sg as [|c sg IH]; intros cur Hn; cbn [split_on]; [rewrite app_nil_r; reflexivity|].
  destruct (Z.eqb_spec c 47) as [E|_]; [destruct Hn; left; exact E|].
  rewrite IH by (intros H; apply Hn; right; exact H). cbn [rev]. rewrite <- app_assoc. reflexivity.
Qed.

Lemma normalize_seg sg : good sg -> normalize sg = [sg].
Proof.
  intros [Hne Hn]. unfold normalize. rewrite split_on_seg by exact Hn. destruct sg; [congruence | reflexivity].
Qed.

Lemma normalize_seg_slash sg p : good sg -> normalize (sg ++ 47 :: p) = sg :: normalize p.
Proof. intros G. rewrite normalize_app_slash, normalize_seg by exact G. reflexivity. Qed.

(* "path spells segs": optional slashes, then the segments in order separated by one or more slashes,
   then optional slashes.  With good (non-empty, slash-free) segments these are exactly the maximal
   runs of non-'/' bytes of the path. *)
Inductive Spells : list str -> str -> Prop :=
| Sp_nil : Spells [] []
| Sp_slash segs p : Spells segs p -> Spells segs (47 :: p)
| Sp_last sg : Spells [sg] sg
| Sp_seg sg segs p : Spells segs p -> Spells (sg :: segs) (sg ++ 47 :: p).

(* split_on's accumulator cur holds the bytes of the segment being read, in reverse *)
Lemma norm_acc_Spells s cur :
  ~ In 47 cur -> Forall good (norm_acc s cur) /\ Spells (norm_acc s cur) (rev cur ++ s).
Proof.
  unfold norm_acc. revert cur; induction s as [|c s IH]; intros cur Hn; cbn [split_on].
  - rewrite app_nil_r. rewrite in_rev in Hn. cbn [filter]. destruct (rev cur) as [|x w]; cbn [nonempty].
    + split; constructor.
    + split; [repeat constructor; [discriminate | exact Hn] | apply Sp_last].
  - destruct (Z.eqb_spec c 47) as [->|Hc].
    + destruct (IH [] (fun H => H)) as [G S]. rewrite in_rev in Hn. cbn [filter].
      destruct (rev cur) as [|x w]; cbn [nonempty app].
      * split; [exact G | apply Sp_slash; exact S].
      * split; [constructor; [split; [discriminate | exact Hn] | exact G] | apply (Sp_seg (x :: w)); exact S].
    + destruct (IH (c :: cur)) as [G S]; [intros [E | H]; [exact (Hc E) | exact (Hn H)]|].
      cbn [rev] in S. rewrite <- app_assoc in S. split; assumption.
Qed.

Theorem normalize_Spells path : Forall good (normalize path) /\ Spells (normalize path) path.
Proof. exact (norm_acc_Spells path [] (fun H => H)). Qed.

Theorem Spells_normalize segs path : Forall good segs -> Spells segs path -> normalize path = segs.
Proof.
  intros G S. induction S as [|segs p S IH|sg|sg segs p S IH].
  - reflexivity.
  - (* normalize (47 :: p) and normalize p are convertible *) exact (IH G).
  - apply normalize_seg. inversion G; assumption.
  - inversion G; subst. rewrite normalize_seg_slash by assumption. f_equal. apply IH; assumption.
Qed.

Theorem normalize_characterisation path segs :
  normalize path = segs <-> (Forall good segs /\ Spells segs path).
Proof.
  split.
  - intros <-. apply normalize_Spells.
  - intros [G S]. apply Spells_normalize; assumption.
Qed.

Definition join_slash (segs : list str) : str := flat_map (fun sg => 47 :: sg) segs.

Lemma Spells_join sg segs : Spells (sg :: segs) (sg ++ join_slash segs).
Proof.
  revert sg; induction segs as [|sg' segs IH]; intros sg; cbn [join_slash flat_map app].
  - rewrite app_nil_r. apply Sp_last.
  - apply Sp_seg, IH.
Qed.

Theorem normalize_join segs : Forall good segs -> normalize (join_slash segs) = segs.
Proof.
  intros G. apply Spells_normalize; [exact G|]. destruct segs as [|sg segs]; [apply Sp_nil|].
  apply Sp_slash, Spells_join.
Qed.

Corollary normalize_canonical path : normalize (join_slash (normalize path)) = normalize path.
Proof. apply normalize_join. apply normalize_Spells. Qed.

Definition same_path (p q : str) : Prop := normalize p = normalize q.

Lemma same_path_trailing a : same_path (a ++ [47]) a.
Proof. apply normalize_trailing_slash. Qed.
Lemma same_path_leading a : same_path ([47] ++ a) a.
Proof. apply normalize_leading_slash. Qed.
Lemma same_path_double a b : same_path (a ++ [47; 47] ++ b) (a ++ [47] ++ b).
Proof. apply normalize_double_slash. Qed.

Theorem add_key_same_path n p q k i :
  same_path p q -> add_key n (normalize p) k i = add_key n (normalize q) k i.
Proof. unfold same_path; intros ->. reflexivity. Qed.

Theorem remove_key_same_path n p q k i :
  same_path p q -> remove_key n (normalize p) k i = remove_key n (normalize q) k i.
Proof. unfold same_path; intros ->. reflexivity. Qed.

(* the abstract map: normalized path -> association list key -> identity *)
Definition amap := list (list str * list (Z * Z)).

Definition alookup (M : amap) (p : list str) : list (Z * Z) :=
  match afind segs_eqb M p with Some ks => ks | None => [] end.
Definition prefix (a p : list str) : Prop := exists q, p = a ++ q.

Fixpoint prefixb (a p : list str) : bool :=
  match a, p with
  | [], _ => true
  | x :: a', y :: p' => str_eqb x y && prefixb a' p'
  | _ :: _, [] => false
  end.

Lemma prefixb_prefix a p : prefixb a p = true <-> prefix a p.
Proof.
  unfold prefix. revert p; induction a as [|x a IH]; intros p; cbn [prefixb].
  - split; [intros _; exists p; reflexivity | reflexivity].
  - destruct p as [|y p].
    + split; [discriminate | intros [q H]; discriminate].
    + rewrite andb_true_iff, str_eqb_eq, IH. split.
      * intros [-> [q ->]]. exists q. reflexivity.
      * intros [q H]. cbn [app] in H. inversion H; subst. split; [reflexivity | exists q; reflexivity].
Qed.

Definition keys_under (b : list str) (e : list str * list (Z * Z)) : list Z :=
  if prefixb b (fst e) then map fst (snd e) else [].

Lemma alookup_aset M p v q : alookup (aset segs_eqb M p v) q = if segs_eqb p q then v else alookup M q.
Proof.
  unfold alookup. rewrite (afind_aset segs_eqb segs_eqb_eq). destruct (segs_eqb p q); reflexivity.
Qed.

Lemma alookup_cons M p ks q : alookup ((p, ks) :: M) q = if segs_eqb p q then ks else alookup M q.
Proof. unfold alookup. cbn [afind]. destruct (segs_eqb p q); reflexivity. Qed.

Lemma alookup_In M p ks : NoDup (map fst M) -> In (p, ks) M -> alookup M p = ks.
Proof. intros N H. unfold alookup. rewrite (In_afind segs_eqb segs_eqb_eq M p ks N H). reflexivity. Qed.

Lemma alookup_notin M p : ~ In p (map fst M) -> alookup M p = [].
Proof. intros H. unfold alookup. apply (afind_None segs_eqb segs_eqb_eq) in H. rewrite H. reflexivity. Qed.

Lemma alookup_nonempty_In M p : alookup M p <> [] -> In (p, alookup M p) M.
Proof.
  unfold alookup. destruct (afind segs_eqb M p) as [ks|] eqn:F; [|congruence].
  intros _. apply (afind_Some_In segs_eqb segs_eqb_eq). exact F.
Qed.

Lemma In_flat_map_entries {B} (f : list str * list (Z * Z) -> list B) M y :
  NoDup (map fst M) -> (forall p, f (p, []) = []) ->
  (In y (flat_map f M) <-> exists p, In y (f (p, alookup M p))).
Proof.
  intros N Hf. rewrite in_flat_map. split.
  - intros [[p ks] [Hin Hy]]. exists p. rewrite (alookup_In M p ks N Hin). exact Hy.
  - intros [p Hy]. exists (p, alookup M p). split; [|exact Hy].
    apply alookup_nonempty_In. intros E. rewrite E, Hf in Hy. destruct Hy.
Qed.

Lemma keys_under_nil b p : keys_under b (p, []) = [].
Proof. unfold keys_under. cbn [fst snd map]. destruct (prefixb b p); reflexivity. Qed.

(* two finite maps with the same lookup function give the same multiset of answers: their entries with a
   non-empty key list are the same set *)
Lemma keys_under_nonempty b M :
  flat_map (keys_under b) (filter (fun e => nonempty (snd e)) M) = flat_map (keys_under b) M.
Proof.
  induction M as [|[p [|kv ks]] M IH]; cbn [filter nonempty snd flat_map]; rewrite ?IH, ?keys_under_nil; reflexivity.
Qed.

Lemma In_nonempty_entry M p ks :
  NoDup (map fst M) ->
  (In (p, ks) (filter (fun e => nonempty (snd e)) M) <-> ks <> [] /\ alookup M p = ks).
Proof.
  intros N. rewrite filter_In. cbn [snd]. split.
  - intros [H E]. split; [intros ->; discriminate E | exact (alookup_In M p ks N H)].
  - intros [Hk <-]. split; [exact (alookup_nonempty_In M p Hk) | destruct (alookup M p); [congruence | reflexivity]].
Qed.

Lemma same_lookup_perm b (L1 L2 : amap) :
  NoDup (map fst L1) -> NoDup (map fst L2) -> (forall p, alookup L1 p = alookup L2 p) ->
  Permutation (flat_map (keys_under b) L1) (flat_map (keys_under b) L2).
Proof.
  intros N1 N2 HL. rewrite <- (keys_under_nonempty b L1), <- (keys_under_nonempty b L2).
  apply Permutation_flat_map, NoDup_Permutation; try (apply NoDup_filter; eapply NoDup_map_inv; eassumption).
  intros [p ks]. rewrite !In_nonempty_entry, HL by assumption. reflexivity.
Qed.

(* the map read off the trie: preorder listing of (path, key list) for every node; only a bridge in the proofs *)
Definition push (s : str) (e : list str * list (Z * Z)) : list str * list (Z * Z) := (s :: fst e, snd e).

Fixpoint to_map (n : node) : amap :=
  match n with
  | Node ks cs => ([], ks) :: flat_map (fun sc => map (push (fst sc)) (to_map (snd sc))) cs
  end.
Definition kids_map (cs : list (str * node)) : amap :=
  flat_map (fun sc => map (push (fst sc)) (to_map (snd sc))) cs.

Lemma to_map_eq ks cs : to_map (Node ks cs) = ([], ks) :: kids_map cs.
Proof. reflexivity. Qed.

Lemma flat_map_map' {A B C} (f : A -> B) (g : B -> list C) l :
  flat_map g (map f l) = flat_map (fun x => g (f x)) l.
Proof. induction l as [|x l IH]; cbn [map flat_map]; [reflexivity | rewrite IH; reflexivity]. Qed.

Lemma subtree_keys_to_map n : subtree_keys n = flat_map (fun e => map fst (snd e)) (to_map n).
Proof.
  induction n as [ks cs IH] using node_ind'. rewrite to_map_eq. cbn [subtree_keys flat_map snd]. f_equal.
  unfold kids_map. induction IH as [|[s c] r Hc Hr IHr]; cbn [flat_map]; [reflexivity|].
  rewrite flat_map_app, flat_map_map', <- IHr. cbn [snd fst push] in *. rewrite Hc. reflexivity.
Qed.

Lemma count_nodes_to_map n : count_nodes n = Z.of_nat (length (to_map n)).
Proof.
  induction n as [ks cs IH] using node_ind'. rewrite to_map_eq. cbn [count_nodes length]. rewrite Nat2Z.inj_succ.
  unfold Z.succ. rewrite Z.add_comm. f_equal.
  unfold kids_map. induction IH as [|[s c] r Hc Hr IHr]; cbn [flat_map]; [reflexivity|].
  rewrite app_length, map_length, Nat2Z.inj_add, <- IHr. cbn [snd] in *. rewrite Hc. reflexivity.
Qed.

Lemma kids_map_paths x cs : In x (map fst (kids_map cs)) -> exists s q, x = s :: q /\ In s (map fst cs).
Proof.
  intros H. apply in_map_iff in H. destruct H as [[p ks] [<- H]]. apply in_flat_map in H.
  destruct H as [[s c] [H1 H2]]. apply in_map_iff in H2. destruct H2 as [e [E _]]. inversion E; subst.
  exists s, (fst e). split; [reflexivity | exact (in_map fst _ _ H1)].
Qed.

Lemma afind_push s L s' q :
  afind segs_eqb (map (push s) L) (s' :: q) = if str_eqb s s' then afind segs_eqb L q else None.
Proof.
  induction L as [|[p ks] L IH]; cbn [map push afind fst snd segs_eqb]; rewrite ?IH;
    destruct (str_eqb s s'); reflexivity.
Qed.

Lemma afind_kids_map cs s q :
  NoDup (map fst cs) ->
  afind segs_eqb (kids_map cs) (s :: q) =
  match find_child cs s with Some c => afind segs_eqb (to_map c) q | None => None end.
Proof.
  unfold kids_map. induction cs as [|[s' c] r IH]; intros N; cbn [flat_map find_child fst snd]; [reflexivity|].
  inversion N as [|? ? Hs N']; subst. rewrite afind_app, afind_push, (IH N').
  destruct (str_eqb s' s) eqn:E; [|reflexivity].
  apply str_eqb_eq in E. subst s'. rewrite (proj2 (find_child_None r s) Hs). destruct (afind _ _ q); reflexivity.
Qed.

Lemma afind_to_map n : TWF n -> forall p, afind segs_eqb (to_map n) p = option_map nkeys (descend n p).
Proof.
  induction 1 as [ks cs Hk Hc Hw IH He]. intros [|s q]; [reflexivity|].
  rewrite to_map_eq. cbn [afind segs_eqb descend nkids]. rewrite (afind_kids_map cs s q Hc).
  destruct (find_child cs s) as [c|] eqn:F; [|reflexivity]. apply (IH s c), find_child_In, F.
Qed.

Lemma alookup_to_map n p : TWF n -> alookup (to_map n) p = abs n p.
Proof. intros W. unfold alookup, abs. rewrite (afind_to_map n W). destruct (descend n p); reflexivity. Qed.

Lemma In_to_map_paths n x : TWF n -> (In x (map fst (to_map n)) <-> exists m, descend n x = Some m).
Proof.
  intros W. pose proof (afind_to_map n W x) as A. destruct (descend n x) as [m|]; cbn [option_map] in A.
  - split; [intros _; exists m; reflexivity | intros _].
    apply (afind_Some_In segs_eqb segs_eqb_eq) in A. exact (in_map fst _ _ A).
  - apply (afind_None segs_eqb segs_eqb_eq) in A. split; [intros H; destruct (A H) | intros [m D]; discriminate D].
Qed.

Lemma NoDup_to_map n : TWF n -> NoDup (map fst (to_map n)).
Proof.
  induction 1 as [ks cs Hk Hc Hw IH He]. rewrite to_map_eq. cbn [map fst]. constructor.
  - intros H. apply kids_map_paths in H. destruct H as [s [q [E _]]]. discriminate E.
  - clear Hk Hw He. induction cs as [|[s c] r IHr]; [constructor|].
    inversion Hc as [|? ? Hs Hc']; subst. unfold kids_map. cbn [flat_map fst snd]. rewrite map_app. apply nodup_app_iff. split; [|split].
    + rewrite map_map. unfold push. cbn [fst]. rewrite <- (map_map fst (cons s)).
      apply FinFun.Injective_map_NoDup; [intros x y E; inversion E; reflexivity | apply (IH s c); left; reflexivity].
    + apply IHr; [exact Hc' | intros sg c' H; apply (IH sg c'); right; exact H].
    + intros x Hx Hx'. rewrite map_map in Hx. apply in_map_iff in Hx. destruct Hx as [e [<- _]].
      apply kids_map_paths in Hx'. destruct Hx' as [s' [q [E Hs']]]. cbn [push fst] in E.
      inversion E; subst. exact (Hs Hs').
Qed.

Lemma keys_under_push sg b' s L :
  flat_map (keys_under (sg :: b')) (map (push s) L) =
  if str_eqb sg s then flat_map (keys_under b') L else [].
Proof.
  induction L as [|e L IH]; cbn [map flat_map]; rewrite ?IH; unfold keys_under, push; cbn [fst snd prefixb];
    destruct (str_eqb sg s); reflexivity.
Qed.

Lemma keys_under_kids sg b' cs :
  NoDup (map fst cs) ->
  flat_map (keys_under (sg :: b')) (kids_map cs) =
  match find_child cs sg with Some c => flat_map (keys_under b') (to_map c) | None => [] end.
Proof.
  unfold kids_map. induction cs as [|[s c] r IH]; intros N; cbn [find_child flat_map fst snd]; [reflexivity|].
  cbn [map fst] in N. inversion N as [|? ? Hs N']; subst.
  rewrite flat_map_app, keys_under_push, (IH N'). rewrite (eqb_sym' str_eqb str_eqb_eq s sg).
  destruct (str_eqb sg s) eqn:E; [|reflexivity].
  apply str_eqb_eq in E. subst s. rewrite (proj2 (find_child_None r sg) Hs). apply app_nil_r.
Qed.

Lemma keys_under_to_map n b :
  TWF n ->
  flat_map (keys_under b) (to_map n) =
  match descend n b with Some m => subtree_keys m | None => [] end.
Proof.
  revert n; induction b as [|sg b' IH]; intros n W.
  - cbn [descend]. rewrite subtree_keys_to_map. apply flat_map_ext. intros e. reflexivity.
  - inversion W as [ks cs Hk Hc Hw He]; subst. rewrite to_map_eq. cbn [flat_map descend nkids].
    rewrite keys_under_kids by exact Hc. unfold keys_under at 1. cbn [fst prefixb app].
    destruct (find_child cs sg) as [c|] eqn:F; [|reflexivity].
    apply IH. apply find_child_In in F. eapply Hw; exact F.
Qed.

Lemma subtree_keys_under n b k :
  TWF n ->
  (In k (match descend n b with Some m => subtree_keys m | None => [] end) <->
   exists p, prefix b p /\ In k (map fst (abs n p))).
Proof.
  intros W.
  rewrite <- (keys_under_to_map n b W), (In_flat_map_entries _ _ k (NoDup_to_map n W) (keys_under_nil b)).
  unfold keys_under. cbn [fst snd]. split; intros [p H]; exists p; rewrite alookup_to_map in * by exact W.
  - destruct (prefixb b p) eqn:B; [split; [apply prefixb_prefix, B | exact H] | destruct H].
  - destruct H as [B H]. rewrite (proj2 (prefixb_prefix b p) B). exact H.
Qed.

(* the model matches on the literal '*' (42) where the statements below use =?; for x <> 42 the proof walks
   the binary numeral of x far enough to tell it from 42 *)
Lemma wild_test (l : list Z) :
  (match l with 42 :: _ => true | _ => false end) = match l with x :: _ => x =? 42 | [] => false end.
Proof.
  destruct l as [|x r]; [reflexivity|]. destruct (x =? 42) eqn:E.
  - apply Z.eqb_eq in E. subst x. reflexivity.
  - destruct x as [|p|p]; try reflexivity.
    repeat (destruct p as [p|p|]; try reflexivity; try (cbn in E; discriminate E)).
Qed.

(* getMatchingKeys: a pattern is a wildcard pattern when its last byte is '*' *)
Lemma get_matching_dec n pattern :
  get_matching n pattern =
  if last pattern 0 =? 42
  then match descend n (normalize (removelast pattern)) with Some m => subtree_keys m | None => [] end
  else map fst (abs n (normalize pattern)).
Proof.
  induction pattern as [|x b _] using rev_ind; [reflexivity|]. unfold get_matching, abs.
  replace (match b ++ [x] with [] => [47] | _ :: _ => b ++ [x] end) with (b ++ [x]) by (destruct b; reflexivity).
  rewrite wild_test, rev_unit, last_last, removelast_last.
  destruct (x =? 42); [|destruct (descend n _); reflexivity].
  cbn [tl]. rewrite rev_involutive. reflexivity.
Qed.

Lemma get_matching_plain n pat : last pat 0 <> 42 -> get_matching n pat = map fst (abs n (normalize pat)).
Proof. intros E. rewrite get_matching_dec, (proj2 (Z.eqb_neq _ _) E). reflexivity. Qed.

Theorem get_matching_exact n pat :
  (forall b, pat <> b ++ [42]) -> get_matching n pat = map fst (abs n (normalize pat)).
Proof.
  intros Hw. apply get_matching_plain. intros E. destruct pat as [|c r]; [discriminate E|].
  apply (Hw (removelast (c :: r))). rewrite <- E. apply app_removelast_last. discriminate.
Qed.

Lemma get_matching_wild_eq n base :
  get_matching n (base ++ [42]) =
  match descend n (normalize base) with Some m => subtree_keys m | None => [] end.
Proof. rewrite get_matching_dec, last_last, removelast_last. reflexivity. Qed.

Theorem get_matching_wildcard n base k :
  TWF n ->
  (In k (get_matching n (base ++ [42])) <->
   exists p, prefix (normalize base) p /\ In k (map fst (abs n p))).
Proof. intros W. rewrite get_matching_wild_eq. apply subtree_keys_under, W. Qed.

Corollary get_matching_root n : get_matching n [] = map fst (nkeys n).
Proof. apply (get_matching_plain n []). discriminate. Qed.

Theorem get_matching_same_path_wild n a b :
  same_path a b -> get_matching n (a ++ [42]) = get_matching n (b ++ [42]).
Proof. intros E. rewrite !get_matching_wild_eq. rewrite E. reflexivity. Qed.

Corollary get_matching_trailing_slash n a :
  (forall b, a <> b ++ [42]) -> get_matching n (a ++ [47]) = get_matching n a.
Proof.
  intros Ha.
  rewrite (get_matching_exact n a Ha), (get_matching_plain n (a ++ [47])), normalize_trailing_slash; [reflexivity|].
  rewrite last_last. discriminate.
Qed.

Lemma insert_z_comm_le x y l : x <= y -> insert_z x (insert_z y l) = insert_z y (insert_z x l).
Proof.
  intros Hxy. pose proof (proj2 (Z.leb_le x y) Hxy) as Exy.
  induction l as [|z l IH]; cbn [insert_z].
  - rewrite Exy. destruct (Z.leb_spec y x) as [C|C]; [rewrite (Z.le_antisymm _ _ Hxy C)|]; reflexivity.
  - destruct (Z.leb_spec y z) as [A|A]; cbn [insert_z].
    + rewrite Exy, (proj2 (Z.leb_le x z) (Z.le_trans _ _ _ Hxy A)). cbn [insert_z].
      destruct (Z.leb_spec y x) as [C|C]; [rewrite (Z.le_antisymm _ _ Hxy C); reflexivity|].
      rewrite (proj2 (Z.leb_le y z) A). reflexivity.
    + destruct (Z.leb_spec x z) as [B|B]; cbn [insert_z].
      * rewrite (proj2 (Z.leb_gt y x) (Z.le_lt_trans _ _ _ B A)), (proj2 (Z.leb_gt y z) A). reflexivity.
      * rewrite (proj2 (Z.leb_gt y z) A), IH. reflexivity.
Qed.

Lemma insert_z_comm x y l : insert_z x (insert_z y l) = insert_z y (insert_z x l).
Proof.
  destruct (Z.le_ge_cases x y) as [H | H]; [|symmetry]; apply insert_z_comm_le; exact H.
Qed.

Lemma sort_z_perm l l' : Permutation l l' -> sort_z l = sort_z l'.
Proof.
  unfold sort_z. induction 1 as [|x l l' P IH|x y l|l l' l'' P1 IH1 P2 IH2]; cbn [fold_right].
  - reflexivity.
  - rewrite IH. reflexivity.
  - apply insert_z_comm.
  - congruence.
Qed.

Definition a_add (M : amap) (p : list str) (k i : Z) : amap :=
  aset segs_eqb M p (set_key (alookup M p) k i).
Definition a_removable (M : amap) (p : list str) (k i : Z) : bool :=
  match get_key (alookup M p) k with Some j => j =? i | None => false end.
Definition a_remove (M : amap) (p : list str) (k i : Z) : amap :=
  if a_removable M p k i then aset segs_eqb M p (del_key (alookup M p) k) else M.

Definition a_match (M : amap) (pattern : str) : list Z :=
  if last pattern 0 =? 42
  then flat_map (keys_under (normalize (removelast pattern))) M
  else map fst (alookup M (normalize pattern)).

Fixpoint prefixes_ne (p : list str) : list (list str) :=
  match p with [] => [] | sg :: r => [sg] :: map (cons sg) (prefixes_ne r) end.

Definition a_prefixes (M : amap) : list (list str) :=
  nodup segs_eq_dec
    (flat_map (fun e => match snd e with [] => [] | _ :: _ => prefixes_ne (fst e) end) M).

Lemma In_prefixes_ne x p : In x (prefixes_ne p) <-> x <> [] /\ prefix x p.
Proof.
  unfold prefix. revert x; induction p as [|sg r IH]; intros x; cbn [prefixes_ne In].
  - split; [intros [] | intros [Hx [q H]]]. destruct x; [congruence | discriminate].
  - rewrite in_map_iff. split.
    + intros [H | [y [H Hy]]].
      * subst x. split; [discriminate | exists r; reflexivity].
      * subst x. apply IH in Hy. destruct Hy as [_ [q ->]]. split; [discriminate | exists q; reflexivity].
    + intros [Hx [q H]]. destruct x as [|a x]; [congruence|]. cbn [app] in H. inversion H; subst.
      destruct x as [|b x]; [left; reflexivity|]. right. exists (b :: x). split; [reflexivity|].
      apply IH. split; [discriminate | exists q; reflexivity].
Qed.

Lemma In_a_prefixes M x :
  NoDup (map fst M) -> (In x (a_prefixes M) <-> x <> [] /\ exists q, alookup M (x ++ q) <> []).
Proof.
  intros N. unfold a_prefixes. rewrite nodup_In, (In_flat_map_entries _ M x N (fun p => eq_refl)). cbn [fst snd]. split.
  - intros [p H]. destruct (alookup M p) eqn:E; [destruct H|].
    apply In_prefixes_ne in H. destruct H as [Hne [q ->]]. split; [exact Hne|]. exists q. rewrite E. discriminate.
  - intros [Hne [q Hq]]. exists (x ++ q). destruct (alookup M (x ++ q)); [congruence|].
    apply In_prefixes_ne. split; [exact Hne | exists q; reflexivity].
Qed.

Definition Rep (t : node) (M : amap) : Prop :=
  TWF t /\ NoDup (map fst M) /\ forall p, abs t p = alookup M p.

Lemma Rep_empty : Rep empty_node [].
Proof. split; [exact TWF_empty|]. split; [constructor|]. intros p. apply abs_empty. Qed.

Lemma Rep_upd f t M p :
  (forall ks, NoDup (map fst ks) -> NoDup (map fst (f ks))) ->
  Rep t M -> Rep (upd f t p) (aset segs_eqb M p (f (alookup M p))).
Proof.
  intros Hf [W [N H]]. split; [apply TWF_upd; assumption|]. split; [apply NoDup_aset; [exact segs_eqb_eq | exact N]|].
  intros q. rewrite abs_upd, alookup_aset, (eqb_sym' segs_eqb segs_eqb_eq p q), H.
  destruct (segs_eqb q p) eqn:E; [|reflexivity]. apply segs_eqb_eq in E. subst q. reflexivity.
Qed.

Lemma Rep_add t M p k i : Rep t M -> Rep (add_key t p k i) (a_add M p k i).
Proof. rewrite add_key_upd. apply Rep_upd. intros ks. apply NoDup_set_key. Qed.

Lemma Rep_remove t M p k i : Rep t M -> Rep (fst (remove_key t p k i)) (a_remove M p k i).
Proof.
  intros R. rewrite remove_key_upd, (proj2 (proj2 R) p). unfold a_remove.
  (* a_removable is removable at alookup M p, written out *)
  change (a_removable M p k i) with (removable (alookup M p) k i).
  destruct (removable (alookup M p) k i); cbn [fst]; [|exact R].
  apply Rep_upd; [intros ks; apply NoDup_del_key | exact R].
Qed.

Theorem Rep_match_perm t M pattern :
  Rep t M -> Permutation (get_matching t pattern) (a_match M pattern).
Proof.
  intros [W [N H]]. rewrite get_matching_dec. unfold a_match. destruct (last pattern 0 =? 42).
  - rewrite <- (keys_under_to_map t _ W). apply same_lookup_perm; [apply NoDup_to_map; exact W | exact N|].
    intros p. rewrite alookup_to_map by exact W. apply H.
  - rewrite H. apply Permutation_refl.
Qed.

(* exact (non-wildcard) patterns: the very same list, in the same order *)
Theorem Rep_match_exact t M pattern :
  Rep t M -> last pattern 0 <> 42 -> get_matching t pattern = a_match M pattern.
Proof.
  intros [W [N H]] E. rewrite (get_matching_plain t pattern E). unfold a_match.
  rewrite (proj2 (Z.eqb_neq _ _) E), H. reflexivity.
Qed.

Corollary Rep_match_sorted t M pattern :
  Rep t M -> sort_z (get_matching t pattern) = sort_z (a_match M pattern).
Proof. intros R. apply sort_z_perm. apply Rep_match_perm; exact R. Qed.

Theorem Rep_count_nodes t M : Rep t M -> count_nodes t = 1 + Z.of_nat (length (a_prefixes M)).
Proof.
  intros [W [N H]]. rewrite count_nodes_to_map, <- (map_length fst).
  rewrite (Permutation_length (l' := [] :: a_prefixes M)); [cbn [length]; lia|].
  apply NoDup_Permutation; [exact (NoDup_to_map t W) | constructor; [|apply NoDup_nodup]|].
  - rewrite (In_a_prefixes M [] N). intros [E _]. exact (E eq_refl).
  - intros x. rewrite (In_to_map_paths t x W), (TWF_nodes t x W). cbn [In]. rewrite (In_a_prefixes M x N). split.
    + intros [-> | [q Hq]]; [left; reflexivity|]. destruct x; [left; reflexivity | right].
      split; [discriminate|]. exists q. rewrite <- H. exact Hq.
    + intros [<- | [_ [q Hq]]]; [left; reflexivity | right; exists q; rewrite H; exact Hq].
Qed.

(* the operations of the "trie" stream (HttpTrie.trie_step), decoded *)
Inductive top :=
| TAdd (k i : Z) (p : str) | TRemove (k i : Z) (p : str) | TMatch (pat : str) | TClear | TCount | TBad.

Definition decode (op : list Z) : top :=
  match op with
  | 1 :: k :: i :: rest => TAdd k i (fst (read_str rest))
  | 2 :: k :: i :: rest => TRemove k i (fst (read_str rest))
  | 3 :: rest => TMatch (fst (read_str rest))
  | [4] => TClear
  | [5] => TCount
  | _ => TBad
  end.

Definition t_step (t : node) (o : top) : node * list Z :=
  match o with
  | TAdd k i p => (add_key t (normalize p) k i, [])
  | TRemove k i p => (fst (remove_key t (normalize p) k i), [])
  | TMatch pat => (t, sort_z (get_matching t pat))
  | TClear => (empty_node, [])
  | TCount => (t, [count_nodes t])
  | TBad => (t, [-1])
  end.

Definition a_step (M : amap) (o : top) : amap * list Z :=
  match o with
  | TAdd k i p => (a_add M (normalize p) k i, [])
  | TRemove k i p => (a_remove M (normalize p) k i, [])
  | TMatch pat => (M, sort_z (a_match M pat))
  | TClear => ([], [])
  | TCount => (M, [1 + Z.of_nat (length (a_prefixes M))])
  | TBad => (M, [-1])
  end.

Definition a_trie_step (M : amap) (op : list Z) : amap * list Z := a_step M (decode op).

Lemma trie_step_decode t op : trie_step t op = t_step t (decode op).
Proof.
  unfold trie_step, decode.
  (* pure shape analysis of the op list against the patterns of trie_step; nothing else is searched *)
  repeat (match goal with |- context [match ?x with _ => _ end] => is_var x; destruct x end; cbv beta iota);
    try reflexivity.
  all: cbn [t_step].
  all: try (destruct (read_str op) as [p r]; cbn [fst]).
  all: try (destruct (remove_key _ _ _ _) as [t' ok]; cbn [fst]).
  all: reflexivity.
Qed.

Theorem step_refines t M o :
  Rep t M -> Rep (fst (t_step t o)) (fst (a_step M o)) /\ snd (t_step t o) = snd (a_step M o).
Proof.
  intros R. destruct o as [k i p|k i p|pat| | |]; cbn [t_step a_step fst snd].
  - split; [apply Rep_add; exact R | reflexivity].
  - split; [apply Rep_remove; exact R | reflexivity].
  - split; [exact R | apply Rep_match_sorted; exact R].
  - split; [exact Rep_empty | reflexivity].
  - split; [exact R|]. rewrite (Rep_count_nodes t M R). reflexivity.
  - split; [exact R | reflexivity].
Qed.

Lemma run_refines t M ops :
  Rep t M ->
  Rep (run_state trie_step t ops) (run_state a_trie_step M ops) /\
  run_out trie_step t ops = run_out a_trie_step M ops.
Proof.
  unfold run_state, run_out. revert t M; induction ops as [|op ops IH]; intros t M R; cbn [run].
  - split; [exact R | reflexivity].
  - unfold a_trie_step at 1 3. rewrite trie_step_decode.
    destruct (step_refines t M (decode op) R) as [R' E].
    destruct (t_step t (decode op)) as [t1 o1]. destruct (a_step M (decode op)) as [M1 o1'].
    cbn [fst snd] in R', E. subst o1'. destruct (IH t1 M1 R') as [R'' E''].
    destruct (run trie_step t1 ops) as [t2 os]. destruct (run a_trie_step M1 ops) as [M2 os'].
    cbn [fst snd] in *. split; [exact R'' | congruence].
Qed.

(* Trace theorem: from the cleared index, after any sequence of add / remove / match / clear / count
   operations, the trie is well formed, represents the abstract map maintained by the obvious map
   operations, and every output (sorted get_matching answers, node counts) equals the output computed
   on the abstract map.  Since this holds for every sequence it holds for every prefix, i.e. throughout. *)
Theorem trie_trace ops :
  Rep (run_state trie_step empty_node ops) (run_state a_trie_step [] ops) /\
  run_out trie_step empty_node ops = run_out a_trie_step [] ops.
Proof. apply run_refines. exact Rep_empty. Qed.

Corollary trie_trace_TWF ops : TWF (run_state trie_step empty_node ops).
Proof. destruct (trie_trace ops) as [[W _] _]. exact W. Qed.

Corollary trie_trace_match ops pattern :
  Permutation (get_matching (run_state trie_step empty_node ops) pattern)
              (a_match (run_state a_trie_step [] ops) pattern) /\
  (last pattern 0 <> 42 ->
   get_matching (run_state trie_step empty_node ops) pattern = a_match (run_state a_trie_step [] ops) pattern).
Proof.
  destruct (trie_trace ops) as [R _]. split; [apply Rep_match_perm; exact R|].
  intros E. apply Rep_match_exact; assumption.
Qed.

Corollary trie_trace_count ops :
  count_nodes (run_state trie_step empty_node ops) =
  1 + Z.of_nat (length (a_prefixes (run_state a_trie_step [] ops))).
Proof. destruct (trie_trace ops) as [R _]. apply Rep_count_nodes; exact R. Qed.

Corollary remove_key_prunes n segs k i p m :
  TWF n -> p <> [] -> descend (fst (remove_key n segs k i)) p = Some m ->
  exists q k' i', In (k', i') (abs (fst (remove_key n segs k i)) (p ++ q)).
Proof. intros W. apply TWF_no_empty_branch. apply TWF_remove_key. exact W. Qed.

Corollary TWF_no_keys_empty n : TWF n -> (forall p, abs n p = []) -> n = empty_node.
Proof.
  intros W H. apply is_empty_true. destruct (is_empty n) eqn:E; [reflexivity|].
  destruct (nonempty_has_key n W E) as [q [k [i Hq]]]. rewrite H in Hq. destruct Hq.
Qed.

(* The semantic reading of TWF: at every node distinct keys and distinct child names, and below every non-root
   node a key.  A stated result; nothing below uses it. *)
Definition TWF_sem (n : node) : Prop :=
  (forall p m, descend n p = Some m -> NoDup (map fst (nkeys m)) /\ NoDup (map fst (nkids m))) /\
  (forall p m, p <> [] -> descend n p = Some m -> exists q k i, In (k, i) (abs m q)).

Theorem TWF_iff_sem n : TWF n <-> TWF_sem n.
Proof.
  split.
  - intros W. split.
    + intros p m D. destruct (TWF_descend _ _ _ W D) as [Wm _]. split; [apply TWF_keys | apply TWF_kids]; exact Wm.
    + intros p m Hp D. destruct (TWF_descend _ _ _ W D) as [Wm Em].
      apply nonempty_has_key; [exact Wm | exact (Em (or_introl Hp))].
  - induction n as [ks cs IH] using node_ind'. rewrite Forall_forall in IH. intros [S1 S2].
    destruct (S1 [] (Node ks cs) eq_refl) as [Hk Hc]. cbn [nkeys nkids] in Hk, Hc.
    assert (Hd : forall sg c, In (sg, c) cs -> forall p, descend (Node ks cs) (sg :: p) = descend c p).
    { intros sg c Hin p. cbn [descend nkids]. rewrite (In_find_child cs sg c Hc Hin). reflexivity. }
    constructor; [exact Hk | exact Hc | |].
    + intros sg c Hin. apply (IH (sg, c) Hin). split.
      * intros p m D. apply (S1 (sg :: p)). rewrite (Hd sg c Hin). exact D.
      * intros p m Hp D. apply (S2 (sg :: p)); [discriminate|]. rewrite (Hd sg c Hin). exact D.
    + intros sg c Hin. destruct (S2 [sg] c ltac:(discriminate)) as [q [k [i Hq]]].
      { rewrite (Hd sg c Hin). reflexivity. }
      destruct (is_empty c) eqn:E; [|reflexivity]. apply is_empty_true in E. subst c.
      rewrite abs_empty in Hq. destruct Hq.
Qed.

Lemma take_str_all s : take_str (length s) s = (s, []).
Proof. induction s as [|c s IH]; cbn [length take_str]; [reflexivity | rewrite IH; reflexivity]. Qed.

Lemma read_str_write_str s : read_str (write_str s) = (s, []).
Proof. unfold read_str, write_str. rewrite Nat2Z.id. apply take_str_all. Qed.

Theorem trie_step_add_same_path t k i p q :
  same_path p q -> trie_step t (1 :: k :: i :: write_str p) = trie_step t (1 :: k :: i :: write_str q).
Proof.
  intros E. unfold trie_step. cbv iota beta. rewrite !read_str_write_str, E. reflexivity.
Qed.

Theorem trie_step_remove_same_path t k i p q :
  same_path p q -> trie_step t (2 :: k :: i :: write_str p) = trie_step t (2 :: k :: i :: write_str q).
Proof.
  intros E. unfold trie_step. cbv iota beta. rewrite !read_str_write_str, E. reflexivity.
Qed.

Theorem trie_step_match_same_path t p q :
  last p 0 <> 42 -> last q 0 <> 42 -> same_path p q ->
  trie_step t (3 :: write_str p) = trie_step t (3 :: write_str q).
Proof.
  intros Hp Hq E. unfold trie_step. cbv iota beta.
  rewrite !read_str_write_str, (get_matching_plain t p Hp), (get_matching_plain t q Hq), E. reflexivity.
Qed.

(* concrete instances: the hypotheses of the theorems above can be met; two variants that fail *)
Module Examples.
  Definition s_api : str := [97; 112; 105].                 (* "api" *)
  Definition s_users : str := [117; 115; 101; 114; 115].    (* "users" *)
  Definition p_users : str := 47 :: s_api ++ 47 :: s_users. (* "/api/users" *)
  Definition p_user1 : str := p_users ++ [47; 49].          (* "/api/users/1" *)
  Definition p_wild : str := 47 :: s_api ++ [47; 42].       (* "/api/*" *)
  Definition p_users_alt : str := [47; 47] ++ s_api ++ [47; 47; 47] ++ s_users ++ [47]. (* "//api///users/" *)

  Definition t1 := add_key empty_node (normalize p_users) 10 100.
  Definition t2 := add_key t1 (normalize p_user1) 11 101.

  Example ex_normalize : normalize p_user1 = [s_api; s_users; [49]].
  Proof. vm_compute. reflexivity. Qed.
  Example ex_normalize_alt : normalize p_users_alt = normalize p_users.
  Proof. vm_compute. reflexivity. Qed.
  Example ex_twf : TWF t2.
  Proof. apply TWF_add_key, TWF_add_key, TWF_empty. Qed.
  Example ex_abs_users : abs t2 [s_api; s_users] = [(10, 100)].
  Proof. vm_compute. reflexivity. Qed.
  Example ex_abs_user1 : abs t2 [s_api; s_users; [49]] = [(11, 101)].
  Proof. vm_compute. reflexivity. Qed.
  Example ex_abs_api : abs t2 [s_api] = [].
  Proof. vm_compute. reflexivity. Qed.
  Example ex_count : count_nodes t2 = 4.
  Proof. vm_compute. reflexivity. Qed.
  (* removing the deeper key keeps the interior node /api/users with its key, prunes only /api/users/1 *)
  Example ex_remove_deeper :
    remove_key t2 (normalize p_user1) 11 101 = (t1, true) /\
    abs t1 [s_api; s_users] = [(10, 100)] /\ count_nodes t1 = 3.
  Proof. vm_compute. repeat split; reflexivity. Qed.
  (* removing the interior key keeps the interior node (it still has a child) *)
  Example ex_remove_interior :
    let '(t, ok) := remove_key t2 (normalize p_users) 10 100 in
    ok = true /\ abs t [s_api; s_users] = [] /\ abs t [s_api; s_users; [49]] = [(11, 101)] /\ count_nodes t = 4.
  Proof. vm_compute. repeat split; reflexivity. Qed.
  Example ex_remove_stale : remove_key t2 (normalize p_user1) 11 999 = (t2, false).
  Proof. vm_compute. reflexivity. Qed.
  Example ex_remove_all :
    fst (remove_key (fst (remove_key t2 (normalize p_users) 10 100)) (normalize p_user1) 11 101) = empty_node.
  Proof. vm_compute. reflexivity. Qed.
  Example ex_wildcard : get_matching t2 p_wild = [10; 11].
  Proof. vm_compute. reflexivity. Qed.
  Example ex_exact : get_matching t2 p_users = [10].
  Proof. vm_compute. reflexivity. Qed.
  Example ex_exact_alt : get_matching t2 p_users_alt = [10].
  Proof. vm_compute. reflexivity. Qed.
  Example ex_exact_api : get_matching t2 (47 :: s_api) = [].
  Proof. vm_compute. reflexivity. Qed.
  Example ex_root_wild : get_matching t2 [47; 42] = [10; 11].
  Proof. vm_compute. reflexivity. Qed.
  Example ex_readd :
    let t3 := add_key t2 (normalize p_user1) 11 202 in
    abs t3 [s_api; s_users; [49]] = [(11, 202)] /\
    remove_key t3 (normalize p_user1) 11 101 = (t3, false).
  Proof. vm_compute. split; reflexivity. Qed.

  (* the trace theorem is not vacuous: a concrete stream, its outputs, and the abstract outputs *)
  Definition ops : list (list Z) :=
    [ 1 :: 10 :: 100 :: write_str p_users;       (* add 10 at /api/users *)
      1 :: 11 :: 101 :: write_str p_user1;       (* add 11 at /api/users/1 *)
      3 :: write_str p_wild;                     (* match /api/* *)
      [5];                                       (* count *)
      2 :: 11 :: 999 :: write_str p_user1;       (* stale remove *)
      [5];
      2 :: 11 :: 101 :: write_str p_user1;       (* real remove *)
      [5];
      3 :: write_str p_users_alt;                (* match //api///users/ *)
      1 :: 10 :: 300 :: write_str (47 :: s_api); (* the same key at another path *)
      3 :: write_str [47; 42];                   (* match /* : key 10 twice *)
      [4];                                       (* clear *)
      [5] ].
  Definition expected : list (list Z) :=
    [ []; []; [10; 11]; [4]; []; [4]; []; [3]; [10]; []; [10; 10]; []; [1] ].
  Example ex_trace_concrete : run_out trie_step empty_node ops = expected.
  Proof. vm_compute. reflexivity. Qed.
  Example ex_trace_abstract : run_out a_trie_step [] ops = expected.
  Proof. vm_compute. reflexivity. Qed.

  (* REFUTED variant of the trace theorem: for wildcard patterns the raw (unsorted) answer is NOT the same list as the
     answer computed on the abstract map - only a permutation of it (Rep_match_perm), hence equal after
     sort_z (Rep_match_sorted), which is what trie_step emits.  Keys at /a/x, /b, /a/y: the trie walks
     /b first because set_child re-appends the touched child /a. *)
  Definition sa : str := [97]. Definition sb : str := [98]. Definition sx : str := [120]. Definition sy : str := [121].
  Definition t_ord := add_key (add_key (add_key empty_node [sa; sx] 1 1) [sb] 2 2) [sa; sy] 3 3.
  Definition m_ord := a_add (a_add (a_add [] [sa; sx] 1 1) [sb] 2 2) [sa; sy] 3 3.
  Example wildcard_order_refuted :
    Rep t_ord m_ord /\ get_matching t_ord [47; 42] = [2; 1; 3] /\ a_match m_ord [47; 42] = [1; 2; 3].
  Proof.
    split; [repeat apply Rep_add; exact Rep_empty|]. vm_compute. split; reflexivity.
  Qed.

  (* REFUTED variant of get_matching_wildcard without TWF: with two sibling children of the same name the second one is
     unreachable through descend/abs, but subtree_keys still reports its keys. *)
  Definition t_dup := Node [] [(sa, Node [(1, 1)] []); (sa, Node [(2, 2)] [])].
  Example wildcard_needs_TWF_refuted :
    In 2 (get_matching t_dup [47; 42]) /\ forall p, ~ In 2 (map fst (abs t_dup p)).
  Proof.
    split; [vm_compute; tauto|].
    intros [|s r]; [intros []|]. rewrite abs_cons. cbn [nkids t_dup find_child].
    destruct (str_eqb sa s); [|intros []].
    destruct r as [|s' r']; [cbn; intros [H | []]; discriminate H|].
    rewrite abs_cons. cbn [nkids find_child]. intros [].
  Qed.
End Examples.
