(* Base.v — shared definitions: Go integer arithmetic in Z, small list helpers.  Stdlib only. *)
From Coq Require Export List ZArith NArith Bool Lia.
From Coq Require Export ZifyBool ZifyNat ZifyN.
Export ListNotations.
Open Scope Z_scope.

(* Go int64 / int (64-bit) arithmetic: unbounded Z plus explicit wrap *)

Definition two63 : Z := 9223372036854775808.
Definition two64 : Z := 18446744073709551616.
Definition max_int64 : Z := two63 - 1.

Definition wrap64 (z : Z) : Z := ((z + two63) mod two64) - two63.

Definition uwrap64 (z : Z) : Z := z mod two64.

Lemma wrap64_small z : - two63 <= z < two63 -> wrap64 z = z.
Proof.
  unfold wrap64, two63, two64; intros H.
  rewrite Z.mod_small by lia. lia.
Qed.

Lemma wrap64_range z : - two63 <= wrap64 z < two63.
Proof.
  unfold wrap64, two63, two64.
  pose proof (Z.mod_pos_bound (z + 9223372036854775808) 18446744073709551616 ltac:(lia)). lia.
Qed.

(* Go: bits.Len of a non-negative integer *)
Definition bits_len (z : Z) : Z := if z <=? 0 then 0 else Z.log2 z + 1.

(* Go: min / max builtins *)
Definition zmin := Z.min.
Definition zmax := Z.max.

(* Go integer division truncates toward zero; all uses here have non-negative
   operands, where it coincides with Z.div (checked in the theorems' hypotheses). *)

Definition b2z (b : bool) : Z := if b then 1 else 0.
Definition z2b (z : Z) : bool := negb (z =? 0).

Fixpoint zseq (start : Z) (len : nat) : list Z :=
  match len with O => [] | S n => start :: zseq (start + 1) n end.

Definition nthZ (l : list Z) (i : nat) : Z := nth i l 0.

Fixpoint sumZ (l : list Z) : Z :=
  match l with [] => 0 | x :: r => x + sumZ r end.

Lemma sumZ_app a b : sumZ (a ++ b) = sumZ a + sumZ b.
Proof. induction a as [|x a IH]; cbn [sumZ app]; lia. Qed.

Lemma nodup_app_iff {A} (a b : list A) :
  NoDup (a ++ b) <-> NoDup a /\ NoDup b /\ (forall x, In x a -> ~ In x b).
Proof.
  induction a as [|x a IH]; cbn [app In].
  - split; [intros H; repeat split; [constructor|exact H|intros ? []]|tauto].
  - rewrite !NoDup_cons_iff, IH, in_app_iff.
    split; [intros (N & Na & Nb & D)|intros ((N & Na) & Nb & D)]; repeat split; auto.
    + intros y [<-|Hy]; [tauto|auto].
    + intros [H|H]; [tauto|exact (D x (or_introl eq_refl) H)].
Qed.

Lemma filter_all {A} (f : A -> bool) l : (forall x, In x l -> f x = true) -> filter f l = l.
Proof.
  induction l as [|x l IH]; cbn [filter]; intros H; [reflexivity|].
  rewrite (H x (or_introl eq_refl)). f_equal. apply IH. intros y Hy. apply H. right. exact Hy.
Qed.

Section Run.
  Variables (S I O : Type) (step : S -> I -> S * O).
  Fixpoint run (s : S) (ins : list I) : S * list O :=
    match ins with
    | [] => (s, [])
    | i :: r => let '(s1, o) := step s i in
                let '(s2, os) := run s1 r in (s2, o :: os)
    end.
  Definition run_out (s : S) (ins : list I) : list O := snd (run s ins).
  Definition run_state (s : S) (ins : list I) : S := fst (run s ins).

  Lemma run_state_fold s ins :
    run_state s ins = fold_left (fun st i => fst (step st i)) ins s.
  Proof.
    unfold run_state. revert s; induction ins as [|i r IH]; intros s; cbn [run fold_left]; [reflexivity|].
    destruct (step s i) as [s1 o] eqn:E. specialize (IH s1).
    destruct (run s1 r) as [s2 os]. cbn [fst] in *. exact IH.
  Qed.
End Run.
Arguments run {S I O}.
Arguments run_out {S I O}.
Arguments run_state {S I O}.

Lemma run_simulation {S T I O} (f : S -> I -> S * O) (g : T -> I -> T * O) (Rel : S -> T -> Prop) :
  (forall s t i, Rel s t -> snd (f s i) = snd (g t i) /\ Rel (fst (f s i)) (fst (g t i))) ->
  forall ins s t, Rel s t ->
  run_out f s ins = run_out g t ins /\ Rel (run_state f s ins) (run_state g t ins).
Proof.
  intros Hstep. unfold run_out, run_state.
  induction ins as [|i ins IH]; intros s t Hst; cbn [run]; [auto|].
  destruct (Hstep s t i Hst) as [H1 H2].
  destruct (f s i) as [s1 o1], (g t i) as [t1 o2]. cbn [fst snd] in *.
  destruct (IH s1 t1 H2) as [H3 H4].
  destruct (run f s1 ins) as [s2 os1], (run g t1 ins) as [t2 os2]. cbn [fst snd] in *.
  split; [congruence|assumption].
Qed.

Lemma run_invariant {S I O} (f : S -> I -> S * O) (P : S -> Prop) (Q : O -> Prop) :
  (forall s i, P s -> P (fst (f s i)) /\ Q (snd (f s i))) ->
  forall ins s, P s -> P (run_state f s ins) /\ Forall Q (run_out f s ins).
Proof.
  intros Hstep. unfold run_out, run_state.
  induction ins as [|i ins IH]; intros s Hs; cbn [run]; [split; [assumption|constructor]|].
  destruct (Hstep s i Hs) as [H1 H2]. destruct (f s i) as [s1 o]. cbn [fst snd] in *.
  destruct (IH s1 H1) as [H3 H4]. destruct (run f s1 ins) as [s2 os]. cbn [fst snd] in *. auto.
Qed.
