(* CacheLists.v: what the list functions of CacheModel.v (memz, remz, find_item, has_key, remove_key, replace_item,
   set_nth, last_item) compute, in terms of In, NoDup and nth_error. *)
Require Import KV.Base KV.CacheModel.
Open Scope Z_scope.

Lemma memz_In l k : memz l k = true <-> In k l.
Proof.
  induction l as [|x r IH]; cbn [memz In]; [split; [discriminate|tauto]|].
  rewrite orb_true_iff, IH, Z.eqb_eq. tauto.
Qed.

Lemma memz_false l k : memz l k = false <-> ~ In k l.
Proof. rewrite <- memz_In. destruct (memz l k); split; congruence. Qed.

Lemma remz_In_weak l k x : In x (remz l k) -> In x l.
Proof.
  induction l as [|y r IH]; cbn [remz In]; [tauto|].
  destruct (y =? k); cbn [In]; tauto.
Qed.

Lemma remz_In_other l k x : x <> k -> In x l -> In x (remz l k).
Proof.
  intros Hx. induction l as [|y r IH]; cbn [remz In]; [intros []|].
  destruct (Z.eqb_spec y k) as [->|_].
  - intros [H|H]; [destruct (Hx (eq_sym H))|exact H].
  - intros [H|H]; [left; exact H|right; exact (IH H)].
Qed.

Lemma remz_notin l k : ~ In k l -> remz l k = l.
Proof.
  induction l as [|y r IH]; cbn [remz In]; intros H; [reflexivity|].
  destruct (Z.eqb_spec y k) as [E|E]; [tauto|]. rewrite IH by tauto. reflexivity.
Qed.

Lemma remz_app a b k : remz (a ++ b) k = if memz a k then remz a k ++ b else a ++ remz b k.
Proof.
  induction a as [|x a IH]; cbn [app remz memz]; [reflexivity|].
  destruct (x =? k); cbn [orb]; [reflexivity|]. rewrite IH. destruct (memz a k); reflexivity.
Qed.

Lemma remz_filter l k : NoDup l -> remz l k = filter (fun x => negb (x =? k)) l.
Proof.
  induction 1 as [|y l Hy _ IH]; cbn [remz filter]; [reflexivity|].
  destruct (Z.eqb_spec y k) as [->|_]; cbn [negb]; [|f_equal; exact IH].
  symmetry. apply filter_all. intros x Hx. destruct (Z.eqb_spec x k) as [->|_]; [contradiction|reflexivity].
Qed.

Lemma remz_In l k x : NoDup l -> (In x (remz l k) <-> In x l /\ x <> k).
Proof. intros ND. rewrite (remz_filter _ _ ND), filter_In, negb_true_iff, Z.eqb_neq. reflexivity. Qed.

Lemma remz_NoDup l k : NoDup l -> NoDup (remz l k).
Proof. intros ND. rewrite (remz_filter _ _ ND). exact (NoDup_filter _ ND). Qed.

Lemma remz_not_self l k : NoDup l -> ~ In k (remz l k).
Proof. intros ND H. apply (remz_In _ _ _ ND) in H. tauto. Qed.

Lemma find_item_some l k it : find_item l k = Some it -> In it l /\ key it = k.
Proof.
  induction l as [|x r IH]; cbn [find_item In]; [discriminate|].
  destruct (Z.eqb_spec (key x) k) as [E|E]; intros H.
  - inversion H; subst. tauto.
  - specialize (IH H). tauto.
Qed.

Lemma find_item_none l k : find_item l k = None <-> ~ In k (map key l).
Proof.
  induction l as [|x r IH]; cbn [find_item map In]; [tauto|].
  destruct (Z.eqb_spec (key x) k) as [E|E]; [split; [discriminate|tauto]|]. rewrite IH. tauto.
Qed.

Lemma find_item_In_key l k : In k (map key l) -> exists it, find_item l k = Some it.
Proof.
  intros H. destruct (find_item l k) as [it|] eqn:E; [eauto|].
  apply find_item_none in E. tauto.
Qed.

Lemma has_key_memz l k : has_key l k = memz (map key l) k.
Proof.
  unfold has_key. induction l as [|x l IH]; [reflexivity|]. cbn [find_item map memz].
  destruct (key x =? k); [reflexivity | exact IH].
Qed.

Lemma find_item_unique l k it : NoDup (map key l) -> In it l -> key it = k -> find_item l k = Some it.
Proof.
  induction l as [|x l IH]; cbn [find_item map In]; intros ND H K; [destruct H|].
  inversion ND as [|a b Hx ND']; subst. destruct H as [->|H]; [rewrite Z.eqb_refl; reflexivity|].
  destruct (Z.eqb_spec (key x) (key it)) as [E|_]; [|exact (IH ND' H eq_refl)].
  exfalso. apply Hx. rewrite E. apply in_map. exact H.
Qed.
Arguments find_item_unique {l k it}.

Lemma map_key_remove l k : map key (remove_key l k) = remz (map key l) k.
Proof.
  induction l as [|it r IH]; cbn [remove_key map remz]; [reflexivity|].
  destruct (key it =? k); cbn [map]; [reflexivity|]. rewrite IH. reflexivity.
Qed.

Lemma map_key_replace l n : map key (replace_item l n) = map key l.
Proof.
  induction l as [|it r IH]; cbn [replace_item map]; [reflexivity|].
  destruct (Z.eqb_spec (key it) (key n)) as [E|_]; cbn [map]; [rewrite E|rewrite IH]; reflexivity.
Qed.

Lemma nth_error_set_nth_eq {A} (l : list A) i x y : nth_error l i = Some y -> nth_error (set_nth l i x) i = Some x.
Proof. revert i. induction l as [|a l IH]; intros [|i]; cbn [nth_error set_nth]; try discriminate; auto. Qed.

Lemma last_item_In l it : last_item l = Some it -> In it l.
Proof.
  unfold last_item. intros H. apply in_rev. destruct (rev l) as [|x r]; [discriminate|].
  inversion H; subst. left; reflexivity.
Qed.

Lemma last_item_None l : last_item l = None -> l = [].
Proof.
  unfold last_item. intros H. destruct (rev l) as [|x r] eqn:E; [|discriminate].
  rewrite <- (rev_involutive l), E. reflexivity.
Qed.

Lemma over_capacity_frame s s' :
  cap s' = cap s -> costcap s' = costcap s -> size s' = size s -> scost s' = scost s ->
  over_capacity s' = over_capacity s.
Proof. unfold over_capacity. intros -> -> -> ->. reflexivity. Qed.
