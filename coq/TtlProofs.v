(* Cache-level theorems for C05 (TTL: stamping, expiry, remaining time, cleanup) and C06 (removal
   notifications: conservation, not readable after a drop, reasons) over CacheModel.v, on top of
   ClassicProofs.v (LRU / LFU / FIFO), SieveProofs.v (SieveTinyLFU) and the structural part of CacheProofs.v.
   The idea: one invariant ShInv for a shard of either policy family and the shard as a reader sees it (lke);
   for every shard function a specification of the new view and of what it appends to the ghost log
   (DropSpec / SetSpec / TouchSpec / CleanSpec); from these the shard steps TStep (the invariant TShard again,
   the logs grown by entries of a given class), lifted to the cache by CStep_put. *)
(* ClassicProofs is imported unqualified: Good, CInv, Drops, DropsEff, Frame, mk_notif, notifs_of, cnt, is_tag,
   lookup_find and the tactic sfld come from there; SieveProofs and CacheProofs are used as SP. and CA. *)
Require Import KV.Base KV.Gen.Consts KV.ConfigModel KV.CacheModel KV.CacheLists KV.ClassicProofs.
Require KV.SieveProofs KV.CacheProofs.
From Coq Require Import Permutation.
Open Scope Z_scope.
Module SP := KV.SieveProofs.
Module CA := KV.CacheProofs.

Lemma norm_ttl_spec c ttl :
  norm_ttl c ttl = if ttl =? defaultExpiration then Z.max 0 (defttl c) else Z.max 0 ttl.
Proof.
  unfold norm_ttl. cbv zeta. destruct (ttl =? defaultExpiration);
    [destruct (Z.ltb_spec 0 (defttl c))|destruct (Z.ltb_spec 0 ttl)]; lia.
Qed.

Lemma norm_ttl_nonneg c ttl : 0 <= norm_ttl c ttl.
Proof. rewrite norm_ttl_spec. destruct (ttl =? defaultExpiration); lia. Qed.

Lemma norm_ttl_no_expiration c : norm_ttl c noExpiration = 0.
Proof. reflexivity. Qed.

Lemma norm_ttl_negative c ttl : ttl < 0 -> norm_ttl c ttl = 0.
Proof. intros H. rewrite norm_ttl_spec. unfold defaultExpiration. destruct (Z.eqb_spec ttl 0); lia. Qed.

Lemma norm_ttl_default_none c : defttl c <= 0 -> norm_ttl c defaultExpiration = 0.
Proof. intros H. rewrite norm_ttl_spec. cbn. lia. Qed.

(* nothing is cut off at a non-positive clock: TTLs are int64 durations, so the sum cannot pass max_int64 *)
Lemma stamp_cases t n :
  (t <= 0 /\ stamp t n = 0) \/
  (0 < t /\ ((0 < n /\ max_int64 - n < t /\ stamp t n = max_int64) \/ ((n <= 0 \/ t <= max_int64 - n) /\ stamp t n = n + t))).
Proof.
  unfold stamp. destruct (Z.ltb_spec 0 t); [|lia]. destruct (Z.ltb_spec 0 n); cbn [andb]; [|lia].
  destruct (Z.ltb_spec (max_int64 - n) t); lia.
Qed.

Lemma stamp_nonpos t n : t <= 0 -> stamp t n = 0.
Proof. pose proof (stamp_cases t n). lia. Qed.

Lemma stamp_zero_ttl n : stamp 0 n = 0.
Proof. reflexivity. Qed.

Lemma stamp_pos t n : 0 < t <= max_int64 -> stamp t n = Z.min (n + t) max_int64.
Proof. pose proof (stamp_cases t n). lia. Qed.

Lemma stamp_bounds t n : 0 < t <= max_int64 -> 0 <= n <= max_int64 -> n <= stamp t n <= max_int64 /\ (n < max_int64 -> n < stamp t n).
Proof. intros Ht Hn. rewrite stamp_pos by exact Ht. lia. Qed.

Lemma remaining_decreasing ex nw1 nw2 : nw1 < nw2 -> ex - nw2 < ex - nw1.
Proof. lia. Qed.

Lemma expired_spec it nw : expired it nw = true <-> 0 < exp it < nw.
Proof. unfold expired. lia. Qed.

Lemma expired_false it nw : expired it nw = false <-> (exp it <= 0 \/ nw <= exp it).
Proof. unfold expired. lia. Qed.

Lemma expired_mono it nw nw' : nw <= nw' -> expired it nw = true -> expired it nw' = true.
Proof. rewrite !expired_spec. lia. Qed.

Lemma never_expires it nw : exp it = 0 -> expired it nw = false.
Proof. intros H. apply expired_false. lia. Qed.

Definition resident (c : cache) (sh k : Z) : option item :=
  match get_shard c sh with Some s => lookup s (policy c) k | None => None end.

Lemma lookup_some_memz s pol k it : lookup s pol k = Some it -> memz (tabk s) k = true.
Proof. unfold lookup. destruct (memz (tabk s) k); [reflexivity|discriminate]. Qed.

Record SameCfg (c c' : cache) : Prop := {
  sc_policy : policy c' = policy c; sc_nshards : nshards c' = nshards c; sc_defttl : defttl c' = defttl c;
  sc_stats : statsOn c' = statsOn c; sc_mask : mask c' = mask c; sc_track : trackCost c' = trackCost c;
  sc_now : now c' = now c; sc_closed : closed c' = closed c; sc_len : length (shards c') = length (shards c)
}.

Lemma SameCfg_refl c : SameCfg c c.
Proof. constructor; reflexivity. Qed.
Lemma SameCfg_trans a b c : SameCfg a b -> SameCfg b c -> SameCfg a c.
Proof. intros [] []. constructor; congruence. Qed.

Lemma SameCfg_put c sh s h m ev ex : SameCfg c (put_shard c sh s h m ev ex).
Proof. constructor; try reflexivity. cbn [put_shard shards]. apply CA.length_set_nth. Qed.

Lemma env_of_same c c' : SameCfg c c' -> env_of c' = env_of c.
Proof. intros []. unfold env_of. congruence. Qed.

Lemma SameCfg_drain_shard c sh : SameCfg c (drain_shard c sh).
Proof.
  destruct (get_shard c sh) as [s|] eqn:G; [rewrite (CA.drain_shard_eq c sh s G); apply SameCfg_put|].
  unfold drain_shard. rewrite G. apply SameCfg_refl.
Qed.

(* a resident key is never drained away before it is looked up: Get sees exactly [resident c sh k] *)
Theorem op_get_resident c k sh it c' ok v r :
  closed c = false -> resident c sh k = Some it -> op_get c k sh = (c', ok, v, r) ->
  if expired it (now c) then ok = false /\ v = 0 /\ r = 0
  else ok = true /\ v = val it /\ r = (if exp it =? 0 then -1 else exp it - now c).
Proof.
  unfold resident, op_get. intros Hc. rewrite Hc.
  destruct (get_shard c sh) as [s|] eqn:G; [|discriminate]. intros LK. cbv zeta.
  rewrite (lookup_some_memz _ _ _ _ LK). cbn [negb]. rewrite andb_false_r, G, LK.
  destruct (expired it (now c)).
  - destruct (drop_item (env_of c) s it reasonExpired) as [[s1 o] d]. intros H. injection H as _ <- <- <-. auto.
  - intros H. injection H as _ <- <- <-. auto.
Qed.

Theorem c05_served_until_deadline c k sh it c' ok v r :
  closed c = false -> resident c sh k = Some it -> (exp it = 0 \/ now c <= exp it) ->
  op_get c k sh = (c', ok, v, r) ->
  ok = true /\ v = val it /\ r = (if exp it =? 0 then -1 else exp it - now c).
Proof.
  intros Hc R E H. pose proof (op_get_resident c k sh it c' ok v r Hc R H) as P.
  assert (X : expired it (now c) = false) by (apply expired_false; lia).
  rewrite X in P. exact P.
Qed.

(* the entry is looked up in c itself or, for a SieveTinyLFU miss, which first helps draining the shard's
   queue, in the drained cache: a queued SetAsync may have just written it *)
Theorem op_get_hit_sound c k sh c' v r :
  op_get c k sh = (c', true, v, r) ->
  closed c = false /\
  exists c0 it, (c0 = c \/ c0 = drain_shard c sh) /\ resident c0 sh k = Some it /\
                expired it (now c) = false /\ v = val it /\
                r = (if exp it =? 0 then -1 else exp it - now c).
Proof.
  unfold op_get. destruct (closed c) eqn:Hc; [discriminate|].
  destruct (get_shard c sh) as [s0|] eqn:G0; [|discriminate]. cbv zeta.
  set (c0 := if is_sieve s0 (policy c) && negb (memz (tabk s0) k) then drain_shard c sh else c).
  assert (SC : SameCfg c c0).
  { unfold c0. destruct (is_sieve s0 (policy c) && negb (memz (tabk s0) k)); [apply SameCfg_drain_shard|apply SameCfg_refl]. }
  assert (C0 : c0 = c \/ c0 = drain_shard c sh).
  { unfold c0. destruct (is_sieve s0 (policy c) && negb (memz (tabk s0) k)); auto. }
  clearbody c0.
  destruct (get_shard c0 sh) as [s|] eqn:G; [|discriminate].
  destruct (lookup s (policy c0) k) as [it|] eqn:LK; [|discriminate].
  destruct (expired it (now c0)) eqn:E.
  - destruct (drop_item (env_of c0) s it reasonExpired) as [[s1 o] d]. discriminate.
  - intros H. injection H as _ <- <-. split; [reflexivity|].
    exists c0, it. unfold resident. rewrite G, LK. rewrite (sc_now _ _ SC) in *. auto.
Qed.

(** the remaining time reported by GetWithTTL *)
Theorem c05_remaining c k sh c' v r :
  op_get c k sh = (c', true, v, r) ->
  exists c0 it, (c0 = c \/ c0 = drain_shard c sh) /\ resident c0 sh k = Some it /\
    (exp it = 0 -> r = -1) /\
    (exp it <> 0 -> r = exp it - now c) /\
    (0 <= exp it -> (r = -1 <-> exp it = 0) /\ (exp it <> 0 -> 0 <= r)) /\
    (forall t n, 0 < t -> n <= now c -> exp it = stamp t n -> 0 <= n -> 0 <= r <= t).
Proof.
  intros H. destruct (op_get_hit_sound _ _ _ _ _ _ H) as (_ & c0 & it & C0 & R & E & _ & Hr).
  exists c0, it. split; [exact C0|]. split; [exact R|]. apply expired_false in E.
  (* saturated: max_int64 - now <= max_int64 - n < t; otherwise the stamp is n + t *)
  assert (ST : forall t n, 0 < t -> 0 <= n -> n <= now c -> 0 < stamp t n /\ stamp t n - now c <= t).
  { intros t n Ht Hn0 Hn.
    destruct (stamp_cases t n) as [[? _]|[_ [(_ & Hsat & ->)|(_ & ->)]]]; unfold max_int64, two63 in *; lia. }
  destruct (Z.eqb_spec (exp it) 0); (split; [lia|split; [lia|split; [lia|]]]);
    intros t0 n0 Ht Hn Hs Hn0; destruct (ST t0 n0 Ht Hn0 Hn); lia.
Qed.

Theorem c05_remaining_decreasing c1 c2 k sh it c1' c2' v1 v2 r1 r2 :
  closed c1 = false -> closed c2 = false ->
  resident c1 sh k = Some it -> resident c2 sh k = Some it -> exp it <> 0 ->
  now c1 < now c2 ->
  op_get c1 k sh = (c1', true, v1, r1) -> op_get c2 k sh = (c2', true, v2, r2) -> r2 < r1.
Proof.
  intros H1 H2 R1 R2 E N G1 G2.
  pose proof (op_get_resident _ _ _ _ _ _ _ _ H1 R1 G1) as P1.
  pose proof (op_get_resident _ _ _ _ _ _ _ _ H2 R2 G2) as P2.
  destruct (expired it (now c1)); [destruct P1; discriminate|].
  destruct (expired it (now c2)); [destruct P2; discriminate|].
  destruct P1 as (_ & _ & ->). destruct P2 as (_ & _ & ->).
  destruct (Z.eqb_spec (exp it) 0); lia.
Qed.

Theorem op_exists_resident c k sh c' b : op_exists c k sh = (c', b) ->
  b = negb (closed c) && match resident c sh k with Some it => negb (expired it (now c)) | None => false end.
Proof.
  unfold resident, op_exists. destruct (closed c); [intros H; injection H as _ <-; reflexivity|].
  destruct (get_shard c sh) as [s|]; [|intros H; injection H as _ <-; reflexivity].
  destruct (lookup s (policy c) k) as [it|]; [|intros H; injection H as _ <-; reflexivity].
  destruct (expired it (now c)).
  - destruct (drop_item (env_of c) s it reasonExpired) as [[s1 o] d]. intros H; injection H as _ <-. reflexivity.
  - intros H; injection H as _ <-. reflexivity.
Qed.

Definition shard_keys (pol nw : Z) (s : shard) : list Z :=
  map key (filter (fun it => memz (tabk s) (key it) && ((exp it =? 0) || (nw <=? exp it))) (shard_items s pol)).

Lemma op_keys_eq c : closed c = false -> op_keys c = flat_map (shard_keys (policy c) (now c)) (shards c).
Proof. intros Hc. unfold op_keys. rewrite Hc. reflexivity. Qed.

Lemma op_keys_closed c : closed c = true -> op_keys c = [].
Proof. intros Hc. unfold op_keys. rewrite Hc. reflexivity. Qed.

Lemma in_shard_keys pol nw s k :
  In k (shard_keys pol nw s) <->
  exists it, In it (shard_items s pol) /\ key it = k /\ In k (tabk s) /\ (exp it = 0 \/ nw <= exp it).
Proof.
  unfold shard_keys. rewrite in_map_iff. split.
  - intros (it & K & H). apply filter_In in H. destruct H as [Hi Hc]. apply andb_true_iff in Hc. destruct Hc as [M E].
    exists it. rewrite K in M. apply memz_In in M. repeat split; auto. lia.
  - intros (it & Hi & K & M & E). exists it. split; [exact K|]. apply filter_In. split; [exact Hi|].
    apply andb_true_iff. split; [rewrite K; apply memz_In; exact M|lia].
Qed.

Theorem op_keys_sound c k :
  In k (op_keys c) ->
  closed c = false /\
  exists s it, In s (shards c) /\ In it (shard_items s (policy c)) /\ key it = k /\ In k (tabk s) /\
               (exp it = 0 \/ now c <= exp it) /\ expired it (now c) = false.
Proof.
  destruct (closed c) eqn:Hc; [rewrite (op_keys_closed _ Hc); intros []|].
  rewrite (op_keys_eq _ Hc), in_flat_map. intros (s & Hs & Hk). split; [reflexivity|].
  apply in_shard_keys in Hk. destruct Hk as (it & Hi & K & M & E).
  exists s, it. repeat split; auto. apply expired_false. lia.
Qed.

Definition ShInv (pol m : Z) (s : shard) : Prop :=
  (is_sieve s pol = false /\ Good pol m s) \/
  (is_sieve s pol = true /\ SP.SInv s /\ SP.Quiet s /\ SP.Ledger s /\ SP.NotifLog m s).

Lemma is_sieve_pol s pol : is_sieve s pol = true -> pol = policySieve.
Proof. unfold is_sieve. intros H. apply andb_true_iff in H. lia. Qed.

(* the policy-independent part of an entry: (key, value, deadline, cost, unpublished) *)
Definition essence := (Z * Z * Z * Z * bool)%type.
Definition lke (pol : Z) (s : shard) (k : Z) : option essence := option_map SP.ess (lookup s pol k).

Lemma lke_some pol s k t : lke pol s k = Some t -> exists it, lookup s pol k = Some it /\ SP.ess it = t.
Proof. unfold lke. destruct (lookup s pol k) as [it|]; [|discriminate]. intros H. injection H as <-. eauto. Qed.

Lemma lke_none pol s k : lke pol s k = None <-> lookup s pol k = None.
Proof. unfold lke. destruct (lookup s pol k); cbn [option_map]; split; intros H; try discriminate; reflexivity. Qed.

Lemma ess_expired it it' nw : SP.ess it = SP.ess it' -> expired it nw = expired it' nw.
Proof. unfold SP.ess, expired. intros H. injection H as _ _ -> _ _. reflexivity. Qed.

Fixpoint efind (E : list essence) (k : Z) : option essence :=
  match E with [] => None | t :: r => if SP.ekey t =? k then Some t else efind r k end.

Lemma efind_map_ess l k : efind (map SP.ess l) k = option_map SP.ess (find_item l k).
Proof.
  induction l as [|x l IH]; cbn [map efind find_item option_map]; [reflexivity|].
  change (SP.ekey (SP.ess x)) with (key x). destruct (key x =? k); [reflexivity|exact IH].
Qed.

Lemma efind_none E k : efind E k = None <-> ~ In k (map SP.ekey E).
Proof.
  induction E as [|x E IH]; cbn [efind map In]; [tauto|].
  destruct (Z.eqb_spec (SP.ekey x) k) as [Ek|Ek]; [split; [discriminate|tauto]|].
  rewrite IH. tauto.
Qed.

Lemma efind_perm E E' k : NoDup (map SP.ekey E) -> Permutation E E' -> efind E k = efind E' k.
Proof.
  intros ND P. induction P as [|x l l' P IH|x y l|l l' l'' P1 IH1 P2 IH2]; cbn [efind map] in *.
  - reflexivity.
  - inversion ND; subst. destruct (SP.ekey x =? k); [reflexivity|apply IH; assumption].
  - (* two neighbours swapped: they cannot both carry the key k *)
    inversion ND as [|? ? N1 _]; subst.
    destruct (Z.eqb_spec (SP.ekey y) k), (Z.eqb_spec (SP.ekey x) k); try reflexivity.
    exfalso. apply N1. left. congruence.
  - rewrite IH1 by exact ND. apply IH2. exact (Permutation_NoDup (Permutation_map SP.ekey P1) ND).
Qed.

Lemma efind_app A B k : efind (A ++ B) k = match efind A k with Some t => Some t | None => efind B k end.
Proof. induction A as [|x A IH]; cbn [app efind]; [reflexivity|]. destruct (SP.ekey x =? k); [reflexivity|exact IH]. Qed.

Lemma efind_split E A B k : NoDup (map SP.ekey E) -> Permutation E (A ++ B) ->
  NoDup (map SP.ekey A) /\ efind B k = if memz (map SP.ekey A) k then None else efind E k.
Proof.
  intros ND P. pose proof (Permutation_NoDup (Permutation_map SP.ekey P) ND) as ND'. rewrite map_app in ND'.
  destruct (proj1 (nodup_app_iff _ _) ND') as (NA & _ & DJ). split; [exact NA|].
  rewrite (efind_perm _ _ k ND P), efind_app. destruct (memz (map SP.ekey A) k) eqn:M.
  - apply efind_none. apply memz_In in M. exact (DJ k M).
  - apply memz_false, efind_none in M. rewrite M. reflexivity.
Qed.

(* entries dropped by one write: (item, reason) *)
Definition dkey (p : item * Z) : Z := key (fst p).
Definition dnotes (m : Z) (dl : list (item * Z)) : list notif :=
  flat_map (fun p => if mask_has m (snd p) then [mk_notif (fst p) (snd p)] else []) dl.
Definition wlog (old : option item) (k v : Z) : list (Z * Z * Z) :=
  match old with Some prev => [(1, k, val prev); (0, k, v)] | None => [(0, k, v)] end.
Definition cap_drops (l : list item) : list (item * Z) := map (fun it => (it, reasonCapacity)) l.

Lemma cap_drops_dent l : map SP.dent (cap_drops l) = map drop_entry l.
Proof. unfold cap_drops. rewrite map_map. reflexivity. Qed.
Lemma cap_drops_keys l : map dkey (cap_drops l) = map key l.
Proof. unfold cap_drops. rewrite map_map. reflexivity. Qed.
Lemma cap_drops_notes m l :
  dnotes m (cap_drops l) = if mask_has m reasonCapacity then map (fun it => mk_notif it reasonCapacity) l else [].
Proof.
  unfold dnotes, cap_drops. induction l as [|x l IH]; cbn [map flat_map fst snd]; [destruct (mask_has m reasonCapacity); reflexivity|].
  rewrite IH. destruct (mask_has m reasonCapacity); reflexivity.
Qed.
Lemma sp_dnots e dl : SP.dnots e dl = dnotes (e_mask e) dl.
Proof. reflexivity. Qed.

Lemma drops_resident G pol lf m s l s' :
  (pol = policyLFU -> lf = true) -> Drops G lf m s l s' -> CInv pol s ->
  (forall it, In it l -> In it (lst s)) /\ NoDup (map key l).
Proof.
  intros Hlf. induction 1 as [s s' F|s it s1 l s' g Hf DR D IH]; intros C.
  - split; [intros it []|constructor].
  - assert (C1 : CInv pol s1) by (eapply CInv_drop; eauto).
    destruct (IH C1) as [A B]. rewrite (dr_lst _ _ _ _ _ _ DR) in A.
    split.
    + intros x [<-|Hx]; [exact (proj1 (find_item_some _ _ _ Hf))|]. eapply In_remove_key. apply A. exact Hx.
    + cbn [map]. constructor; [|exact B]. intros Hin. apply in_map_iff in Hin. destruct Hin as (x & Kx & Hx).
      apply A in Hx. pose proof (find_remove_same (lst s) (key it) (ci_lst_nodup _ _ C)) as FN.
      apply find_item_none in FN. apply FN. rewrite <- Kx at 1. apply in_map. exact Hx.
Qed.

Lemma efind_others k l k' : k' <> k -> efind (map SP.ess (SP.others k l)) k' = efind (map SP.ess l) k'.
Proof.
  intros N. unfold SP.others. induction l as [|x l IH]; cbn [filter map efind]; [reflexivity|].
  destruct (Z.eqb_spec (key x) k) as [Ek|Ek]; cbn [negb map efind]; change (SP.ekey (SP.ess x)) with (key x).
  - destruct (Z.eqb_spec (key x) k'); [congruence|exact IH].
  - destruct (key x =? k'); [reflexivity|exact IH].
Qed.

Lemma efind_ess_as k b l k' : efind (map (SP.ess_as k b) l) k' = option_map (SP.ess_as k b) (find_item l k').
Proof.
  induction l as [|x l IH]; cbn [map efind find_item option_map]; [reflexivity|].
  rewrite SP.ess_as_key. destruct (key x =? k'); [reflexivity|exact IH].
Qed.

(* SieveProofs describes a drop and a write by a permutation of essences; what is found by key afterwards
   follows by efind_split *)
Lemma drop_view l l' it k' : NoDup (map SP.ekey (map SP.ess l)) ->
  Permutation (map SP.ess l) (SP.ess it :: map SP.ess l') ->
  option_map SP.ess (find_item l' k') = if k' =? key it then None else option_map SP.ess (find_item l k').
Proof.
  intros ND P. rewrite <- !efind_map_ess, (proj2 (efind_split _ [SP.ess it] _ k' ND P)).
  cbn [map memz]. change (SP.ekey (SP.ess it)) with (key it). rewrite (Z.eqb_sym k'), orb_false_r. reflexivity.
Qed.

Lemma set_view l l' k v ex c b dl k' :
  NoDup (map SP.ekey ((k, v, ex, c, b) :: map SP.ess (SP.others k l))) ->
  (forall y, In y l' -> unpub y = false) ->
  Permutation ((k, v, ex, c, b) :: map SP.ess (SP.others k l)) (map SP.ess (map fst dl) ++ map (SP.ess_as k b) l') ->
  NoDup (map dkey dl) /\
  option_map SP.ess (find_item l' k') =
  if memz (map dkey dl) k' then None else if k' =? k then Some (k, v, ex, c, false) else option_map SP.ess (find_item l k').
Proof.
  intros ND Q' P. assert (KA : map SP.ekey (map SP.ess (map fst dl)) = map dkey dl) by (rewrite !map_map; reflexivity).
  destruct (efind_split _ _ _ k' ND P) as [NA EP]. rewrite KA in NA, EP. split; [exact NA|].
  rewrite efind_ess_as in EP. destruct (memz (map dkey dl) k').
  - destruct (find_item l' k'); [discriminate|reflexivity].
  - cbn [efind] in EP. change (SP.ekey (k, v, ex, c, b)) with k in EP. rewrite (Z.eqb_sym k k') in EP.
    destruct (Z.eqb_spec k' k) as [EK|NK].
    + (* the written key: found with the flag b in the permutation, published in the shard *)
      subst k'. destruct (find_item l' k) as [y|] eqn:Fy; [|discriminate]. cbn [option_map] in *.
      destruct (find_item_some _ _ _ Fy) as [Hy Ky]. injection EP as EP.
      unfold SP.ess_as in EP. rewrite Ky, Z.eqb_refl in EP. unfold SP.ess. rewrite (Q' y Hy).
      injection EP as E2 E3 E4. congruence.
    + rewrite (efind_others k _ k' NK), efind_map_ess in EP. rewrite <- EP.
      destruct (find_item l' k') as [y|] eqn:Fy; [|reflexivity]. cbn [option_map].
      destruct (find_item_some _ _ _ Fy) as [Hy Ky]. unfold SP.ess_as. destruct (Z.eqb_spec (key y) k); [congruence|reflexivity].
Qed.

Lemma sinv_ess_nodup s : SP.SInv s -> NoDup (map SP.ekey (map SP.ess (SP.items s))).
Proof. intros I. exact (proj1 (proj1 (proj1 (SP.SInv_ess s) I))). Qed.

Definition gtag (x : Z * Z * Z) : Z := fst (fst x).
Definition gkey (x : Z * Z * Z) : Z := snd (fst x).
Definition gval (x : Z * Z * Z) : Z := snd x.

(* the most recent entry about key k, ignoring "replaced" markers (tag 1): (tag, value) *)
Definition about (k : Z) (x : Z * Z * Z) : bool := (gkey x =? k) && negb (gtag x =? 1).
Fixpoint last_ev (g : list (Z * Z * Z)) (k : Z) (acc : option (Z * Z)) : option (Z * Z) :=
  match g with [] => acc | x :: r => last_ev r k (if about k x then Some (gtag x, gval x) else acc) end.
Definition lastev (g : list (Z * Z * Z)) (k : Z) : option (Z * Z) := last_ev g k None.

Lemma last_ev_app g d k acc : last_ev (g ++ d) k acc = last_ev d k (last_ev g k acc).
Proof. revert acc. induction g as [|x g IH]; intros acc; cbn [app last_ev]; [reflexivity|apply IH]. Qed.

Lemma last_ev_silent d k acc : Forall (fun x => about k x = false) d -> last_ev d k acc = acc.
Proof. intros H. revert acc. induction H as [|x d Hx _ IH]; intros acc; cbn [last_ev]; [reflexivity|]. rewrite Hx. apply IH. Qed.

(* a resident entry is the subject of the last event about its key, and that event is its write *)
Definition LastW (pol : Z) (s : shard) : Prop :=
  forall k it, lookup s pol k = Some it -> lastev (glog s) k = Some (0, val it).

Lemma about_dent k dl : ~ In k (map dkey dl) -> Forall (fun x => about k x = false) (map SP.dent dl).
Proof.
  intros N. apply Forall_forall. intros x Hx. apply in_map_iff in Hx. destruct Hx as (p & <- & Hp).
  unfold about, SP.dent, gkey. cbn [fst snd]. destruct (Z.eqb_spec (key (fst p)) k) as [E|E]; [|reflexivity].
  exfalso. apply N. rewrite <- E. apply (in_map dkey). exact Hp.
Qed.

Lemma about_wlog old k v k' : k' <> k -> Forall (fun x => about k' x = false) (wlog old k v).
Proof.
  intros N. assert (E : (k =? k') = false) by lia.
  destruct old; cbn [wlog]; repeat constructor; unfold about, gkey; cbn [fst snd]; rewrite E; reflexivity.
Qed.

Lemma last_ev_wlog old k v acc : last_ev (wlog old k v) k acc = Some (0, v).
Proof. destruct old; cbn [wlog last_ev]; unfold about, gkey, gtag, gval; cbn [fst snd]; rewrite Z.eqb_refl; reflexivity. Qed.

(* from s to s' the ghost log grew by entries of class Q, the notification log and the staging buffer by
   exactly the notifications of those entries that the mask m lets through; capacities unchanged *)
Definition SRel (m : Z) (Q : Z * Z * Z -> Prop) (s s' : shard) : Prop :=
  exists delta, glog s' = glog s ++ delta /\ Forall Q delta /\
                staged s' = staged s ++ notifs_of m delta /\ nlog s' = nlog s ++ notifs_of m delta /\
                cap s' = cap s /\ costcap s' = costcap s.

Lemma SRel_refl m Q s : SRel m Q s s.
Proof. exists []. cbn. rewrite !app_nil_r. repeat split; constructor. Qed.

Lemma SRel_eq m Q s s' : glog s' = glog s -> staged s' = staged s -> nlog s' = nlog s ->
  cap s' = cap s /\ costcap s' = costcap s -> SRel m Q s s'.
Proof. intros A B C [D E]. exists []. cbn. rewrite !app_nil_r. repeat split; auto. Qed.

Lemma SRel_trans m Q a b c : SRel m Q a b -> SRel m Q b c -> SRel m Q a c.
Proof.
  intros (d1 & A1 & A2 & A3 & A4 & A5 & A6) (d2 & B1 & B2 & B3 & B4 & B5 & B6). exists (d1 ++ d2).
  rewrite B1, B3, B4, A1, A3, A4, notifs_of_app, <- !app_assoc. repeat split; auto; try congruence. apply Forall_app; auto.
Qed.

Lemma SRel_weaken m (Q Q' : Z * Z * Z -> Prop) s s' : (forall x, Q x -> Q' x) -> SRel m Q s s' -> SRel m Q' s s'.
Proof. intros H (d & A & B & C & D & E). exists d. repeat split; auto; try apply E. eapply Forall_impl; eauto. Qed.

Lemma notifs_of_dent m dl : Forall (fun p => 0 <= snd p) dl -> notifs_of m (map SP.dent dl) = dnotes m dl.
Proof.
  unfold notifs_of, dnotes. induction 1 as [|p dl Hp _ IH]; cbn [map flat_map]; [reflexivity|]. rewrite IH. f_equal.
  unfold SP.dent, notif_of, mk_notif. replace (10 + snd p - 10) with (snd p) by lia.
  replace (10 <=? 10 + snd p) with true by lia. reflexivity.
Qed.

Lemma notifs_of_wlog m old k v : notifs_of m (wlog old k v) = [].
Proof. destruct old; reflexivity. Qed.

Lemma notifs_of_cleared_tags m g : Forall (fun x => gtag x = 2) g -> notifs_of m g = [].
Proof.
  unfold notifs_of. induction 1 as [|[[t k] v] g Hx _ IH]; cbn [flat_map]; [reflexivity|]. rewrite IH.
  unfold gtag in Hx. cbn [fst] in Hx. subst t. reflexivity.
Qed.

Definition write_entry (pol : Z) (x : Z * Z * Z) : Prop :=
  gtag x = 0 \/ gtag x = 1 \/ gtag x = 10 + reasonCapacity \/ (gtag x = 10 + reasonRejected /\ pol = policySieve).
Definition drop_entry_of (r k : Z) (x : Z * Z * Z) : Prop := gtag x = 10 + r /\ gkey x = k.
Definition expired_entry (nw : Z) (x : Z * Z * Z) : Prop :=
  gtag x = 10 + reasonExpired /\ exists it, key it = gkey x /\ val it = gval x /\ 0 < exp it < nw.
Definition cleared_entry (x : Z * Z * Z) : Prop := gtag x = 2.

Definition cmd_ok (cmd : list Z) : Prop := match cmd with [k; v; ttl; cst] => 0 <= cst | _ => True end.

(* what TInv asks of one shard: the invariant of its policy family, queued SetAsync commands with
   non-negative cost (so that applying them later meets sh_apply_set's hypothesis), and LastW *)
Record TShard (pol m : Z) (s : shard) : Prop := {
  tsh_inv : ShInv pol m s;
  tsh_pend : Forall cmd_ok (pend s);
  tsh_last : LastW pol s
}.

Definition exp_drop (nw k : Z) (x : Z * Z * Z) : Prop := gkey x = k /\ expired_entry nw x.

Lemma exp_drop_intro nw k it : key it = k -> expired it nw = true -> exp_drop nw k (10 + reasonExpired, k, val it).
Proof.
  intros Hk E. split; [reflexivity|]. split; [reflexivity|]. exists it. apply expired_spec in E. auto.
Qed.

Lemma Stat_pend s s' : CA.Stat s s' -> pend s' = pend s.
Proof. intros (_ & _ & P & _). exact P. Qed.

Lemma pend_adapts s : pend (adapts s) = pend s.
Proof. apply CA.Stat_adapts. Qed.

Section Shard.
Variables (pol m : Z) (e : env).
Hypothesis Hpol : e_pol e = pol.
Hypothesis Hmask : e_mask e = m.

Lemma sieve_env s : is_sieve s pol = true -> e_pol e = policySieve.
Proof. intros H. rewrite Hpol. exact (is_sieve_pol _ _ H). Qed.

Lemma ShInv_classic s s' : is_sieve s pol = false -> cap s' = cap s -> Good pol m s' -> ShInv pol m s'.
Proof. intros HS C G. left. rewrite (is_sieve_cap s s' pol C). exact (conj HS G). Qed.

Lemma ShInv_sieve s s' : is_sieve s pol = true -> cap s' = cap s ->
  SP.SInv s' -> SP.Quiet s' -> SP.Ledger s' -> SP.NotifLog m s' -> ShInv pol m s'.
Proof. intros HS C I Q L N. right. rewrite (is_sieve_cap s s' pol C). exact (conj HS (conj I (conj Q (conj L N)))). Qed.

Lemma sieve_lke s k : is_sieve s pol = true -> SP.SInv s -> SP.Quiet s ->
  lke pol s k = option_map SP.ess (find_item (SP.items s) k).
Proof.
  intros HS I Q. unfold lke. rewrite <- Hpol, (proj1 (SP.lookup_spec e (sieve_env s HS) s k I Q)). reflexivity.
Qed.

Lemma classic_lke s k : CInv pol s -> lke pol s k = option_map SP.ess (find_item (lst s) k).
Proof. intros C. unfold lke. rewrite (lookup_find _ _ _ C). reflexivity. Qed.

Lemma sh_lookup_some s k it : ShInv pol m s -> lookup s pol k = Some it ->
  key it = k /\ unpub it = false /\ In k (tabk s) /\ 0 <= cost it.
Proof.
  intros [[HS (C & _)]|(HS & I & Q & _)] LK.
  - destruct (lookup_resident _ _ _ _ C LK) as (_ & A & B & _ & D1 & D2). auto.
  - rewrite <- Hpol in LK. destruct (SP.lookup_some e (sieve_env s HS) s k it I LK) as (A & B & C & D & _).
    repeat split; auto. exact (SP.iv_costnn _ _ _ _ _ _ _ _ _ _ _ _ _ I it A).
Qed.

Lemma sh_tabk_resident s k : ShInv pol m s -> In k (tabk s) -> exists it, lookup s pol k = Some it.
Proof.
  intros [[HS (C & _)]|(HS & I & Q & _)] Hk.
  - apply (ClassicProofs.lookup_spec pol s k C). exact Hk.
  - rewrite <- Hpol. destruct (SP.lookup_spec e (sieve_env s HS) s k I Q) as [_ B].
    apply B in Hk. destruct (lookup s (e_pol e) k) as [it|]; [eauto|congruence].
Qed.

(** dropping a looked-up entry (Delete, expiry through Get / Exists / Cleanup) *)
Record DropSpec (s : shard) (k : Z) (it : item) (r : Z) (s' : shard) : Prop := {
  ds_inv : ShInv pol m s';
  ds_glog : glog s' = glog s ++ [(10 + r, k, val it)];
  ds_nlog : nlog s' = nlog s ++ (if mask_has m r then [mk_notif it r] else []);
  ds_staged : staged s' = staged s ++ (if mask_has m r then [mk_notif it r] else []);
  ds_view : forall k', lke pol s' k' = if k' =? k then None else lke pol s k';
  ds_stat : CA.Stat s s'
}.

Lemma sh_drop s k it r s' ok d : ShInv pol m s -> lookup s pol k = Some it -> 0 <= r ->
  drop_item e s it r = (s', ok, d) ->
  DropSpec s k it r s' /\ ok = true /\ d = (if e_stats e && (r =? reasonCapacity) then 1 else 0).
Proof.
  intros [[HS G]|(HS & I & Q & Lg & Nl)] LK Hr D; pose proof (CA.Stat_drop_item _ _ _ _ _ _ _ D) as ST.
  - pose proof G as (C & _).
    destruct (lookup_resident _ _ _ _ C LK) as (Hf & Hk & Hkt & Hin & Hok & Hu).
    rewrite <- Hpol, <- Hmask in G. rewrite <- Hpol in LK.
    destruct (lookup_drop_good e s k it r s' ok d Hr G LK D) as (G' & Ok & Dd).
    rewrite Hpol, Hmask in G'.
    pose proof D as D2. apply drop_item_rel in D2; [|rewrite Hpol; exact HS|exact Hu|rewrite Hk; exact Hkt].
    destruct D2 as (DR & _). rewrite Hmask in DR.
    (* the log fields of DropSpec are DropRel's, with key it = k *)
    destruct DR as [Dcap _ _ Dlst _ _ _ _ _ _ Dstaged Dglog Dnlog]. rewrite Hk in *.
    split; [|split; assumption].
    constructor; auto.
    + exact (ShInv_classic s s' HS Dcap G').
    + intros k'. rewrite (classic_lke s' k' (proj1 G')), (classic_lke s k' C), Dlst.
      destruct (Z.eqb_spec k' k) as [->|N].
      * rewrite find_remove_same by apply (ci_lst_nodup _ _ C). reflexivity.
      * rewrite find_remove_other by exact N. reflexivity.
  - pose proof (sieve_env s HS) as HP. rewrite <- Hpol in LK.
    destruct (SP.lookup_some e HP s k it I LK) as (Hin & Hk & Hu & Hkt & Hf).
    destruct (SP.drop_item_spec e HP s it r I Hin) as [s2 (D' & F & P & T & Z1 & C1 & HO & Gl & Nl' & St & _)].
    assert (FR : SP.final_reason it r = r) by (unfold SP.final_reason; rewrite Hu; reflexivity).
    rewrite FR in *. rewrite D in D'. injection D' as <- -> ->.
    destruct (SP.drop_item_preserves e HP s it r s' true _ I Hin Hr D) as (_ & I' & Q' & _ & Lg' & Nl2).
    destruct F as (F1 & F2 & _).
    rewrite Hu in T. rewrite Hk in *. rewrite Hmask in *.
    split; [|split; reflexivity].
    constructor; auto.
    + exact (ShInv_sieve s s' HS F1 I' (Q' Q) (Lg' Lg) (Nl2 Nl)).
    + rewrite Nl'. unfold SP.notif_of, mk_notif. rewrite Hmask, Hk. reflexivity.
    + rewrite St. unfold SP.notif_of, mk_notif. rewrite Hmask, Hk. reflexivity.
    + intros k'. rewrite (sieve_lke s' k') by (rewrite ?(is_sieve_cap s s' pol F1); auto).
      rewrite (sieve_lke s k' HS I Q), (drop_view _ _ it k' (sinv_ess_nodup s I) P), Hk. reflexivity.
Qed.

(** steps that leave the logs and the view alone: adapts, the read-hit update of Get (recency / frequency / visited bit) *)
Record TouchSpec (s s' : shard) : Prop := {
  ts_inv : ShInv pol m s';
  ts_view : forall k', lke pol s' k' = lke pol s k';
  ts_glog : glog s' = glog s; ts_nlog : nlog s' = nlog s; ts_staged : staged s' = staged s;
  ts_tabk : tabk s' = tabk s;
  ts_caps : cap s' = cap s /\ costcap s' = costcap s;
  ts_sieve : is_sieve s' pol = is_sieve s pol
}.

Lemma TouchSpec_refl s : ShInv pol m s -> TouchSpec s s.
Proof. intros H. constructor; auto. Qed.

Lemma TouchSpec_trans a b c : TouchSpec a b -> TouchSpec b c -> TouchSpec a c.
Proof.
  intros [A1 A2 A3 A4 A5 A6 [A7 A8] A9] [B1 B2 B3 B4 B5 B6 [B7 B8] B9].
  constructor; try congruence; try exact B1; try (split; congruence).
Qed.

Lemma sh_adapts s : ShInv pol m s -> TouchSpec s (adapts s).
Proof.
  intros HI. pose proof (apply_adapts_frame (length (evs s)) s) as F. fold (adapts s) in F.
  constructor; try apply F.
  - destruct HI as [[HS G]|(HS & I & Q & Lg & Nl)].
    + exact (ShInv_classic s _ HS (fr_cap _ _ F) (adapts_good pol m s G)).
    + destruct (SP.adapts_spec s I) as (I' & _). destruct (SP.adapts_preserves e s I) as (_ & QQ & _ & LL & NN).
      rewrite Hmask in NN. apply (ShInv_sieve s); auto. apply F.
  - intros k'. unfold lke. rewrite CA.lookup_adapts. reflexivity.
  - split; apply F.
  - apply is_sieve_cap, F.
Qed.

(** one write applied to its shard (apply_set), any policy *)
Record SetSpec (s : shard) (k v ex c : Z) (s' : shard) (d : Z) (dl : list (item * Z)) : Prop := {
  ss_inv : ShInv pol m s';
  ss_glog : glog s' = glog s ++ wlog (lookup s pol k) k v ++ map SP.dent dl \/
            (glog s' = glog s ++ map SP.dent dl ++ wlog (lookup s pol k) k v /\ ~ In k (map dkey dl));
  ss_nlog : nlog s' = nlog s ++ dnotes m dl;
  ss_staged : staged s' = staged s ++ dnotes m dl;
  ss_nodup : NoDup (map dkey dl);
  ss_view : forall k', lke pol s' k' = if memz (map dkey dl) k' then None
                                        else if k' =? k then Some (k, v, ex, c, false) else lke pol s k';
  ss_dropped : Forall (fun p => (dkey p = k /\ val (fst p) = v) \/
                               (dkey p <> k /\ lke pol s (dkey p) = Some (SP.ess (fst p)))) dl;
  ss_reasons : Forall (fun p => (snd p = reasonCapacity /\ unpub (fst p) = false) \/
                               (snd p = reasonRejected /\ is_sieve s pol = true)) dl;
  ss_evict : d = if e_stats e then Z.of_nat (length (filter (fun p => snd p =? reasonCapacity) dl)) else 0;
  ss_stat : CA.Stat s s';
  ss_update : forall old, lookup s pol k = Some old -> over_capacity s = false ->
              (costcap s <= 0 \/ c <= cost old) -> dl = []
}.

(* a classic drop sequence l from s0 to s1 (every drop for capacity), in the vocabulary of SetSpec *)
Lemma drops_set G s0 l s1 : Drops G (pol =? policyLFU) m s0 l s1 -> CInv pol s0 ->
  glog s1 = glog s0 ++ map SP.dent (cap_drops l) /\
  nlog s1 = nlog s0 ++ dnotes m (cap_drops l) /\ staged s1 = staged s0 ++ dnotes m (cap_drops l) /\
  NoDup (map dkey (cap_drops l)) /\
  (forall k', find_item (lst s1) k' = if memz (map dkey (cap_drops l)) k' then None else find_item (lst s0) k') /\
  Forall (fun p => find_item (lst s0) (dkey p) = Some (fst p) /\ snd p = reasonCapacity /\ unpub (fst p) = false) (cap_drops l) /\
  zlen l = Z.of_nat (length (filter (fun p => snd p =? reasonCapacity) (cap_drops l))).
Proof.
  intros D C. pose proof (Drops_eff _ pol _ _ _ _ _ (drops_lf pol) D C) as EF.
  destruct (drops_resident _ pol _ _ _ _ _ (drops_lf pol) D C) as [RS ND].
  rewrite cap_drops_dent, cap_drops_notes, cap_drops_keys.
  split; [exact (de_glog _ _ _ _ _ EF)|]. split; [exact (de_nlog _ _ _ _ _ EF)|]. split; [exact (de_staged _ _ _ _ _ EF)|].
  split; [exact ND|]. split; [exact (de_find _ _ _ _ _ EF)|]. unfold cap_drops. split.
  - rewrite Forall_map. apply Forall_forall. intros x Hx. unfold dkey. cbn [fst snd].
    split; [exact (find_item_unique (ci_lst_nodup _ _ C) (RS x Hx) eq_refl)|]. split; [reflexivity|].
    pose proof (ci_items _ _ C) as IT. rewrite Forall_forall in IT. exact (proj2 (IT x (RS x Hx))).
  - unfold zlen. f_equal. rewrite filter_all, map_length; [reflexivity|].
    intros p Hp. apply in_map_iff in Hp. destruct Hp as (x & <- & _). reflexivity.
Qed.

(* an update drops from the updated state; an insert drops first and then adds the new entry *)
Lemma sh_apply_set_classic s k v ex c s' cm d :
  is_sieve s pol = false -> Good pol m s -> 0 <= c -> apply_classic e s k v ex c = (s', cm, d) ->
  exists dl, SetSpec s k v ex c s' d dl.
Proof.
  intros HS G Hc H. pose proof G as (C & _).
  pose proof (apply_classic_good pol m e s k v ex c s' cm d Hpol Hmask Hc G H) as G'.
  pose proof (CA.Stat_apply_classic _ _ _ _ _ _ _ _ _ H) as ST.
  pose proof (ShInv_classic s s' HS (proj1 ST) G') as HI'.
  destruct (apply_classic_spec pol e s k v ex c s' cm d Hpol C Hc H) as (_ & S). rewrite Hmask in S.
  destruct (find_item (lst s) k) as [old|] eqn:Hf.
  - destruct S as (l & D & Hd & _). pose proof (CInv_upd pol s old k v ex c C Hf Hc) as C1.
    destruct (drops_set _ _ _ _ D C1) as (D1 & D2 & D3 & D4 & D5 & D6 & D7).
    exists (cap_drops l). constructor; [exact HI'| | | |exact D4| | | | |exact ST|].
    + left. rewrite (lookup_find pol s k C), Hf, D1. unfold ClassicProofs.upd_state, wlog. sfld.
      rewrite <- app_assoc. reflexivity.
    + rewrite D2. unfold ClassicProofs.upd_state. sfld. rewrite app_nil_r. reflexivity.
    + exact D3.
    + intros k'. rewrite (classic_lke s' k' (proj1 G')), (classic_lke s k' C), D5, (find_upd_state _ _ _ _ _ _ _ _ Hf).
      destruct (memz (map dkey (cap_drops l)) k'); [reflexivity|]. destruct (k' =? k); reflexivity.
    + eapply Forall_impl; [|exact D6]. intros p (F & _). rewrite (find_upd_state _ _ _ _ _ _ _ _ Hf) in F.
      destruct (Z.eqb_spec (dkey p) k) as [Ek|Ek].
      * left. injection F as <-. split; [exact Ek|reflexivity].
      * right. split; [exact Ek|]. rewrite (classic_lke s _ C), F. reflexivity.
    + eapply Forall_impl; [|exact D6]. intros p (_ & R). left. exact R.
    + rewrite Hd, D7. reflexivity.
    + intros old' LKo O HC. rewrite (lookup_find pol s k C), Hf in LKo. injection LKo as <-.
      assert (Hg : ew_cond false 0 (ClassicProofs.upd_state pol s old k v ex c) = false).
      { unfold ew_cond, over_capacity, ClassicProofs.upd_state. sfld. unfold over_capacity in O.
        destruct (0 <? zlen (tabk s)); lia. }
      apply Drops_nil_inv in D; [|exact Hg]. destruct D as [-> _]. reflexivity.
  - destruct S as (l & s1 & D & -> & Hd & _).
    destruct (drops_set _ _ _ _ D C) as (D1 & D2 & D3 & D4 & D5 & D6 & D7).
    assert (NK : memz (map dkey (cap_drops l)) k = false).
    { apply memz_false. intros Hin. apply in_map_iff in Hin. destruct Hin as (p & Kp & Hp). rewrite Forall_forall in D6.
      destruct (D6 p Hp) as (F & _). rewrite Kp in F. congruence. }
    exists (cap_drops l). constructor; [exact HI'| | | |exact D4| | | | |exact ST|].
    + right. rewrite (lookup_find pol s k C), Hf. split; [|apply memz_false, NK].
      unfold ClassicProofs.ins_state, wlog. sfld. rewrite D1, <- app_assoc. reflexivity.
    + unfold ClassicProofs.ins_state. sfld. rewrite D2, app_nil_r. reflexivity.
    + exact D3.
    + intros k'. rewrite (classic_lke _ k' (proj1 G')), (classic_lke s k' C), find_ins_state, D5.
      destruct (Z.eqb_spec k' k) as [->|N]; [rewrite NK; reflexivity|]. destruct (memz (map dkey (cap_drops l)) k'); reflexivity.
    + eapply Forall_impl; [|exact D6]. intros p (F & _). right. split; [intros Ek; rewrite Ek in F; congruence|].
      rewrite (classic_lke s _ C), F. reflexivity.
    + eapply Forall_impl; [|exact D6]. intros p (_ & R). left. exact R.
    + rewrite Hd, D7. reflexivity.
    + intros old LKo _ _. rewrite (lookup_find pol s k C), Hf in LKo. discriminate.
Qed.

Lemma sh_apply_set_sieve s k v ex c s' cm d :
  is_sieve s pol = true -> ShInv pol m s -> 0 <= c -> apply_sieve e (adapts s) k v ex c = (s', cm, d) ->
  exists dl, SetSpec s k v ex c s' d dl.
Proof.
  intros HS HI Hc H. pose proof (sieve_env s HS) as HP.
  pose proof (apply_adapts_frame (length (evs s)) s) as F. fold (adapts s) in F.
  pose proof (CA.Stat_trans _ _ _ (CA.Stat_adapts s) (CA.Stat_apply_sieve _ _ _ _ _ _ _ _ _ H)) as ST.
  assert (HSa : is_sieve (adapts s) pol = true) by (rewrite (is_sieve_cap s _ pol (fr_cap _ _ F)); exact HS).
  (* the Sieve invariants of s, and of adapts s, on which apply_sieve runs *)
  pose proof (ts_inv _ _ (sh_adapts s HI)) as HIa.
  destruct HI as [[X _]|(_ & I0 & _)]; [congruence|]. destruct HIa as [[X _]|(_ & I & Q & Lg & Nl)]; [congruence|].
  set (sa := adapts s) in *.
  assert (LKa : forall k', lookup sa pol k' = lookup s pol k') by (intros k'; apply CA.lookup_adapts).
  assert (LEa : forall k', lke pol sa k' = lke pol s k') by (intros k'; unfold lke; rewrite LKa; reflexivity).
  pose proof (SP.apply_sieve_ledger e HP sa k v ex c s' cm d I Q Hc Lg H) as Lg'.
  assert (Nl' : SP.NotifLog m s').
  { rewrite <- Hmask. apply (SP.apply_sieve_notiflog e HP sa k v ex c s' cm d I Q Hc); [rewrite Hmask; exact Nl|exact H]. }
  (* of SieveProofs' summary ASum: the invariants after, the drop list dl with its three log equations (G N St),
     the reasons R, the eviction count D, the clause FIT (a fitting write drops nothing), the permutation P *)
  destruct (SP.apply_sieve_sum e HP true sa k v ex c s' cm d I Q Hc (SP.FuelHyp_true _ _) H)
    as (I' & Q' & _ & dl & G & N & St & R & D & _ & _ & _ & _ & FIT & P & _ & _).
  rewrite Hpol in G, P, FIT. rewrite LKa in G, P, FIT.
  assert (HS' : is_sieve s' pol = true) by (rewrite (is_sieve_cap s s' pol (proj1 ST)); exact HS).
  set (ins := SP.is_none (lookup s pol k)) in *.
  set (L := (k, v, ex, c, ins) :: map SP.ess (SP.others k (SP.items sa))) in *.
  assert (NDL : NoDup (map SP.ekey L)) by (apply SP.lhs_nodup; [exact I|reflexivity]).
  pose proof (fun k' => set_view (SP.items sa) (SP.items s') k v ex c ins dl k' NDL Q' P) as SV.
  exists dl. constructor.
  - exact (ShInv_sieve s s' HS (proj1 ST) I' Q' Lg' Nl').
  - left. rewrite G, (fr_glog _ _ F). reflexivity.
  - rewrite N, (fr_nlog _ _ F), sp_dnots, Hmask. reflexivity.
  - rewrite St, (fr_staged _ _ F), sp_dnots, Hmask. reflexivity.
  - exact (proj1 (SV k)).
  - intros k'. rewrite (sieve_lke s' k' HS' I' Q'), <- LEa, (sieve_lke sa k' HSa I Q). exact (proj2 (SV k')).
  - apply Forall_forall. intros p Hp.
    assert (HL : In (SP.ess (fst p)) L).
    { apply (Permutation_in _ (Permutation_sym P)). apply in_or_app. left. apply in_map. apply in_map. exact Hp. }
    destruct HL as [HL|HL].
    + left. unfold SP.ess in HL. injection HL as E1 E2 _ _ _. unfold dkey. auto.
    + right. apply in_map_iff in HL. destruct HL as (it0 & E0 & H0). unfold SP.others in H0. apply filter_In in H0.
      destruct H0 as [H0 N0].
      assert (K0 : key it0 = dkey p) by (unfold dkey, SP.ess in *; congruence).
      split; [lia|]. rewrite <- LEa, <- K0. unfold lke. rewrite <- Hpol at 1.
      rewrite (SP.lookup_of_in e HP sa it0 I H0 (Q it0 H0)). cbn [option_map]. rewrite E0. reflexivity.
  - eapply Forall_impl; [|exact R]. intros p (R1 & R2 & R3).
    destruct R1 as [R1|R1]; [left; split; [exact R1|exact (R3 R1)]|right; split; [exact R1|exact HS]].
  - rewrite D. reflexivity.
  - exact ST.
  - intros old LKo O HC. unfold ins in FIT. rewrite LKo in FIT. cbn [SP.is_none] in FIT.
    pose proof (SP.SInv_cap s I0) as C1. apply (SP.not_over_fits _ C1) in O. destruct O as [O1 O2].
    destruct F as [F1 F2 _ _ _ _ _ _ F9 F10 _ _ _]. fold sa in F1, F2, F9, F10.
    apply FIT; [lia|]. intros Hcc. rewrite F2 in Hcc. specialize (O2 Hcc). lia.
Qed.

Theorem sh_apply_set s k v ex c s' cm d :
  ShInv pol m s -> 0 <= c -> apply_set e s k v ex c = (s', cm, d) -> exists dl, SetSpec s k v ex c s' d dl.
Proof.
  intros HI Hc H. unfold apply_set in H. rewrite Hpol in H. destruct (is_sieve s pol) eqn:HS.
  - exact (sh_apply_set_sieve s k v ex c s' cm d HS HI Hc H).
  - destruct HI as [[_ G]|(X & _)]; [|congruence]. exact (sh_apply_set_classic s k v ex c s' cm d HS G Hc H).
Qed.

Lemma sh_hit_upd s k it : ShInv pol m s -> lookup s pol k = Some it -> TouchSpec s (CA.touch pol s k it).
Proof.
  intros HI LK. destruct (CA.touch_fields pol s k it) as (F & ST & _). pose proof (proj1 ST) as CE.
  assert (IV : ShInv pol m (CA.touch pol s k it) /\ forall k', lke pol (CA.touch pol s k it) k' = lke pol s k').
  { unfold CA.touch in *. destruct HI as [[HS G]|(HS & I & Q & Lg & Nl)]; rewrite HS in *.
    - pose proof (get_hit_good pol m s k it G LK) as G'. pose proof G as (C & _).
      destruct (lookup_resident _ _ _ _ C LK) as (Hf & Hk & _). rewrite Hk in Hf.
      split; [exact (ShInv_classic s _ HS CE G')|].
      intros k'. rewrite (classic_lke _ k' (proj1 G')), (classic_lke s k' C). f_equal.
      unfold get_hit_upd. destruct (pol =? policyLRU); [|destruct (pol =? policyLFU); reflexivity].
      sfld. cbn [find_item]. rewrite Hk. destruct (Z.eqb_spec k k') as [<-|N]; [symmetry; exact Hf|].
      apply find_remove_other. congruence.
    - pose proof (sieve_env s HS) as HP. rewrite <- Hpol in LK.
      destruct (SP.get_touch_preserves e HP s k it I LK) as (I' & QQ & _ & LL & NN). rewrite Hmask in NN.
      destruct (SP.lookup_some e HP s k it I LK) as (Hin & Hk & Hu & Hkt & FI).
      pose proof (SP.SInv_items_nodup s I) as ND. unfold SP.items in ND, FI.
      split; [exact (ShInv_sieve s _ HS CE I' (QQ Q) (LL Lg) (NN Nl))|].
      intros k'. rewrite (sieve_lke _ k') by (rewrite ?(is_sieve_cap _ _ _ CE); auto).
      rewrite (sieve_lke s k' HS I Q), <- !efind_map_ess. f_equal.
      (* the touched entry only changes its visited bit, which is not part of the essence *)
      unfold SP.get_touch. destruct (warmup s); [reflexivity|]. cbv zeta.
      destruct (has_key (prob s) k) eqn:HK; unfold SP.items; sfld; rewrite !map_app.
      + apply SP.has_key_true in HK. destruct (find_item_In_key _ _ HK) as [x Fx].
        rewrite (SP.find_item_app_l _ (main s) _ _ Fx) in FI. injection FI as ->.
        rewrite (SP.replace_flags_ess (prob s) it (reuse it) true (proj1 (find_item_some _ _ _ Fx)) (SP.nodup_keys_app_l _ _ ND)).
        reflexivity.
      + apply SP.has_key_false in HK. apply find_item_none in HK. rewrite (SP.find_item_app_r _ _ _ HK) in FI.
        rewrite (SP.replace_flags_ess (main s) it (reuse it) true (proj1 (find_item_some _ _ _ FI)) (SP.nodup_keys_app_r _ _ ND)).
        reflexivity. }
  constructor; try apply IV; [exact (fr_glog _ _ F)|exact (fr_nlog _ _ F)|exact (fr_staged _ _ F)|exact (fr_tabk _ _ F)| |].
  - split; apply ST.
  - apply is_sieve_cap, CE.
Qed.

Theorem sh_get_touch s k it : ShInv pol m s -> lookup s pol k = Some it -> TouchSpec s (adapts (CA.touch pol s k it)).
Proof.
  intros H LK. pose proof (sh_hit_upd s k it H LK) as T1.
  exact (TouchSpec_trans _ _ _ T1 (sh_adapts _ (ts_inv _ _ T1))).
Qed.

(* exp_entry builds the ghost-log entry of an expired item and exp_notes the notifications of a list of them;
   expired_entry and exp_drop above are predicates on entries *)
Definition exp_entry (it : item) : Z * Z * Z := (10 + reasonExpired, key it, val it).
Definition exp_notes (rl : list item) : list notif :=
  if mask_has m reasonExpired then map (fun it => mk_notif it reasonExpired) rl else [].

Record CleanSpec (nw : Z) (ks : list Z) (s s' : shard) (rl : list item) : Prop := {
  cs_inv : ShInv pol m s';
  cs_glog : glog s' = glog s ++ map exp_entry rl;
  cs_nlog : nlog s' = nlog s ++ exp_notes rl;
  cs_staged : staged s' = staged s ++ exp_notes rl;
  cs_removed : Forall (fun it => lke pol s (key it) = Some (SP.ess it) /\ expired it nw = true) rl;
  cs_nodup : NoDup (map key rl);
  cs_view : forall k, lke pol s' k = if memz (map key rl) k then None else lke pol s k;
  cs_swept : forall k, In k ks -> forall it, lookup s' pol k = Some it -> expired it nw = false;
  cs_stat : CA.Stat s s'
}.

Lemma exp_notes_cons it rl :
  exp_notes (it :: rl) = (if mask_has m reasonExpired then [mk_notif it reasonExpired] else []) ++ exp_notes rl.
Proof. unfold exp_notes. destruct (mask_has m reasonExpired); reflexivity. Qed.

Lemma clean_nil nw s : ShInv pol m s -> CleanSpec nw [] s s [].
Proof.
  intros HI. assert (N : exp_notes [] = []) by (unfold exp_notes; destruct (mask_has m reasonExpired); reflexivity).
  constructor; rewrite ?N, ?app_nil_r; auto using CA.Stat_refl, Forall_nil; [constructor|intros k []].
Qed.

Lemma clean_keep nw k ks s s' rl : (forall it, lookup s pol k = Some it -> expired it nw = false) ->
  CleanSpec nw ks s s' rl -> CleanSpec nw (k :: ks) s s' rl.
Proof.
  intros NE [Cinv Cglog Cnlog Cstaged Cremoved Cnodup Cview Cswept Cstat]. constructor; auto.
  intros k' [<-|Hk'] it' LK'; [|exact (Cswept k' Hk' it' LK')].
  assert (V : lke pol s' k = Some (SP.ess it')) by (unfold lke; rewrite LK'; reflexivity).
  rewrite Cview in V. destruct (memz (map key rl) k); [discriminate|].
  apply lke_some in V. destruct V as (it0 & L0 & E0). rewrite <- (ess_expired _ _ nw E0). exact (NE it0 L0).
Qed.

Lemma clean_drop nw k ks s it s1 s' rl : lookup s pol k = Some it -> key it = k -> expired it nw = true ->
  DropSpec s k it reasonExpired s1 -> CleanSpec nw ks s1 s' rl -> CleanSpec nw (k :: ks) s s' (it :: rl).
Proof.
  intros LK Hk EX [Dinv Dglog Dnlog Dstaged Dview Dstat] [Cinv Cglog Cnlog Cstaged Cremoved Cnodup Cview Cswept Cstat].
  assert (NKR : ~ In k (map key rl)).
  { intros Hin. apply in_map_iff in Hin. destruct Hin as (x & Kx & Hx). rewrite Forall_forall in Cremoved.
    destruct (Cremoved x Hx) as [V _]. rewrite Dview, Kx, Z.eqb_refl in V. discriminate. }
  constructor; auto.
  - rewrite Cglog, Dglog, <- app_assoc. cbn [map].
    replace (exp_entry it) with (10 + reasonExpired, k, val it) by (unfold exp_entry; rewrite Hk; reflexivity). reflexivity.
  - rewrite Cnlog, Dnlog, <- app_assoc, exp_notes_cons. reflexivity.
  - rewrite Cstaged, Dstaged, <- app_assoc, exp_notes_cons. reflexivity.
  - constructor; [split; [rewrite Hk; unfold lke; rewrite LK; reflexivity|exact EX]|].
    eapply Forall_impl; [|exact Cremoved]. intros x [V X]. split; [|exact X].
    rewrite Dview in V. destruct (key x =? k); [discriminate|exact V].
  - cbn [map]. rewrite Hk. constructor; assumption.
  - intros k'. rewrite Cview, Dview. cbn [map memz]. rewrite Hk, (Z.eqb_sym k k').
    destruct (k' =? k); cbn [orb]; destruct (memz (map key rl) k'); reflexivity.
  - intros k' [<-|Hk'] it' LK'; [|exact (Cswept k' Hk' it' LK')].
    assert (V : lke pol s' k = Some (SP.ess it')) by (unfold lke; rewrite LK'; reflexivity).
    rewrite Cview, Dview, Z.eqb_refl in V. destruct (memz (map key rl) k); discriminate.
  - exact (CA.Stat_trans _ _ _ Dstat Cstat).
Qed.

Theorem sh_cleanup_fold nw ks : forall s ev ex s' ev' ex',
  ShInv pol m s -> fold_left (cleanup_shard e nw) ks (s, ev, ex) = (s', ev', ex') ->
  exists rl, CleanSpec nw ks s s' rl /\ ev' = ev /\ ex' = ex + (if e_stats e then zlen rl else 0).
Proof.
  induction ks as [|k r IH]; intros s ev ex s' ev' ex' HI H; cbn [fold_left] in H.
  - injection H as <- <- <-. exists []. split; [apply clean_nil; exact HI|].
    split; [reflexivity|unfold zlen; cbn; destruct (e_stats e); lia].
  - assert (KEEP : (forall it, lookup s pol k = Some it -> expired it nw = false) ->
                   fold_left (cleanup_shard e nw) r (s, ev, ex) = (s', ev', ex') ->
                   exists rl, CleanSpec nw (k :: r) s s' rl /\ ev' = ev /\ ex' = ex + (if e_stats e then zlen rl else 0)).
    { intros NE H'. destruct (IH _ _ _ _ _ _ HI H') as (rl & CS & Hev). exists rl. split; [exact (clean_keep _ _ _ _ _ _ NE CS)|exact Hev]. }
    unfold cleanup_shard in H at 2. rewrite Hpol in H.
    destruct (lookup s pol k) as [it|] eqn:LK; [|apply KEEP; [intros it0 X; discriminate|exact H]].
    destruct (expired it nw) eqn:EX; [|apply KEEP; [intros it0 X; injection X as <-; exact EX|exact H]].
    destruct (drop_item e s it reasonExpired) as [[s1 ok] d] eqn:DI.
    destruct (sh_drop s k it reasonExpired s1 ok d HI LK ltac:(discriminate) DI) as (DS & -> & ->).
    destruct (sh_lookup_some s k it HI LK) as (Hk & _).
    change (e_stats e && (reasonExpired =? reasonCapacity)) with (e_stats e && false) in H. rewrite andb_false_r in H.
    cbn [andb] in H.
    destruct (IH _ _ _ _ _ _ (ds_inv _ _ _ _ _ DS) H) as (rl & CS & Hev & Hex).
    exists (it :: rl). split; [exact (clean_drop _ _ _ _ _ _ _ _ LK Hk EX DS CS)|]. split; [lia|].
    rewrite Hex. unfold zlen. cbn [length]. destruct (e_stats e); lia.
Qed.

Lemma notifs_of_exp rl : notifs_of m (map exp_entry rl) = exp_notes rl.
Proof.
  unfold notifs_of, exp_notes. induction rl as [|x rl IH]; cbn [map flat_map]; [destruct (mask_has m reasonExpired); reflexivity|].
  rewrite IH. unfold exp_entry, notif_of. change (10 <=? 10 + reasonExpired) with true.
  change (10 + reasonExpired - 10) with reasonExpired. cbn [andb]. destruct (mask_has m reasonExpired); reflexivity.
Qed.

Lemma LastW_lke s : LastW pol s <-> forall k t, lke pol s k = Some t -> lastev (glog s) k = Some (0, SP.evalue t).
Proof.
  split.
  - intros LW k t V. destruct (lke_some _ _ _ _ V) as (it & L & <-). exact (LW k it L).
  - intros H k it L. apply (H k (SP.ess it)). unfold lke. rewrite L. reflexivity.
Qed.

Lemma lastw_step s s' d : glog s' = glog s ++ d -> LastW pol s ->
  (forall k t, lke pol s' k = Some t ->
     (forall acc, last_ev d k acc = Some (0, SP.evalue t)) \/
     (lke pol s k = Some t /\ Forall (fun x => about k x = false) d)) ->
  LastW pol s'.
Proof.
  intros G LW H. apply LastW_lke. intros k t V. rewrite G. unfold lastev. rewrite last_ev_app.
  destruct (H k t V) as [W|[V0 S]]; [apply W|]. rewrite (last_ev_silent _ _ _ S). exact (proj1 (LastW_lke s) LW k t V0).
Qed.

Definition TStep (Q : Z * Z * Z -> Prop) (s s' : shard) : Prop := TShard pol m s' /\ SRel m Q s s'.

Lemma TStep_refl Q s : TShard pol m s -> TStep Q s s.
Proof. intros T. split; [exact T|apply SRel_refl]. Qed.

Lemma TStep_trans Q a b c : TStep Q a b -> TStep Q b c -> TStep Q a c.
Proof. intros [_ R1] [T2 R2]. split; [exact T2|exact (SRel_trans _ _ _ _ _ R1 R2)]. Qed.

Lemma TStep_weaken (Q Q' : Z * Z * Z -> Prop) s s' : (forall x, Q x -> Q' x) -> TStep Q s s' -> TStep Q' s s'.
Proof. intros H [T R]. split; [exact T|exact (SRel_weaken _ _ _ _ _ H R)]. Qed.

Lemma set_tstep s k v ex c : TShard pol m s -> 0 <= c -> TStep (write_entry pol) s (fst (fst (apply_set e s k v ex c))).
Proof.
  intros [A B C] Hc. destruct (apply_set e s k v ex c) as [[s' cm] d] eqn:E. cbn [fst].
  destruct (sh_apply_set s k v ex c s' cm d A Hc E) as [dl [Sinv Sglog Snlog Sstaged Snodup Sview Sdropped Sreasons Sevict Sstat Supdate]].
  assert (R0 : Forall (fun p => 0 <= snd p) dl).
  { eapply Forall_impl; [|exact Sreasons]. unfold reasonCapacity, reasonRejected. intros p [[R _]|[R _]]; lia. }
  assert (QW : Forall (write_entry pol) (wlog (lookup s pol k) k v)).
  { destruct (lookup s pol k); cbn [wlog]; repeat (apply Forall_cons; [unfold write_entry, gtag; cbn [fst]; auto|]); constructor. }
  assert (QD : Forall (write_entry pol) (map SP.dent dl)).
  { rewrite Forall_map. eapply Forall_impl; [|exact Sreasons]. intros p [[R _]|[R HS]]; unfold write_entry, gtag, SP.dent; cbn [fst].
    - right; right; left. lia.
    - right; right; right. split; [lia|]. apply (is_sieve_pol _ _ HS). }
  (* the appended entries dd are the write markers and the drops, in either order: in both the last event
     about k is its write, and dd is silent about every other key that stays *)
  assert (D : exists dd, glog s' = glog s ++ dd /\ Forall (write_entry pol) dd /\ notifs_of m dd = dnotes m dl /\
                forall k' t, lke pol s' k' = Some t ->
                  (forall acc, last_ev dd k' acc = Some (0, SP.evalue t)) \/
                  (lke pol s k' = Some t /\ Forall (fun x => about k' x = false) dd)).
  { assert (V : forall k' t, lke pol s' k' = Some t ->
                  Forall (fun x => about k' x = false) (map SP.dent dl) /\
                  (k' = k /\ SP.evalue t = v \/ k' <> k /\ lke pol s k' = Some t)).
    { intros k' t V. rewrite Sview in V. destruct (memz (map dkey dl) k') eqn:M; [discriminate|].
      split; [apply about_dent, memz_false, M|]. destruct (Z.eqb_spec k' k); [injection V as <-|]; auto. }
    destruct Sglog as [G|[G _]].
    -
      exists (wlog (lookup s pol k) k v ++ map SP.dent dl). split; [exact G|]. split; [apply Forall_app; auto|].
      split; [rewrite notifs_of_app, notifs_of_wlog, (notifs_of_dent m dl R0); reflexivity|].
      intros k' t Vt. destruct (V k' t Vt) as [SD [[-> <-]|[N V0]]].
      + left. intros acc. rewrite last_ev_app, last_ev_wlog. apply last_ev_silent, SD.
      + right. split; [exact V0|]. apply Forall_app. split; [apply about_wlog, N|exact SD].
    -
      exists (map SP.dent dl ++ wlog (lookup s pol k) k v). split; [exact G|]. split; [apply Forall_app; auto|].
      split; [rewrite notifs_of_app, notifs_of_wlog, (notifs_of_dent m dl R0); apply app_nil_r|].
      intros k' t Vt. destruct (V k' t Vt) as [SD [[-> <-]|[N V0]]].
      + left. intros acc. rewrite last_ev_app. apply last_ev_wlog.
      + right. split; [exact V0|]. apply Forall_app. split; [exact SD|apply about_wlog, N]. }
  destruct D as (dd & G & QQ & NN & LL). split.
  - constructor; [exact Sinv|rewrite (Stat_pend _ _ Sstat); exact B|exact (lastw_step s s' dd G C LL)].
  - exists dd. rewrite NN. repeat split; auto; apply Sstat.
Qed.

Lemma drain_sh_tstep nw cmds : forall s, TShard pol m s -> Forall cmd_ok cmds ->
  TStep (write_entry pol) s (fst (CA.drain_sh e nw s cmds)).
Proof.
  induction cmds as [|cmd r IH]; intros s T F; [apply TStep_refl; exact T|].
  inversion F as [|x l Hx Hr]; subst.
  destruct cmd as [|k [|v [|ttl [|cst [|x y]]]]]; cbn [CA.drain_sh]; try (apply IH; assumption).
  pose proof (set_tstep s k v (stamp ttl nw) cst T Hx) as S1.
  destruct (apply_set e s k v (stamp ttl nw) cst) as [[s1 cm] d]. cbn [fst] in S1.
  pose proof (IH s1 (proj1 S1) Hr) as S2. destruct (CA.drain_sh e nw s1 r) as [s2 d2].
  exact (TStep_trans _ _ _ _ S1 S2).
Qed.

Lemma drop_tstep s k it r s' ok d : TShard pol m s -> lookup s pol k = Some it -> 0 <= r ->
  drop_item e s it r = (s', ok, d) ->
  TStep (fun x => x = (10 + r, k, val it)) s s' /\ lookup s' pol k = None.
Proof.
  intros [A B C] LK Hr D. destruct (sh_drop s k it r s' ok d A LK Hr D) as ([Dinv Dglog Dnlog Dstaged Dview Dstat] & _).
  destruct (sh_lookup_some s k it A LK) as (Hk & _).
  assert (N : notifs_of m [(10 + r, k, val it)] = if mask_has m r then [mk_notif it r] else []).
  { unfold notifs_of. cbn [flat_map notif_of]. rewrite app_nil_r. replace (10 + r - 10) with r by lia.
    replace (10 <=? 10 + r) with true by lia. cbn [andb]. unfold mk_notif. rewrite Hk. reflexivity. }
  split; [split|].
  - constructor; [exact Dinv|rewrite (Stat_pend _ _ Dstat); exact B|].
    apply (lastw_step s s' _ Dglog C). intros k' t V. right. rewrite Dview in V.
    destruct (Z.eqb_spec k' k) as [|NK]; [discriminate|]. split; [exact V|]. repeat constructor.
    unfold about, gkey. cbn [fst snd]. replace (k =? k') with false by lia. reflexivity.
  - exists [(10 + r, k, val it)]. rewrite N. repeat split; auto; apply Dstat.
  - apply lke_none. rewrite Dview, Z.eqb_refl. reflexivity.
Qed.

Lemma touch_tstep Q s s' : TouchSpec s s' -> pend s' = pend s -> TShard pol m s -> TStep Q s s'.
Proof.
  intros [T1 T2 T3 T4 T5 T6 T7 T8] P [A B C]. split; [|apply SRel_eq; assumption].
  constructor; [exact T1|rewrite P; exact B|]. apply (lastw_step s s' []); [rewrite app_nil_r; exact T3|exact C|].
  intros k t V. right. rewrite <- T2. split; [exact V|constructor].
Qed.

Lemma adapts_tstep Q s : TShard pol m s -> TStep Q s (adapts s).
Proof. intros T. exact (touch_tstep Q _ _ (sh_adapts s (tsh_inv _ _ _ T)) (pend_adapts s) T). Qed.

Lemma clean_tstep nw ks s s' rl : CleanSpec nw ks s s' rl -> TShard pol m s -> TStep (expired_entry nw) s s'.
Proof.
  intros [Cinv Cglog Cnlog Cstaged Cremoved Cnodup Cview Cswept Cstat] [A B C]. split.
  - constructor; [exact Cinv|rewrite (Stat_pend _ _ Cstat); exact B|].
    apply (lastw_step s s' _ Cglog C). intros k t V. right. rewrite Cview in V.
    destruct (memz (map key rl) k) eqn:M; [discriminate|]. apply memz_false in M. split; [exact V|].
    apply Forall_forall. intros x Hx. apply in_map_iff in Hx. destruct Hx as (y & <- & Hy).
    unfold about, exp_entry, gkey. cbn [fst snd].
    destruct (Z.eqb_spec (key y) k) as [E|E]; [|reflexivity]. exfalso. apply M. rewrite <- E. apply in_map. exact Hy.
  - exists (map exp_entry rl). rewrite notifs_of_exp. repeat split; auto; try apply Cstat.
    rewrite Forall_map. eapply Forall_impl; [|exact Cremoved]. intros it [_ EX].
    split; [reflexivity|]. exists it. apply expired_spec in EX. auto.
Qed.

Lemma clear_tstep s : TShard pol m s -> TStep cleared_entry s (clear_shard pol s).
Proof.
  intros [A B C]. split.
  - constructor; [|exact B|intros k it LK; discriminate LK].
    destruct A as [[HS G]|(HS & I & Q & Lg & Nl)].
    + exact (ShInv_classic s (clear_shard pol s) HS eq_refl (clear_shard_good pol m s G)).
    + destruct (SP.clear_shard_preserves e (sieve_env s HS) m s I Q) as (I' & Q' & LL & NN & _). rewrite Hpol in *.
      exact (ShInv_sieve s (clear_shard pol s) HS eq_refl I' Q' (LL Lg) (NN Nl)).
  - eexists. split; [reflexivity|].
    assert (G2 : forall l : list item, Forall cleared_entry (map (fun it => (2, key it, val it)) l)).
    { intros l. rewrite Forall_map. apply Forall_forall. reflexivity. }
    rewrite (notifs_of_cleared_tags m _ (G2 _)). unfold clear_shard. sfld. rewrite !app_nil_r. repeat split; auto.
Qed.

Lemma get_sh_tstep nw s k : TShard pol m s -> TStep (exp_drop nw k) s (fst (CA.get_sh e nw s k)).
Proof.
  intros T. unfold CA.get_sh, CA.get_out. rewrite Hpol.
  destruct (lookup s pol k) as [it|] eqn:LK; [|apply TStep_refl; exact T].
  destruct (sh_lookup_some s k it (tsh_inv _ _ _ T) LK) as (Hk & _).
  destruct (expired it nw) eqn:EX.
  - destruct (drop_item e s it reasonExpired) as [[s1 ok] d] eqn:D. cbn [fst].
    destruct (drop_tstep s k it reasonExpired s1 ok d T LK ltac:(discriminate) D) as [S1 _].
    eapply TStep_trans; [eapply TStep_weaken; [|exact S1]|apply adapts_tstep; exact (proj1 S1)].
    intros x ->. apply exp_drop_intro; assumption.
  - cbn [fst]. apply (touch_tstep _ _ _ (sh_get_touch s k it (tsh_inv _ _ _ T) LK)); [|exact T].
    rewrite pend_adapts. apply (CA.touch_fields pol s k it).
Qed.
End Shard.

(* the run invariant of this file; CacheProofs.CacheInv implies all of it but LastW (CacheInv_shards) *)
Definition TInv (c : cache) : Prop := Forall (TShard (policy c) (mask c)) (shards c).

Definition CStep (Q : nat -> Z * Z * Z -> Prop) (c c' : cache) : Prop :=
  policy c' = policy c /\ mask c' = mask c /\ length (shards c') = length (shards c) /\
  forall i s, nth_error (shards c) i = Some s ->
    exists s', nth_error (shards c') i = Some s' /\ TShard (policy c) (mask c) s' /\ SRel (mask c) (Q i) s s'.

Definition at_shard (sh : Z) (Q0 : Z * Z * Z -> Prop) : nat -> Z * Z * Z -> Prop :=
  fun i x => i = Z.to_nat sh /\ Q0 x.

Lemma TInv_nth c i s : TInv c -> nth_error (shards c) i = Some s -> TShard (policy c) (mask c) s.
Proof. intros T H. unfold TInv in T. rewrite Forall_forall in T. apply T. eapply nth_error_In; eauto. Qed.

Lemma TInv_get c sh s : TInv c -> get_shard c sh = Some s -> TShard (policy c) (mask c) s.
Proof. intros T H. eapply TInv_nth; eauto. Qed.

Lemma TInv_pointwise c c' : policy c' = policy c -> mask c' = mask c -> length (shards c') = length (shards c) ->
  (forall i s, nth_error (shards c) i = Some s ->
     exists s', nth_error (shards c') i = Some s' /\ TShard (policy c) (mask c) s') -> TInv c'.
Proof.
  intros A1 A2 A3 A4. unfold TInv. rewrite A1, A2. apply Forall_forall. intros s' Hs'.
  apply In_nth_error in Hs'. destruct Hs' as [i Hi].
  assert (Hlt : (i < length (shards c))%nat) by (rewrite <- A3; apply nth_error_Some; congruence).
  destruct (nth_error (shards c) i) as [s|] eqn:E; [|apply nth_error_None in E; lia].
  destruct (A4 i s E) as (s1 & H1 & T1). congruence.
Qed.

Lemma CStep_same Q c c' : TInv c -> policy c' = policy c -> mask c' = mask c -> shards c' = shards c -> CStep Q c c'.
Proof.
  intros T P M S. unfold CStep. rewrite S. repeat split; auto.
  intros i s H. exists s. split; [exact H|]. split; [eapply TInv_nth; eauto|apply SRel_refl].
Qed.

Lemma CStep_refl Q c : TInv c -> CStep Q c c.
Proof. intros T. apply CStep_same; auto. Qed.

Lemma CStep_trans Q c c1 c2 : CStep Q c c1 -> CStep Q c1 c2 -> CStep Q c c2.
Proof.
  intros (A1 & A2 & A3 & A4) (B1 & B2 & B3 & B4). repeat split; try congruence.
  intros i s H. destruct (A4 i s H) as (s1 & H1 & T1 & R1). destruct (B4 i s1 H1) as (s2 & H2 & T2 & R2).
  rewrite A1, A2 in *. exists s2. split; [exact H2|]. split; [exact T2|]. eapply SRel_trans; eauto.
Qed.

Lemma CStep_weaken (Q Q' : nat -> Z * Z * Z -> Prop) c c' : (forall i x, Q i x -> Q' i x) -> CStep Q c c' -> CStep Q' c c'.
Proof.
  intros HQ (A1 & A2 & A3 & A4). repeat split; auto. intros i s H. destruct (A4 i s H) as (s1 & H1 & T1 & R1).
  exists s1. split; [exact H1|]. split; [exact T1|]. eapply SRel_weaken; [apply HQ|exact R1].
Qed.

Lemma CStep_TInv Q c c' : CStep Q c c' -> TInv c'.
Proof.
  intros (A1 & A2 & A3 & A4). apply (TInv_pointwise c); auto.
  intros i s E. destruct (A4 i s E) as (s1 & H1 & T1 & _). eauto.
Qed.

(* every single-shard operation is one put_shard (CacheProofs, canonical forms): its step is the shard's *)
Lemma CStep_put Q0 c sh s s1 h mi ev ex :
  TInv c -> get_shard c sh = Some s -> TStep (policy c) (mask c) Q0 s s1 ->
  CStep (at_shard sh Q0) c (put_shard c sh s1 h mi ev ex).
Proof.
  intros T G [T1 R1]. split; [reflexivity|]. split; [reflexivity|]. split; [apply CA.length_set_nth|].
  intros i s0 H. destruct (Nat.eq_dec (Z.to_nat sh) i) as [<-|N].
  - unfold get_shard in G. rewrite G in H. injection H as <-. exists s1.
    split; [exact (CA.get_put_eq _ _ _ _ _ _ _ _ G)|]. split; [exact T1|].
    eapply SRel_weaken; [|exact R1]. intros x Hx. split; [reflexivity|exact Hx].
  - exists s0. rewrite (CA.get_put_other _ _ _ _ _ _ _ _ N). split; [exact H|]. split; [eapply TInv_nth; eauto|apply SRel_refl].
Qed.

Lemma TShard_sh_evs pol m s ev pe : TShard pol m s -> Forall cmd_ok pe -> TShard pol m (sh_evs s ev pe).
Proof.
  intros [A B C] H. constructor; [|exact H|exact C]. destruct A as [[HS G]|A]; [left|right; exact A].
  split; [exact HS|]. eapply Good_frame; [apply Frame_sh_evs|exact G].
Qed.

(* what applying writes may append under the policy of c: written / replaced markers and capacity drops, under SieveTinyLFU also rejected drops *)
Definition wentry (c : cache) : Z * Z * Z -> Prop := write_entry (policy c).

Lemma drained_tstep c s : TShard (policy c) (mask c) s ->
  TStep (policy c) (mask c) (wentry c) s (fst (CA.drained c s)).
Proof.
  intros T. pose proof (TShard_sh_evs _ _ s (evs s) [] T (Forall_nil _)) as T1.
  apply (TStep_trans _ _ _ _ (sh_evs s (evs s) [])); [split; [exact T1|apply SRel_eq; auto]|].
  exact (drain_sh_tstep _ _ (env_of c) eq_refl eq_refl (now c) (pend s) _ T1 (tsh_pend _ _ _ T)).
Qed.

Lemma drain_shard_step c sh : TInv c -> CStep (at_shard sh (wentry c)) c (drain_shard c sh).
Proof.
  intros T. destruct (get_shard c sh) as [s|] eqn:G; [|unfold drain_shard; rewrite G; apply CStep_refl; exact T].
  rewrite (CA.drain_shard_eq c sh s G). eapply CStep_put; [exact T|exact G|apply drained_tstep; exact (TInv_get _ _ _ T G)].
Qed.

Lemma drain_all_step c : TInv c -> CStep (fun _ => wentry c) c (drain_all c).
Proof.
  intros T. unfold drain_all. generalize (zseq 0 (length (shards c))). intros l.
  assert (K : forall c0, TInv c0 -> policy c0 = policy c -> CStep (fun _ => wentry c) c0 (fold_left drain_shard l c0)).
  { induction l as [|i l IH]; intros c0 T0 W0; cbn [fold_left]; [apply CStep_refl; exact T0|].
    pose proof (drain_shard_step c0 i T0) as S1.
    eapply CStep_trans.
    - eapply CStep_weaken; [|exact S1]. intros j x [_ Hx]. unfold wentry in *. rewrite <- W0. exact Hx.
    - apply IH; [eapply CStep_TInv; eauto|]. rewrite (proj1 S1). exact W0. }
  apply K; [exact T|reflexivity].
Qed.

Lemma set_check_ok c sh cst : set_check c sh cst = 0 -> 0 <= cst /\ exists s, get_shard c sh = Some s.
Proof.
  unfold set_check. destruct (Z.ltb_spec cst 0); [discriminate|]. destruct (get_shard c sh) as [s|]; [eauto|discriminate].
Qed.

Theorem op_set_step c k v ttl cst sh : TInv c -> CStep (at_shard sh (wentry c)) c (fst (op_set c k v ttl cst sh)).
Proof.
  intros T. destruct (Z.eq_dec (set_check c sh cst) 0) as [E|E]; [|rewrite (CA.op_set_fail _ _ _ _ _ _ E); apply CStep_refl; exact T].
  destruct (set_check_ok _ _ _ E) as (Hc & s & G). rewrite (CA.op_set_form c k v ttl cst sh s G E).
  pose proof (drained_tstep c s (TInv_get _ _ _ T G)) as S1.
  eapply CStep_put; [exact T|exact G|]. eapply TStep_trans; [exact S1|].
  exact (set_tstep _ _ (env_of c) eq_refl eq_refl _ k v _ cst (proj1 S1) Hc).
Qed.

Theorem op_set_async_step c k v ttl cst sh : TInv c -> CStep (fun _ _ => False) c (fst (op_set_async c k v ttl cst sh)).
Proof.
  intros T. destruct (Z.eq_dec (set_check c sh cst) 0) as [E|E]; [|rewrite (CA.op_set_async_fail _ _ _ _ _ _ E); apply CStep_refl; exact T].
  destruct (set_check_ok _ _ _ E) as (Hc & s & G). rewrite (CA.op_set_async_form c k v ttl cst sh s G E).
  pose proof (TInv_get _ _ _ T G) as TS.
  eapply CStep_weaken; [|apply (CStep_put (fun _ => False) c sh s); [exact T|exact G|split; [|apply SRel_eq; auto]]].
  - intros i x [_ []].
  - apply TShard_sh_evs; [exact TS|]. apply Forall_app. split; [exact (tsh_pend _ _ _ TS)|repeat constructor; exact Hc].
Qed.

(* Get / GetWithTTL: a SieveTinyLFU miss first drains the shard's queue *)
Theorem op_get_step c k sh : TInv c ->
  CStep (at_shard sh (fun x => (policy c = policySieve /\ wentry c x) \/ exp_drop (now c) k x)) c
        (fst (fst (fst (op_get c k sh)))).
Proof.
  intros T. destruct (closed c) eqn:Hc; [unfold op_get; rewrite Hc; apply CStep_refl; exact T|].
  destruct (get_shard c sh) as [s0|] eqn:G; [|unfold op_get; rewrite Hc, G; apply CStep_refl; exact T].
  pose proof (CA.op_get_form c k sh s0 Hc G) as F. cbv zeta in F. rewrite F. cbn [fst].
  pose proof (TInv_get _ _ _ T G) as T0. eapply CStep_put; [exact T|exact G|].
  assert (S0 : TStep (policy c) (mask c) (fun x => policy c = policySieve /\ wentry c x) s0 (fst (CA.get_pre c k s0))).
  { unfold CA.get_pre. destruct (is_sieve s0 (policy c)) eqn:HS; cbn [andb]; [|apply TStep_refl; exact T0].
    destruct (negb (memz (tabk s0) k)); [|apply TStep_refl; exact T0].
    eapply TStep_weaken; [|apply drained_tstep; exact T0]. intros x Hx. split; [exact (is_sieve_pol _ _ HS)|exact Hx]. }
  pose proof (get_sh_tstep _ _ (env_of c) eq_refl eq_refl (now c) _ k (proj1 S0)) as S1.
  eapply TStep_trans; (eapply TStep_weaken; [|eassumption]); intros x Hx; [left|right]; exact Hx.
Qed.

Theorem op_exists_step c k sh : TInv c -> CStep (at_shard sh (exp_drop (now c) k)) c (fst (op_exists c k sh)).
Proof.
  intros T. destruct (closed c) eqn:Hc; [unfold op_exists; rewrite Hc; apply CStep_refl; exact T|].
  destruct (get_shard c sh) as [s|] eqn:G; [|unfold op_exists; rewrite Hc, G; apply CStep_refl; exact T].
  rewrite (CA.op_exists_form c k sh s Hc G). unfold CA.get_out.
  destruct (lookup s (policy c) k) as [it|] eqn:LK; [|apply CStep_refl; exact T].
  destruct (expired it (now c)) eqn:EX; [|apply CStep_refl; exact T].
  pose proof (TInv_get _ _ _ T G) as TS.
  destruct (sh_lookup_some _ _ (env_of c) eq_refl s k it (tsh_inv _ _ _ TS) LK) as (Hk & _).
  destruct (drop_item (env_of c) s it reasonExpired) as [[s1 o] d] eqn:DI. cbn [fst].
  destruct (drop_tstep _ _ (env_of c) eq_refl eq_refl s k it reasonExpired s1 o d TS LK ltac:(discriminate) DI) as (S1 & _).
  eapply CStep_put; [exact T|exact G|]. eapply TStep_weaken; [|exact S1]. intros x ->. apply exp_drop_intro; assumption.
Qed.

Theorem op_delete_step c k sh : TInv c ->
  CStep (at_shard sh (fun x => wentry c x \/ drop_entry_of reasonDeleted k x)) c (fst (op_delete c k sh)).
Proof.
  intros T. destruct (closed c) eqn:Hc; [unfold op_delete; rewrite Hc; apply CStep_refl; exact T|].
  destruct (get_shard c sh) as [s0|] eqn:G.
  2:{ unfold op_delete, drain_shard. rewrite Hc, G. cbv zeta. rewrite G. apply CStep_refl; exact T. }
  pose proof (CA.op_delete_form c k sh s0 Hc G) as F. cbv zeta in F. rewrite F.
  assert (S0 : TStep (policy c) (mask c) (fun x => wentry c x \/ drop_entry_of reasonDeleted k x) s0 (fst (CA.drained c s0))).
  { eapply TStep_weaken; [|apply drained_tstep; exact (TInv_get _ _ _ T G)]. intros x Hx. left; exact Hx. }
  destruct (lookup (fst (CA.drained c s0)) (policy c) k) as [it|] eqn:LK; cbn [fst].
  -
    eapply CStep_put; [exact T|exact G|].
    destruct (drop_item (env_of c) (fst (CA.drained c s0)) it reasonDeleted) as [[s1 o] d] eqn:DI. cbn [fst].
    destruct (drop_tstep _ _ (env_of c) eq_refl eq_refl _ k it reasonDeleted s1 o d (proj1 S0) LK ltac:(discriminate) DI) as (S1 & _).
    eapply TStep_trans; [exact S0|]. eapply TStep_weaken; [|exact S1]. intros x ->. right. split; reflexivity.
  -
    eapply CStep_put; [exact T|exact G|exact S0].
Qed.

(* operations on all shards at once (Cleanup, Clear / Close) map the shards *)
Lemma CStep_map Q c c' (f : shard -> shard) : TInv c -> policy c' = policy c -> mask c' = mask c ->
  shards c' = map f (shards c) -> (forall s, TShard (policy c) (mask c) s -> TStep (policy c) (mask c) Q s (f s)) ->
  CStep (fun _ => Q) c c'.
Proof.
  intros T P M SH H. split; [exact P|]. split; [exact M|]. split; [rewrite SH; apply map_length|].
  intros i s Hi. rewrite SH, nth_error_map, Hi. eexists. split; [reflexivity|]. exact (H s (TInv_nth _ _ _ T Hi)).
Qed.

Lemma cleanup_of_spec c s ev ex : TShard (policy c) (mask c) s ->
  exists rl, CleanSpec (policy c) (mask c) (now c) (tabk s) s (cleanup_of (env_of c) (now c) s) rl /\
    fold_left (cleanup_shard (env_of c) (now c)) (tabk s) (s, ev, ex) =
    (cleanup_of (env_of c) (now c) s, ev, ex + (if statsOn c then zlen rl else 0)).
Proof.
  intros TS. pose proof (cleanup_fold_indep (env_of c) (now c) (tabk s) s ev ex 0 0) as EI.
  fold (cleanup_of (env_of c) (now c) s) in EI.
  destruct (fold_left (cleanup_shard (env_of c) (now c)) (tabk s) (s, ev, ex)) as [[s1 ev1] ex1] eqn:F.
  destruct (sh_cleanup_fold (policy c) (mask c) (env_of c) eq_refl eq_refl (now c) (tabk s) s ev ex s1 ev1 ex1
              (tsh_inv _ _ _ TS) F) as (rl & CS & -> & ->).
  cbn [fst] in EI. subst s1. exists rl. split; [exact CS|reflexivity].
Qed.

Theorem op_cleanup_step c : TInv c -> CStep (fun _ => expired_entry (now c)) c (op_cleanup c).
Proof.
  intros T. destruct (closed c) eqn:Hc; [unfold op_cleanup; rewrite Hc; apply CStep_refl; exact T|].
  destruct (CA.op_cleanup_fields c) as (P & _ & _ & _ & M & _).
  apply (CStep_map _ c _ (cleanup_of (env_of c) (now c)) T P M (op_cleanup_shards c Hc)). intros s TS.
  destruct (cleanup_of_spec c s 0 0 TS) as (rl & CS & _). exact (clean_tstep _ _ _ _ _ _ _ CS TS).
Qed.

(* Clear and Close differ in the closed flag only *)
Lemma drain_clear_step c cl : TInv c -> let c0 := drain_all c in
  CStep (fun _ x => wentry c x \/ cleared_entry x) c (with_shards c0 (map (clear_shard (policy c0)) (shards c0)) cl (now c0)).
Proof.
  intros T. cbv zeta. pose proof (drain_all_step c T) as S0. eapply CStep_trans.
  - eapply CStep_weaken; [|exact S0]. intros i x H. left; exact H.
  - eapply CStep_weaken; [|apply (CStep_map cleared_entry (drain_all c) _ (clear_shard (policy (drain_all c))) (CStep_TInv _ _ _ S0));
                              try reflexivity; exact (clear_tstep _ _ (env_of (drain_all c)) eq_refl)].
    intros i x H. right; exact H.
Qed.

Theorem op_clear_step c : TInv c -> CStep (fun _ x => wentry c x \/ cleared_entry x) c (op_clear c).
Proof. intros T. unfold op_clear. destruct (closed c); [apply CStep_refl; exact T|apply drain_clear_step; exact T]. Qed.

Theorem op_close_step c : TInv c -> CStep (fun _ x => wentry c x \/ cleared_entry x) c (op_close c).
Proof. intros T. unfold op_close. destruct (closed c); [apply CStep_refl; exact T|apply drain_clear_step; exact T]. Qed.

Lemma with_same_shards_step Q c cl t : TInv c -> CStep Q c (with_shards c (shards c) cl t).
Proof. intros T. apply CStep_same; auto. Qed.

Lemma attach_events_step Q c l : TInv c -> CStep Q c (attach_events c l) /\ SameCfg c (attach_events c l).
Proof.
  intros T. apply (CA.attach_events_ind (fun c' => CStep Q c c' /\ SameCfg c c')); [|split; [apply CStep_refl; exact T|apply SameCfg_refl]].
  intros c1 sh s kind a G [S1 C1]. split; [|eapply SameCfg_trans; [exact C1|apply SameCfg_put]].
  pose proof (CStep_TInv _ _ _ S1) as T1. pose proof (TInv_get _ _ _ T1 G) as TS.
  eapply CStep_trans; [exact S1|]. eapply CStep_weaken; [|apply (CStep_put (fun _ => False) c1 sh s); [exact T1|exact G|split; [|apply SRel_eq; auto]]].
  - intros i x [_ []].
  - apply TShard_sh_evs; [exact TS|exact (tsh_pend _ _ _ TS)].
Qed.

(* which ghost-log entries operation [op] may append to shard i, at clock nw under policy pol *)
Definition entry_just (pol nw : Z) (op : CA.cop) (i : nat) (x : Z * Z * Z) : Prop :=
  match op with
  | CA.CSet k v ttl cst sh => i = Z.to_nat sh /\ write_entry pol x
  | CA.CGet k sh | CA.CGetTTL k sh =>
      i = Z.to_nat sh /\ ((pol = policySieve /\ write_entry pol x) \/ exp_drop nw k x)
  | CA.CExists k sh => i = Z.to_nat sh /\ exp_drop nw k x
  | CA.CDelete k sh => i = Z.to_nat sh /\ (write_entry pol x \/ drop_entry_of reasonDeleted k x)
  | CA.CClear | CA.CClose => write_entry pol x \/ cleared_entry x
  | CA.CCleanup => expired_entry nw x
  | CA.CSync => write_entry pol x
  | _ => False
  end.

(* the recorded oracle events are attached first (they touch no log), then the operation runs *)
Theorem cstep_step c op ev : TInv c -> CStep (entry_just (policy c) (now c) op) c (fst (CA.cstep c op ev)).
Proof.
  intros T.
  destruct (attach_events_step (entry_just (policy c) (now c) op) c ev T) as [S0 SC].
  pose proof (CStep_TInv _ _ _ S0) as T0.
  eapply CStep_trans; [exact S0|]. rewrite <- (sc_policy _ _ SC), <- (sc_now _ _ SC).
  unfold CA.cstep. set (c0 := attach_events c ev) in *. clearbody c0.
  destruct op; cbn [fst]; try (apply CStep_refl; exact T0).
  - pose proof (op_set_step c0 k v ttl cst sh T0) as S1. destruct (op_set c0 k v ttl cst sh). exact S1.
  - pose proof (op_get_step c0 k sh T0) as S1. destruct (op_get c0 k sh) as [[[c1 ok] v] t]. exact S1.
  - pose proof (op_get_step c0 k sh T0) as S1. destruct (op_get c0 k sh) as [[[c1 ok] v] t]. exact S1.
  - pose proof (op_exists_step c0 k sh T0) as S1. destruct (op_exists c0 k sh). exact S1.
  - pose proof (op_delete_step c0 k sh T0) as S1. destruct (op_delete c0 k sh). exact S1.
  - exact (op_clear_step c0 T0).
  - exact (op_cleanup_step c0 T0).
  - exact (with_same_shards_step _ c0 _ _ T0).
  - pose proof (op_set_async_step c0 k v ttl cst sh T0) as S1. destruct (op_set_async c0 k v ttl cst sh). exact S1.
  - destruct (closed c0); [apply CStep_refl; exact T0|exact (drain_all_step c0 T0)].
  - exact (op_close_step c0 T0).
Qed.

Lemma ShInv_unstage pol m s :
  ShInv pol m s -> ShInv pol m (sh_set s (tabk s) (lst s) (lfu s) (prob s) (main s) (hand s) (size s) (scost s) []).
Proof.
  intros [[HS (C & L & N)]|A]; [left|right; exact A].
  split; [exact HS|]. apply Good_intro; [|exact L|exact N]. destruct C. constructor; assumption.
Qed.

(* settle: the end of every stream step (adapts everywhere, staged notifications handed to the driver) *)
Lemma settle_shards c : exists f, shards (CA.settle c) = map f (shards c) /\
  policy (CA.settle c) = policy c /\ mask (CA.settle c) = mask c /\
  forall s, TShard (policy c) (mask c) s -> TShard (policy c) (mask c) (f s) /\ glog (f s) = glog s /\ nlog (f s) = nlog s.
Proof.
  unfold CA.settle. destruct (quiescent c); [|exists (fun s => s); rewrite map_id; repeat (split; [reflexivity|]); auto].
  eexists. split; [unfold take_staged; cbn [fst with_shards shards]; apply map_map|].
  split; [reflexivity|]. split; [reflexivity|]. intros s TS.
  destruct (sh_adapts (policy c) (mask c) (env_of c) eq_refl s (tsh_inv _ _ _ TS)) as [_ _ A3 A4 _ _ _ _].
  destruct (adapts_tstep (policy c) (mask c) (env_of c) eq_refl (fun _ => False) s TS) as [[B1 B2 B3] _].
  (* emptying the staging buffer changes no field that lookup, the logs or the queue read *)
  split; [|split; [exact A3|exact A4]]. constructor; [apply ShInv_unstage; exact B1|exact B2|exact B3].
Qed.

Theorem cstep_full_TInv c op ev : TInv c -> TInv (fst (CA.cstep_full c op ev)).
Proof.
  intros T. pose proof (CStep_TInv _ _ _ (cstep_step c op ev T)) as T1. unfold CA.cstep_full.
  destruct (CA.cstep c op ev) as [c1 r]. cbn [fst] in *. destruct (settle_shards c1) as (f & SH & P & M & HF).
  apply (TInv_pointwise c1); auto; [rewrite SH; apply map_length|].
  intros i s Hi. rewrite SH, nth_error_map, Hi. eexists. split; [reflexivity|]. apply HF. exact (TInv_nth _ _ _ T1 Hi).
Qed.

Theorem crun_TInv ops : forall c, TInv c -> TInv (CA.crun c ops).
Proof.
  induction ops as [|[op ev] r IH]; intros c T; cbn [CA.crun]; [exact T|]. apply IH. apply cstep_full_TInv. exact T.
Qed.

(* ShInv is CacheProofs' PolicyOK without the budget clauses *)
Lemma PolicyOK_ShInv pol m s : CA.PolicyOK pol m s -> ShInv pol m s.
Proof.
  unfold CA.PolicyOK. intros (_ & _ & H). destruct (is_sieve s pol) eqn:HS.
  - right. destruct H as (A & B & C & D & _). auto.
  - left. destruct H as (A & _). auto.
Qed.

Theorem TInv_init l cfg ncpu msk weigher t0 :
  decode_config (firstn 13 l) = Some (cfg, ncpu) -> skipn 13 l = [msk; weigher; t0] ->
  validate cfg = None -> 1 <= ncpu -> ShardCount cfg <= 2 ^ 62 ->
  TInv (cache_init l).
Proof.
  intros D S V Hc Hs.
  destruct (CA.cache_init_inv (fun _ => 0) l cfg ncpu msk weigher t0 D S V Hc Hs) as ((_ & OK & _) & _ & _ & _ & _ & _ & EM & _).
  unfold TInv. apply Forall_forall. intros s Hs'. destruct (EM s Hs') as (E1 & E2 & E3 & _).
  apply In_nth_error in Hs'. destruct Hs' as [i Hi]. destruct (OK i s Hi) as (P & _).
  constructor; [exact (PolicyOK_ShInv _ _ _ P)|rewrite E2; constructor|].
  intros k it LK. apply lookup_some_memz in LK. rewrite E1 in LK. discriminate.
Qed.

Lemma CacheInv_shards (shard_of : Z -> Z) c : CA.CacheInv shard_of c ->
  forall i s, nth_error (shards c) i = Some s -> ShInv (policy c) (mask c) s /\ Forall cmd_ok (pend s).
Proof.
  intros (_ & OK & _) i s H. destruct (OK i s H) as (P & Q & _). split; [exact (PolicyOK_ShInv _ _ _ P)|].
  eapply Forall_impl; [|exact Q]. intros cmd (k & v & ttl & cst & -> & Hc & _). exact Hc.
Qed.

Lemma resident_put_same c sh s s1 h mi ev ex k :
  get_shard c sh = Some s -> resident (put_shard c sh s1 h mi ev ex) sh k = lookup s1 (policy c) k.
Proof. intros G. unfold resident. rewrite (get_put_same c sh s s1 h mi ev ex G). reflexivity. Qed.

Lemma op_set_spec c k v ttl cst sh c' : TInv c -> op_set c k v ttl cst sh = (c', 0) ->
  exists s s' d dl, get_shard c sh = Some s /\ get_shard c' sh = Some s' /\ policy c' = policy c /\
    SetSpec (policy c) (mask c) (env_of c) (fst (CA.drained c s)) k v (stamp (norm_ttl c ttl) (now c)) cst s' d dl.
Proof.
  intros T H. destruct (Z.eq_dec (set_check c sh cst) 0) as [E|E]; [|rewrite (CA.op_set_fail _ _ _ _ _ _ E) in H; congruence].
  destruct (set_check_ok _ _ _ E) as (Hc & s & G). pose proof (CA.op_set_form c k v ttl cst sh s G E) as F. cbv zeta in F.
  rewrite F in H. injection H as <-.
  destruct (drained_tstep c s (TInv_get _ _ _ T G)) as [[A _ _] _].
  destruct (apply_set (env_of c) (fst (CA.drained c s)) k v (stamp (norm_ttl c ttl) (now c)) cst) as [[s1 cm] d] eqn:AS.
  destruct (sh_apply_set (policy c) (mask c) (env_of c) eq_refl eq_refl _ k v _ cst s1 cm d A Hc AS) as [dl SS].
  exists s, s1, d, dl. rewrite (get_put_same c sh s _ _ _ _ _ G). auto.
Qed.

(** C05 (rewriting a key replaces its deadline): whatever entry of k is resident after a successful
    Set(k, v, ttl, cost) is the one just written, with the stamp of the resolved TTL at the clock of the write *)
Theorem c05_rewrite_replaces_deadline c k v ttl cst sh c' it :
  TInv c -> op_set c k v ttl cst sh = (c', 0) -> resident c' sh k = Some it ->
  val it = v /\ cost it = cst /\ exp it = stamp (norm_ttl c ttl) (now c).
Proof.
  intros T H R. destruct (op_set_spec _ _ _ _ _ _ _ T H) as (s & s' & d & dl & _ & G' & P & SS).
  unfold resident in R. rewrite G', P in R.
  pose proof (ss_view _ _ _ _ _ _ _ _ _ _ _ SS k) as V. rewrite Z.eqb_refl in V.
  destruct (memz (map dkey dl) k).
  - apply lke_none in V. congruence.
  - unfold lke in V. rewrite R in V. injection V as _ A B C _. auto.
Qed.

Theorem c05_stamp c k v ttl cst sh c' it :
  TInv c -> op_set c k v ttl cst sh = (c', 0) -> resident c' sh k = Some it ->
  let t := norm_ttl c ttl in
  (0 < t -> t <= max_int64 -> exp it = Z.min (now c + t) max_int64) /\
  (0 < t -> 0 < now c -> exp it = Z.min (now c + t) max_int64) /\
  (t = 0 -> exp it = 0) /\
  (* t = 0 exactly for NoExpiration, any other negative TTL, and DefaultExpiration under a DefaultTTL <= 0 *)
  (t = 0 <-> (ttl < 0 \/ (ttl = defaultExpiration /\ defttl c <= 0))) /\
  (ttl = defaultExpiration -> 0 < defttl c -> t = defttl c) /\ (0 < ttl -> t = ttl).
Proof.
  intros T H R. destruct (c05_rewrite_replaces_deadline _ _ _ _ _ _ _ _ T H R) as (_ & _ & E). cbv zeta.
  pose proof (stamp_cases (norm_ttl c ttl) (now c)). pose proof (norm_ttl_spec c ttl) as NS.
  unfold defaultExpiration in *. rewrite E. destruct (Z.eqb_spec ttl 0); lia.
Qed.

(* the positive half of c05_rewrite_replaces_deadline: under these hypotheses the key stays resident *)
Theorem c05_rewrite_in_place c k v ttl cst sh c' s old :
  TInv c -> get_shard c sh = Some s -> pend s = [] -> lookup s (policy c) k = Some old ->
  over_capacity s = false -> (costcap s <= 0 \/ cst <= cost old) ->
  op_set c k v ttl cst sh = (c', 0) ->
  exists it s', get_shard c' sh = Some s' /\ resident c' sh k = Some it /\
    val it = v /\ cost it = cst /\ exp it = stamp (norm_ttl c ttl) (now c) /\
    staged s' = staged s /\ nlog s' = nlog s /\ glog s' = glog s ++ [(1, k, val old); (0, k, v)].
Proof.
  intros T G P LK O HC H. destruct (op_set_spec _ _ _ _ _ _ _ T H) as (s0 & s1 & d & dl & G0 & G' & P' & SS).
  rewrite G in G0. injection G0 as <-. rewrite (CA.drained_quiet c s P) in SS. cbn [fst] in SS.
  destruct SS as [_ Sglog Snlog Sstaged _ Sview _ _ _ _ Supdate]. rewrite (Supdate old LK O HC) in *.
  specialize (Sview k). cbn [map memz] in Sview. rewrite Z.eqb_refl in Sview.
  apply lke_some in Sview. destruct Sview as (it & L1 & E1). unfold SP.ess in E1. injection E1 as _ A B C _.
  exists it, s1. unfold resident. rewrite G', P'. cbn [map dnotes flat_map] in *. rewrite app_nil_r in Snlog, Sstaged.
  repeat split; auto. destruct Sglog as [GL|[GL _]]; rewrite GL, LK; cbn [map wlog app]; rewrite ?app_nil_r; reflexivity.
Qed.

Lemma shard_items_spec pol m s : ShInv pol m s ->
  NoDup (map key (shard_items s pol)) /\
  (forall it, In it (shard_items s pol) -> In (key it) (tabk s) -> lookup s pol (key it) = Some it) /\
  (forall k it, lookup s pol k = Some it -> In it (shard_items s pol)).
Proof.
  intros [[HS (C & _)]|(HS & I & Q & _)]; unfold shard_items; rewrite HS.
  - split; [apply (ci_lst_nodup _ _ C)|]. split.
    + intros it Hi _. rewrite (lookup_find _ _ _ C). apply find_item_unique; [apply (ci_lst_nodup _ _ C)|exact Hi|reflexivity].
    + intros k it LK. destruct (lookup_resident _ _ _ _ C LK) as (_ & _ & _ & Hin & _). exact Hin.
  - (* the SieveProofs lemmas take an env but read only its e_pol: any env with this policy does *)
    pose proof (is_sieve_pol _ _ HS) as HP. set (e := {| e_pol := pol; e_stats := false; e_mask := m |}).
    split; [apply SP.nodup_keys_filter; exact (SP.SInv_items_nodup s I)|]. split.
    + intros it Hi _. apply filter_In in Hi. destruct Hi as [Hi U].
      apply (SP.lookup_of_in e HP s it I Hi). destruct (unpub it); [discriminate|reflexivity].
    + intros k it LK. destruct (SP.lookup_some e HP s k it I LK) as (A & _ & U & _).
      apply filter_In. split; [exact A|]. rewrite U. reflexivity.
Qed.

(* op_keys_sound above says the same of shard_items and needs no invariant; under ShInv this one speaks of
   lookup, and c05_never_after_deadline_keys is its cache-level reading *)
Theorem shard_keys_spec pol m nw s k : ShInv pol m s ->
  (In k (shard_keys pol nw s) <-> exists it, lookup s pol k = Some it /\ (exp it = 0 \/ nw <= exp it)) /\
  NoDup (shard_keys pol nw s).
Proof.
  intros HI. destruct (shard_items_spec pol m s HI) as (ND & IL & LI).
  split; [|unfold shard_keys; apply SP.nodup_keys_filter; exact ND].
  rewrite in_shard_keys. split.
  - intros (it & Hi & K & M & E). exists it. split; [|exact E]. rewrite <- K. apply IL; [exact Hi|]. rewrite K. exact M.
  - intros (it & LK & E). exists it.
    destruct (sh_lookup_some pol m {| e_pol := pol; e_stats := false; e_mask := m |} eq_refl s k it HI LK) as (K & _ & M & _).
    repeat split; auto. exact (LI k it LK).
Qed.

Theorem c05_never_after_deadline_keys c k : TInv c -> In k (op_keys c) ->
  closed c = false /\ exists sh it, resident c sh k = Some it /\ expired it (now c) = false /\ (exp it = 0 \/ now c <= exp it).
Proof.
  intros T H. destruct (closed c) eqn:Hc; [rewrite (op_keys_closed _ Hc) in H; destruct H|]. split; [reflexivity|].
  rewrite (op_keys_eq _ Hc), in_flat_map in H. destruct H as (s & Hs & Hk).
  apply In_nth_error in Hs. destruct Hs as [i Hi]. pose proof (TInv_nth _ _ _ T Hi) as TS.
  apply (shard_keys_spec _ _ _ _ _ (tsh_inv _ _ _ TS)) in Hk. destruct Hk as (it & LK & E).
  exists (Z.of_nat i), it. unfold resident, get_shard. rewrite Nat2Z.id, Hi. split; [exact LK|]. split; [|exact E].
  apply expired_false. lia.
Qed.

Theorem c05_expired_get_removes c k sh it c' ok v r :
  TInv c -> closed c = false -> resident c sh k = Some it -> 0 < exp it < now c ->
  op_get c k sh = (c', ok, v, r) -> ok = false /\ resident c' sh k = None.
Proof.
  intros T Hc R E. unfold resident in R. destruct (get_shard c sh) as [s|] eqn:G; [|discriminate].
  unfold op_get. rewrite Hc, G. cbv zeta. rewrite (lookup_some_memz _ _ _ _ R). cbn [negb]. rewrite andb_false_r, G, R.
  rewrite (proj2 (expired_spec it (now c)) E).
  destruct (drop_item (env_of c) s it reasonExpired) as [[s1 o] d] eqn:DI. intros H. injection H as <- <- _ _.
  split; [reflexivity|]. rewrite (resident_put_same c sh s _ _ _ _ _ k G).
  rewrite CA.lookup_adapts. exact (proj2 (drop_tstep _ _ (env_of c) eq_refl eq_refl s k it reasonExpired s1 o d (TInv_get _ _ _ T G) R ltac:(discriminate) DI)).
Qed.

Theorem c05_expired_exists_removes c k sh it c' b :
  TInv c -> closed c = false -> resident c sh k = Some it -> 0 < exp it < now c ->
  op_exists c k sh = (c', b) -> b = false /\ resident c' sh k = None.
Proof.
  intros T Hc R E. unfold resident in R. destruct (get_shard c sh) as [s|] eqn:G; [|discriminate].
  unfold op_exists. rewrite Hc, G, R. rewrite (proj2 (expired_spec it (now c)) E).
  destruct (drop_item (env_of c) s it reasonExpired) as [[s1 o] d] eqn:DI. intros H. injection H as <- <-.
  split; [reflexivity|]. rewrite (resident_put_same c sh s _ _ _ _ _ k G).
  exact (proj2 (drop_tstep _ _ (env_of c) eq_refl eq_refl s k it reasonExpired s1 o d (TInv_get _ _ _ T G) R ltac:(discriminate) DI)).
Qed.

(** an entry whose deadline has passed is returned by no read path: Get, Exists, Keys *)
Theorem c05_never_after_deadline c k sh s it :
  TInv c -> get_shard c sh = Some s -> lookup s (policy c) k = Some it -> 0 < exp it < now c ->
  (forall c' ok v r, op_get c k sh = (c', ok, v, r) -> ok = false /\ v = 0 /\ r = 0) /\
  (forall c' b, op_exists c k sh = (c', b) -> b = false) /\
  ~ In k (shard_keys (policy c) (now c) s).
Proof.
  intros T G LK E. assert (R : resident c sh k = Some it) by (unfold resident; rewrite G; exact LK).
  split; [|split].
  - intros c' ok v r H. destruct (closed c) eqn:Hc.
    + unfold op_get in H. rewrite Hc in H. injection H as _ <- <- <-. auto.
    + pose proof (op_get_resident c k sh it c' ok v r Hc R H) as P.
      rewrite (proj2 (expired_spec it (now c)) E) in P. exact P.
  - intros c' b H. rewrite (op_exists_resident _ _ _ _ _ H), R, (proj2 (expired_spec it (now c)) E). apply andb_false_r.
  - intros H. apply (shard_keys_spec _ _ _ _ _ (tsh_inv _ _ _ (TInv_get _ _ _ T G))) in H.
    destruct H as (it' & L' & E'). rewrite LK in L'. injection L' as <-. lia.
Qed.

Lemma cleanup_outer_fold c ss : Forall (TShard (policy c) (mask c)) ss ->
  forall l ev ex,
  fold_left (fun (acc : list shard * Z * Z) (s : shard) =>
               let '(l, ev, ex) := acc in
               let '(s1, ev1, ex1) := fold_left (cleanup_shard (env_of c) (now c)) (tabk s) (s, ev, ex) in
               (l ++ [s1], ev1, ex1)) ss (l, ev, ex)
  = (l ++ map (cleanup_of (env_of c) (now c)) ss, ev,
     ex + (if statsOn c then sumZ (map (fun s => zlen (glog (cleanup_of (env_of c) (now c) s)) - zlen (glog s)) ss) else 0)).
Proof.
  induction 1 as [|s ss TS _ IH]; intros l ev ex; cbn [fold_left map sumZ].
  - rewrite app_nil_r. f_equal. destruct (statsOn c); lia.
  - destruct (cleanup_of_spec c s ev ex TS) as (rl & CS & ->).
    rewrite IH, <- app_assoc. cbn [app]. f_equal.
    rewrite (cs_glog _ _ _ _ _ _ _ CS). unfold zlen. rewrite app_length, map_length. cbn [e_stats env_of].
    destruct (statsOn c); lia.
Qed.

Theorem c05_cleanup c : TInv c -> closed c = false ->
  let c' := op_cleanup c in
  (forall sh s' k it, get_shard c' sh = Some s' -> lookup s' (policy c) k = Some it -> expired it (now c) = false) /\
  (* per shard: exactly the expired entries were removed, each logged once (and notified once when masked) *)
  (forall i s, nth_error (shards c) i = Some s ->
     exists s' rl, nth_error (shards c') i = Some s' /\
       glog s' = glog s ++ map exp_entry rl /\
       nlog s' = nlog s ++ exp_notes (mask c) rl /\ staged s' = staged s ++ exp_notes (mask c) rl /\
       NoDup (map key rl) /\
       Forall (fun it => lke (policy c) s (key it) = Some (SP.ess it) /\ 0 < exp it < now c) rl /\
       (forall k, lke (policy c) s' k = if memz (map key rl) k then None else lke (policy c) s k)) /\
  evictions c' = evictions c /\
  expirations c' = expirations c +
    (if statsOn c then sumZ (map (fun s => zlen (glog (cleanup_of (env_of c) (now c) s)) - zlen (glog s)) (shards c)) else 0) /\
  shards c' = map (cleanup_of (env_of c) (now c)) (shards c).
Proof.
  intros T Hc. cbv zeta. pose proof (op_cleanup_shards c Hc) as SH.
  split; [|split].
  - intros sh s' k it G LK. unfold get_shard in G. rewrite SH, nth_error_map in G.
    destruct (nth_error (shards c) (Z.to_nat sh)) as [s|] eqn:E; [|discriminate]. cbn [option_map] in G. injection G as <-.
    destruct (cleanup_of_spec c s 0 0 (TInv_nth _ _ _ T E)) as (rl & CS & _).
    apply (cs_swept _ _ _ _ _ _ _ CS k); [|exact LK].
    assert (V : lke (policy c) _ k = Some (SP.ess it)) by (unfold lke; rewrite LK; reflexivity).
    rewrite (cs_view _ _ _ _ _ _ _ CS) in V. destruct (memz (map key rl) k); [discriminate|].
    apply lke_some in V. destruct V as (it0 & L0 & _).
    destruct (sh_lookup_some (policy c) (mask c) (env_of c) eq_refl s k it0 (tsh_inv _ _ _ (TInv_nth _ _ _ T E)) L0) as (_ & _ & Hin & _).
    exact Hin.
  - intros i s H. destruct (cleanup_of_spec c s 0 0 (TInv_nth _ _ _ T H)) as (rl & [Cinv Cglog Cnlog Cstaged Cremoved Cnodup Cview Cswept Cstat] & _).
    exists (cleanup_of (env_of c) (now c) s), rl. rewrite SH, nth_error_map, H. repeat split; auto.
    eapply Forall_impl; [|exact Cremoved]. intros it [A B]. split; [exact A|apply expired_spec; exact B].
  - unfold op_cleanup. rewrite Hc. rewrite (cleanup_outer_fold c (shards c) T [] (evictions c) (expirations c)).
    cbn [evictions expirations shards app]. auto.
Qed.

Definition all_items (s : shard) : list item := lst s ++ prob s ++ main s.

(* the policy-independent ledger: every (k, v) ever written into this shard is resident, or was replaced
   by a later write, cleared, or dropped (for exactly one recorded reason) *)
Definition ULedger (s : shard) : Prop := forall k v,
  cnt (is_tag 0 k v) (glog s) =
  cnt (is_kv k v) (all_items s) + cnt (is_tag 1 k v) (glog s) + cnt (is_tag 2 k v) (glog s) + cnt (is_drop k v) (glog s).

Lemma cnt_filter {A} (f : A -> bool) l : cnt f l = Z.of_nat (length (filter f l)).
Proof. induction l as [|x l IH]; cbn [cnt filter length]; [reflexivity|]. destruct (f x); cbn [length]; lia. Qed.

Lemma cnt_ext {A} (f g : A -> bool) l : (forall x, f x = g x) -> cnt f l = cnt g l.
Proof. intros H. induction l as [|x l IH]; cbn [cnt]; [reflexivity|]. rewrite H, IH. reflexivity. Qed.

Lemma gcount_tag t k v g : Z.of_nat (SP.gcount (SP.tag_is t) k v g) = cnt (is_tag t k v) g.
Proof.
  unfold SP.gcount. rewrite <- cnt_filter. apply cnt_ext. intros [[t' k'] v']. reflexivity.
Qed.
Lemma gcount_drop k v g : Z.of_nat (SP.gcount SP.tag_drop k v g) = cnt (is_drop k v) g.
Proof.
  unfold SP.gcount. rewrite <- cnt_filter. apply cnt_ext. intros [[t' k'] v']. reflexivity.
Qed.
Lemma icount_kv k v l : Z.of_nat (SP.icount k v l) = cnt (is_kv k v) l.
Proof. unfold SP.icount. rewrite <- cnt_filter. reflexivity. Qed.

Theorem ShInv_ULedger pol m s : ShInv pol m s -> ULedger s.
Proof.
  intros [[HS (C & L & _)]|(HS & I & _ & L & _)] k v; unfold all_items.
  - rewrite (ci_prob _ _ C), (ci_main _ _ C), app_nil_r. apply L.
  - destruct (SP.iv_classic _ _ _ _ _ _ _ _ _ _ _ _ _ I) as [E _]. rewrite E. cbn [app]. fold (SP.items s).
    specialize (L k v). rewrite <- !gcount_tag, <- gcount_drop, <- icount_kv. rewrite L, !Nat2Z.inj_add. reflexivity.
Qed.

Theorem ShInv_UNotifLog pol m s : ShInv pol m s -> nlog s = notifs_of m (glog s).
Proof.
  intros [[HS (_ & _ & N)]|(HS & _ & _ & _ & N)]; [exact N|].
  unfold SP.NotifLog in N. rewrite N. unfold notifs_of. apply flat_map_ext. intros [[t k] v]. reflexivity.
Qed.

Definition sum_shards (f : shard -> Z) (c : cache) : Z := sumZ (map f (shards c)).

Lemma sumZ_map4 {A} (f a b d e : A -> Z) l : (forall x, In x l -> f x = a x + b x + d x + e x) ->
  sumZ (map f l) = sumZ (map a l) + sumZ (map b l) + sumZ (map d l) + sumZ (map e l).
Proof.
  induction l as [|x l IH]; intros H; cbn [map sumZ]; [reflexivity|].
  rewrite (H x (or_introl eq_refl)), IH by (intros y Hy; apply H; right; exact Hy). lia.
Qed.

Theorem c06_conservation c k v : TInv c ->
  sum_shards (fun s => cnt (is_tag 0 k v) (glog s)) c =
  sum_shards (fun s => cnt (is_kv k v) (all_items s)) c + sum_shards (fun s => cnt (is_tag 1 k v) (glog s)) c +
  sum_shards (fun s => cnt (is_tag 2 k v) (glog s)) c + sum_shards (fun s => cnt (is_drop k v) (glog s)) c.
Proof.
  intros T. unfold sum_shards. apply sumZ_map4. intros s Hs. unfold TInv in T. rewrite Forall_forall in T.
  exact (ShInv_ULedger _ _ _ (tsh_inv _ _ _ (T s Hs)) k v).
Qed.

Theorem c06_conservation_run l cfg ncpu msk weigher t0 ops k v :
  decode_config (firstn 13 l) = Some (cfg, ncpu) -> skipn 13 l = [msk; weigher; t0] ->
  validate cfg = None -> 1 <= ncpu -> ShardCount cfg <= 2 ^ 62 ->
  let c := CA.crun (cache_init l) ops in
  sum_shards (fun s => cnt (is_tag 0 k v) (glog s)) c =
  sum_shards (fun s => cnt (is_kv k v) (all_items s)) c + sum_shards (fun s => cnt (is_tag 1 k v) (glog s)) c +
  sum_shards (fun s => cnt (is_tag 2 k v) (glog s)) c + sum_shards (fun s => cnt (is_drop k v) (glog s)) c.
Proof.
  intros D S V Hc Hs. cbv zeta. apply c06_conservation. apply crun_TInv. eapply TInv_init; eauto.
Qed.

(** the notification log of every shard is exactly the masked dropped entries of its ghost log, in order:
    every notification is a dropped entry whose reason bit is in the mask, none is sent twice *)
Lemma notifs_of_in m g n : In n (notifs_of m g) ->
  In (10 + nreason n, nkey n, nval n) g /\ mask_has m (nreason n) = true /\ 0 <= nreason n.
Proof.
  unfold notifs_of. rewrite in_flat_map. intros ([[t k] v] & Hx & Hn). unfold notif_of in Hn.
  destruct ((10 <=? t) && mask_has m (t - 10)) eqn:E; [|destruct Hn]. destruct Hn as [<-|[]]. cbn [nreason nkey nval].
  apply andb_true_iff in E. destruct E as [E1 E2]. replace (10 + (t - 10)) with t by lia. repeat split; auto. lia.
Qed.

Lemma notifs_of_length m g : Z.of_nat (length (notifs_of m g)) <= cnt is_dropped g.
Proof.
  unfold notifs_of. induction g as [|[[t k] v] g IH]; cbn [flat_map cnt length]; [lia|]. rewrite app_length, Nat2Z.inj_add.
  set (A := length (flat_map (notif_of m) g)) in *. set (B := cnt is_dropped g) in *. clearbody A B.
  unfold notif_of, is_dropped. destruct (10 <=? t); cbn [andb]; [destruct (mask_has m (t - 10))|]; cbn [length]; lia.
Qed.

Theorem c06_notifications c sh s : TInv c -> get_shard c sh = Some s ->
  nlog s = notifs_of (mask c) (glog s) /\
  (forall n, In n (nlog s) -> In (10 + nreason n, nkey n, nval n) (glog s) /\ mask_has (mask c) (nreason n) = true) /\
  Z.of_nat (length (nlog s)) <= cnt is_dropped (glog s).
Proof.
  intros T G. pose proof (ShInv_UNotifLog _ _ _ (tsh_inv _ _ _ (TInv_get _ _ _ T G))) as N.
  split; [exact N|]. split.
  - intros n Hn. rewrite N in Hn. destruct (notifs_of_in _ _ _ Hn) as (A & B & _). auto.
  - rewrite N. apply notifs_of_length.
Qed.

(** Clear and Close (after their drain) stage nothing and notify nothing *)
Theorem c06_clear_stages_nothing c :
  closed c = false ->
  shards (op_clear c) = map (clear_shard (policy c)) (shards (drain_all c)) /\
  shards (op_close c) = map (clear_shard (policy c)) (shards (drain_all c)) /\
  (forall s, staged (clear_shard (policy c) s) = staged s /\ nlog (clear_shard (policy c) s) = nlog s).
Proof.
  intros Hc. unfold op_clear, op_close. rewrite Hc. cbv zeta.
  assert (P : policy (drain_all c) = policy c).
  { unfold drain_all. generalize (zseq 0 (length (shards c))). intros l. revert c Hc.
    induction l as [|i l IH]; intros c Hc; cbn [fold_left]; [reflexivity|].
    pose proof (SameCfg_drain_shard c i) as SC. rewrite IH; [apply SC|]. rewrite (sc_closed _ _ SC). exact Hc. }
  rewrite P. repeat split. unfold clear_shard. sfld. apply app_nil_r.
Qed.

(** C06 (nothing is reported for an entry that is still readable): when the last ghost-log event about k is
    a drop (notified if its reason is masked) or a clear, k is not readable.  Get is stated for a quiescent
    shard: otherwise a queued SetAsync may write k again first. *)
Theorem c06_not_readable c sh s k t v :
  TInv c -> get_shard c sh = Some s -> lastev (glog s) k = Some (t, v) -> t <> 0 ->
  resident c sh k = None /\
  (forall c' b, op_exists c k sh = (c', b) -> b = false) /\
  (pend s = [] -> forall c' ok v' r, op_get c k sh = (c', ok, v', r) -> ok = false) /\
  ~ In k (shard_keys (policy c) (now c) s).
Proof.
  intros T G LE Ht. pose proof (TInv_get _ _ _ T G) as TS.
  assert (NR : lookup s (policy c) k = None).
  { destruct (lookup s (policy c) k) as [it|] eqn:LK; [|reflexivity].
    rewrite (tsh_last _ _ _ TS k it LK) in LE. congruence. }
  assert (R : resident c sh k = None) by (unfold resident; rewrite G; exact NR).
  split; [exact R|]. split; [|split].
  - intros c' b H. rewrite (op_exists_resident _ _ _ _ _ H), R. apply andb_false_r.
  - intros P c' [|] v' r H; [|reflexivity].
    destruct (op_get_hit_sound _ _ _ _ _ _ H) as (_ & c0 & it & [->| ->] & R' & _); [congruence|].
    rewrite (drain_shard_quiescent c sh s G P) in R'. congruence.
  - intros H. apply (shard_keys_spec _ _ _ _ _ (tsh_inv _ _ _ TS)) in H. destruct H as (it & L & _). congruence.
Qed.

Theorem c06_resident_last_written c sh k it s :
  TInv c -> get_shard c sh = Some s -> resident c sh k = Some it -> lastev (glog s) k = Some (0, val it).
Proof.
  intros T G R. unfold resident in R. rewrite G in R. exact (tsh_last _ _ _ (TInv_get _ _ _ T G) k it R).
Qed.

Theorem c06_delete_not_resident c k sh c' : TInv c -> op_delete c k sh = (c', true) -> resident c' sh k = None.
Proof.
  intros T. unfold op_delete. destruct (closed c); [discriminate|]. cbv zeta.
  pose proof (CStep_TInv _ _ _ (drain_shard_step c sh T)) as T0. set (c0 := drain_shard c sh) in *. clearbody c0.
  destruct (get_shard c0 sh) as [s|] eqn:G; [|discriminate].
  destruct (lookup s (policy c0) k) as [it|] eqn:LK; [|discriminate].
  destruct (drop_item (env_of c0) s it reasonDeleted) as [[s1 o] d] eqn:DI. intros H. injection H as <- _.
  rewrite (resident_put_same c0 sh s _ _ _ _ _ k G).
  exact (proj2 (drop_tstep _ _ (env_of c0) eq_refl eq_refl s k it reasonDeleted s1 o d (TInv_get _ _ _ T0 G) LK ltac:(discriminate) DI)).
Qed.

(* one step of the typed machine without its settle; c06_full_step_delta adds it *)
Theorem c06_step_delta c op ev i s : TInv c -> nth_error (shards c) i = Some s ->
  exists s' delta, nth_error (shards (fst (CA.cstep c op ev))) i = Some s' /\
    glog s' = glog s ++ delta /\
    nlog s' = nlog s ++ notifs_of (mask c) delta /\ staged s' = staged s ++ notifs_of (mask c) delta /\
    Forall (entry_just (policy c) (now c) op i) delta.
Proof.
  intros T H. destruct (cstep_step c op ev T) as (_ & _ & _ & A). destruct (A i s H) as (s' & H' & _ & (d & D1 & D2 & D3 & D4 & _)).
  exists s', d. auto.
Qed.

(* operations during which queued or synchronous writes are applied to shard i *)
Definition applies_writes (pol : Z) (op : CA.cop) (i : nat) : Prop :=
  match op with
  | CA.CSet _ _ _ _ sh | CA.CDelete _ sh => i = Z.to_nat sh
  | CA.CGet _ sh | CA.CGetTTL _ sh => i = Z.to_nat sh /\ pol = policySieve
  | CA.CClear | CA.CClose | CA.CSync => True
  | _ => False
  end.

Lemma entry_just_cases pol nw op i x : entry_just pol nw op i x ->
  (write_entry pol x /\ applies_writes pol op i) \/
  (expired_entry nw x /\ (op = CA.CCleanup \/ exists sh, i = Z.to_nat sh /\
     (op = CA.CGet (gkey x) sh \/ op = CA.CGetTTL (gkey x) sh \/ op = CA.CExists (gkey x) sh))) \/
  (gtag x = 10 + reasonDeleted /\ exists sh, op = CA.CDelete (gkey x) sh /\ i = Z.to_nat sh) \/
  (cleared_entry x /\ (op = CA.CClear \/ op = CA.CClose)).
Proof.
  destruct op; cbn [entry_just applies_writes]; try contradiction.
  - intros [Hi W]. auto.
  - intros [Hi [[P W]|[<- E]]]; [auto|]. right; left. split; [exact E|]. right. exists sh. auto.
  - intros [Hi [[P W]|[<- E]]]; [auto|]. right; left. split; [exact E|]. right. exists sh. auto.
  - intros [Hi [<- E]]. right; left. split; [exact E|]. right. exists sh. auto.
  - intros [Hi [W|[T <-]]]; [auto|]. right; right; left. split; [exact T|]. exists sh. auto.
  - intros [W|C]; [auto|right; right; right; auto].
  - intros E. auto.
  - intros W. auto.
  - intros [W|C]; [auto|right; right; right; auto].
Qed.

Theorem c06_reasons pol nw op i x : entry_just pol nw op i x ->
  (gtag x = 10 + reasonDeleted -> exists sh, op = CA.CDelete (gkey x) sh /\ i = Z.to_nat sh) /\
  (gtag x = 10 + reasonExpired ->
     (exists it, key it = gkey x /\ val it = gval x /\ 0 < exp it < nw) /\
     (op = CA.CCleanup \/ exists sh, i = Z.to_nat sh /\
        (op = CA.CGet (gkey x) sh \/ op = CA.CGetTTL (gkey x) sh \/ op = CA.CExists (gkey x) sh))) /\
  (gtag x = 10 + reasonCapacity -> applies_writes pol op i) /\
  (gtag x = 10 + reasonRejected -> pol = policySieve /\ applies_writes pol op i) /\
  (gtag x = 0 \/ gtag x = 1 -> applies_writes pol op i) /\
  (gtag x = 2 -> op = CA.CClear \/ op = CA.CClose) /\
  (gtag x = 0 \/ gtag x = 1 \/ gtag x = 2 \/ gtag x = 10 + reasonCapacity \/ gtag x = 10 + reasonRejected \/
   gtag x = 10 + reasonExpired \/ gtag x = 10 + reasonDeleted).
Proof.
  intros H.
  destruct (entry_just_cases _ _ _ _ _ H) as [[W A]|[[[T E] A]|[[T A]|[T A]]]];
    unfold write_entry, cleared_entry, reasonCapacity, reasonRejected, reasonExpired, reasonDeleted in *.
  (* each class fixes the tag, so the clauses about the other tags hold vacuously *)
  -
    repeat split; intros; try (exfalso; lia); try exact A; lia.
  - repeat split; intros; try (exfalso; lia); [exact E|exact A|lia].
  - repeat split; intros; try (exfalso; lia); [exact A|lia].
  - repeat split; intros; try (exfalso; lia); [exact A|lia].
Qed.

(** the entries dropped by one applied Set(k, v): an unpublished one can only be the write's own candidate
    (k, v), dropped for reason rejected; every other one is the write's own entry or was resident (published) before *)
Theorem c06_write_drops pol m e s k v ex c s' cm d :
  e_pol e = pol -> e_mask e = m -> ShInv pol m s -> 0 <= c -> apply_set e s k v ex c = (s', cm, d) ->
  exists dl : list (item * Z),
    (glog s' = glog s ++ wlog (lookup s pol k) k v ++ map SP.dent dl \/
     (glog s' = glog s ++ map SP.dent dl ++ wlog (lookup s pol k) k v /\ ~ In k (map dkey dl))) /\
    nlog s' = nlog s ++ dnotes m dl /\ staged s' = staged s ++ dnotes m dl /\
    NoDup (map dkey dl) /\
    Forall (fun p =>
      lookup s' pol (dkey p) = None /\
      ((snd p = reasonCapacity /\ unpub (fst p) = false) \/ (snd p = reasonRejected /\ is_sieve s pol = true)) /\
      (unpub (fst p) = true -> snd p = reasonRejected /\ dkey p = k /\ val (fst p) = v) /\
      ((dkey p = k /\ val (fst p) = v) \/ (dkey p <> k /\ lke pol s (dkey p) = Some (SP.ess (fst p))))) dl /\
    d = (if e_stats e then Z.of_nat (length (filter (fun p => snd p =? reasonCapacity) dl)) else 0) /\
    (* an in-place update that fits drops and stages nothing *)
    (forall old, lookup s pol k = Some old -> over_capacity s = false -> (costcap s <= 0 \/ c <= cost old) -> dl = []).
Proof.
  intros Hp Hm HI Hc H. destruct (sh_apply_set pol m e Hp Hm s k v ex c s' cm d HI Hc H) as [dl SS].
  exists dl. destruct SS as [Sinv Sglog Snlog Sstaged Snodup Sview Sdropped Sreasons Sevict Sstat Supdate].
  repeat split; auto. apply Forall_forall. intros p Hp'.
  rewrite Forall_forall in Sdropped, Sreasons. specialize (Sdropped p Hp'). specialize (Sreasons p Hp').
  split; [|split; [exact Sreasons|split; [|exact Sdropped]]].
  - apply lke_none. rewrite Sview. assert (M : memz (map dkey dl) (dkey p) = true) by (apply memz_In; apply in_map; exact Hp').
    rewrite M. reflexivity.
  - intros U. destruct Sreasons as [[_ U']|[R _]]; [congruence|]. split; [exact R|].
    destruct Sdropped as [A|[_ V]]; [exact A|]. exfalso. apply lke_some in V. destruct V as (it0 & L0 & E0).
    destruct (sh_lookup_some pol m e Hp s _ it0 HI L0) as (_ & U0 & _). unfold SP.ess in E0. congruence.
Qed.

(* only the essence is kept: the recency / frequency / visited bookkeeping moves *)
Theorem c05_hit_keeps_entry c k sh it c' v r :
  TInv c -> closed c = false -> resident c sh k = Some it -> expired it (now c) = false ->
  op_get c k sh = (c', true, v, r) ->
  exists it', resident c' sh k = Some it' /\ SP.ess it' = SP.ess it /\ now c' = now c.
Proof.
  intros T Hc R E. unfold resident in R. destruct (get_shard c sh) as [s|] eqn:G; [|discriminate].
  unfold op_get. rewrite Hc, G. cbv zeta. rewrite (lookup_some_memz _ _ _ _ R). cbn [negb]. rewrite andb_false_r, G, R, E.
  match goal with |- context [adapts ?x] => replace x with (CA.touch (policy c) s k it) by reflexivity end.
  intros H. injection H as <- _ _. rewrite (resident_put_same c sh s _ _ _ _ _ k G).
  pose proof (sh_get_touch (policy c) (mask c) (env_of c) eq_refl eq_refl s k it (tsh_inv _ _ _ (TInv_get _ _ _ T G)) R) as TT.
  pose proof (ts_view _ _ _ _ TT k) as V. unfold lke at 2 in V. rewrite R in V. cbn [option_map] in V.
  apply lke_some in V. destruct V as (it' & L' & E'). exists it'. auto.
Qed.

Theorem run_TInv l cfg ncpu msk weigher t0 ops :
  decode_config (firstn 13 l) = Some (cfg, ncpu) -> skipn 13 l = [msk; weigher; t0] ->
  validate cfg = None -> 1 <= ncpu -> ShardCount cfg <= 2 ^ 62 ->
  TInv (CA.crun (cache_init l) ops).
Proof. intros D S V Hc Hs. apply crun_TInv. eapply TInv_init; eauto. Qed.

(* the integer-encoded stream machine of CacheModel continues from the same states *)
Theorem cache_step_TInv c op ev : TInv c -> TInv (fst (cache_step c (CA.encode_op op ev))).
Proof. intros T. rewrite CA.cache_step_state. apply cstep_full_TInv. exact T. Qed.

Theorem c06_full_step_delta c op ev i s : TInv c -> nth_error (shards c) i = Some s ->
  exists s' delta, nth_error (shards (fst (CA.cstep_full c op ev))) i = Some s' /\
    glog s' = glog s ++ delta /\ nlog s' = nlog s ++ notifs_of (mask c) delta /\
    Forall (entry_just (policy c) (now c) op i) delta.
Proof.
  intros T H. destruct (c06_step_delta c op ev i s T H) as (s1 & delta & H1 & G1 & N1 & _ & F1).
  pose proof (CStep_TInv _ _ _ (cstep_step c op ev T)) as T1. unfold CA.cstep_full.
  destruct (CA.cstep c op ev) as [c1 r]. cbn [fst] in *.
  destruct (settle_shards c1) as (f & SH & _ & _ & HF). destruct (HF s1 (TInv_nth _ _ _ T1 H1)) as (_ & G2 & N2).
  exists (f s1), delta. rewrite SH, nth_error_map, H1, G2, N2. auto.
Qed.

(* one LRU shard of capacity 4, statistics on, every reason notified (mask 15), clock 100 *)
Definition ex_lru : cache := cache_init [4; 0; 1; 0; 0; 1; 1; 0; 0; 0; 0; 0; 1; 15; 0; 100].
Definition advance (c : cache) (d : Z) : cache := with_shards c (shards c) (closed c) (now c + d).
Definition ex_cfg0 : config :=
  {| MaxSize := 0; MaxCost := 0; ShardCount := 0; CleanupInterval := 0; DefaultTTL := 0; Policy := 0; StatsEnabled := 0;
     ProbationRatio := 0; GhostRatio := 0; CostAdmission := 0; WriteBufferSize := 0; WriteBatchSize := 0 |}.
Definition shard0 (c : cache) : shard := hd (new_shard ex_cfg0 1 0) (shards c).
Definition nview (n : notif) : Z * Z * Z := (nkey n, nval n, nreason n).
Definition gres (x : cache * bool * Z * Z) : bool * Z * Z := (snd (fst (fst x)), snd (fst x), snd x).

(* Set(1, 10, ttl 5) at clock 100; read at 105 (deadline reached, not passed); read at 106 *)
Example ex_ttl_expiry :
  let c1 := fst (op_set ex_lru 1 10 5 1 0) in
  let c2 := advance c1 5 in
  let g2 := op_get c2 1 0 in
  let c3 := advance (fst (fst (fst g2))) 1 in
  let g3 := op_get c3 1 0 in
  let c4 := fst (fst (fst g3)) in
  (map (fun it => (key it, val it, exp it)) (lst (shard0 c1)), gres g2, gres g3,
   glog (shard0 c4), map nview (nlog (shard0 c4)), (hits c4, misses c4, expirations c4, evictions c4),
   op_keys c2, op_keys c3, lastev (glog (shard0 c4)) 1)
  = ([(1, 10, 105)], (true, 10, 0), (false, 0, 0),
     [(0, 1, 10); (12, 1, 10)], [(1, 10, 2)], (1, 1, 1, 0), [1], [], Some (12, 10)).
Proof. vm_compute. reflexivity. Qed.

(* NoExpiration, a negative TTL and DefaultExpiration under DefaultTTL 0 all store "never expires";
   a rewrite with a TTL replaces the deadline; Cleanup at a later clock removes exactly the expired one *)
Example ex_ttl_stamps_cleanup :
  let c1 := fst (op_set ex_lru 1 10 (-1) 1 0) in
  let c2 := fst (op_set c1 2 20 (-7) 1 0) in
  let c3 := fst (op_set c2 3 30 0 1 0) in
  let c4 := fst (op_set c3 2 21 50 1 0) in
  let c5 := op_cleanup (advance c4 51) in
  (map (fun it => (key it, val it, exp it)) (lst (shard0 c4)),
   map (fun it => (key it, val it, exp it)) (lst (shard0 c5)),
   glog (shard0 c5), map nview (nlog (shard0 c5)), expirations c5)
  = ([(2, 21, 150); (3, 30, 0); (1, 10, 0)], [(3, 30, 0); (1, 10, 0)],
     [(0, 1, 10); (0, 2, 20); (0, 3, 30); (1, 2, 20); (0, 2, 21); (12, 2, 21)], [(2, 21, 2)], 1).
Proof. vm_compute. reflexivity. Qed.

(* the saturating stamp: a TTL of max_int64 at clock 100 stores max_int64 (no wrap-around), and the
   entry is served and listed consistently *)
Example ex_ttl_saturates :
  let c1 := fst (op_set ex_lru 1 10 max_int64 1 0) in
  (map exp (lst (shard0 c1)), gres (op_get c1 1 0), op_keys c1)
  = ([max_int64], (true, 10, max_int64 - 100), [1]).
Proof. vm_compute. reflexivity. Qed.

(** "GetWithTTL reports -1 iff the deadline is 0" needs a non-negative clock: at a negative clock a positive
    TTL can stamp a negative deadline, which is never expired, and deadline - now can then be -1.
    (The implementation's clock is monotonic nanoseconds since the cache was created, cache.go nowNano, so never negative; c05_remaining assumes 0 <= deadline.) *)
Definition ex_lru_neg : cache := cache_init [4; 0; 1; 0; 0; 1; 1; 0; 0; 0; 0; 0; 1; 15; 0; -10].
Example c05_remaining_minus_one_iff_no_deadline_refuted :
  let c1 := fst (op_set ex_lru_neg 1 10 9 1 0) in
  (map exp (lst (shard0 c1)), gres (op_get (advance c1 10) 1 0)) = ([-1], (true, 10, -1)).
Proof. vm_compute. reflexivity. Qed.

(** "an update stages nothing" is false when the cost grows on a cost-bounded cache: MaxCost 10,
    Set(1, cost 5); Set(2, cost 5); Set(1, cost 6) displaces key 2 with reason capacity, which is
    staged and notified.  (True variant: c05_rewrite_in_place / c06_write_drops, last clause.) *)
Definition ex_weighted_lru : cache := cache_init [0; 10; 1; 0; 0; 1; 1; 0; 0; 0; 0; 0; 1; 15; 1; 100].
Example c06_update_stages_nothing_refuted :
  let c1 := fst (op_set ex_weighted_lru 1 10 0 5 0) in
  let c2 := fst (op_set c1 2 20 0 5 0) in
  let c3 := fst (op_set c2 1 11 0 6 0) in
  (map nview (staged (shard0 c2)), map nview (staged (shard0 c3)), glog (shard0 c3), evictions c3,
   map (fun it => (key it, val it, cost it)) (lst (shard0 c3)))
  = ([], [(2, 20, 0)], [(0, 1, 10); (0, 2, 20); (1, 1, 10); (0, 1, 11); (10, 2, 20)], 1, [(1, 11, 6)]).
Proof. vm_compute. reflexivity. Qed.

(** Clear on a cache with queued SetAsync commands first applies them, and those writes may stage
    (here: capacity 4, five queued inserts): "Clear stages nothing" holds for the clear step itself
    (c06_clear_stages_nothing), not for the drain that precedes it. *)
Example c06_clear_stages_nothing_refuted :
  let q := fun c k => fst (op_set_async c k (k * 10) 0 1 0) in
  let c5 := q (q (q (q (q ex_lru 1) 2) 3) 4) 5 in
  let c6 := op_clear c5 in
  (map nview (staged (shard0 c5)), map nview (staged (shard0 c6)), op_keys c6, size (shard0 c6))
  = ([], [(1, 10, 0)], [], 0).
Proof. vm_compute. reflexivity. Qed.

(* one SieveTinyLFU shard of capacity 4: the same TTL behaviour on the Sieve read / write paths
   (each insert consumes one recorded ghost event (1, shard 0, 0): a miss) *)
Definition ex_sieve : cache := cache_init [4; 0; 1; 0; 0; 4; 1; 0; 0; 0; 0; 0; 1; 15; 0; 100].
Example ex_ttl_sieve :
  let c1 := fst (op_set (attach_events ex_sieve [1; 0; 0]) 1 10 5 1 0) in
  let c2 := fst (op_set (attach_events c1 [1; 0; 0]) 2 20 0 1 0) in
  let g1 := op_get (advance c2 5) 1 0 in
  let e2 := op_exists (advance c2 6) 1 0 in
  let c3 := fst e2 in
  (is_sieve (shard0 c2) (policy c2), errs c2, map (fun it => (key it, val it, exp it)) (prob (shard0 c2) ++ main (shard0 c2)),
   gres g1, snd e2, glog (shard0 c3), map nview (nlog (shard0 c3)), expirations c3, op_keys c3,
   gres (op_get c3 1 0), lastev (glog (shard0 c3)) 1)
  = (true, 0, [(2, 20, 0); (1, 10, 105)], (true, 10, 0), false,
     [(0, 1, 10); (0, 2, 20); (12, 1, 10)], [(1, 10, 2)], 1, [2], (false, 0, 0), Some (12, 10)).
Proof. vm_compute. reflexivity. Qed.
