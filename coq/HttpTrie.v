(* HttpTrie.v — httpcache/pattern.go: the path-segment trie behind Middleware.Invalidate.
   Keys and response identities are integers; paths and patterns are byte strings. *)
Require Import KV.Base KV.HttpModel KV.CacheModel.
Open Scope Z_scope.

Inductive node := Node : list (Z * Z) -> list (str * node) -> node.
Definition nkeys (n : node) := match n with Node ks _ => ks end.
Definition nkids (n : node) := match n with Node _ cs => cs end.
Definition empty_node : node := Node [] [].
Definition is_empty (n : node) : bool :=
  match n with Node [] [] => true | _ => false end.

Fixpoint get_key (ks : list (Z * Z)) (k : Z) : option Z :=
  match ks with [] => None | (k', i) :: r => if k' =? k then Some i else get_key r k end.
Definition del_key (ks : list (Z * Z)) (k : Z) := filter (fun ki => negb (fst ki =? k)) ks.
Definition set_key (ks : list (Z * Z)) (k i : Z) := del_key ks k ++ [(k, i)].

Fixpoint find_child (cs : list (str * node)) (sg : str) : option node :=
  match cs with [] => None | (s, c) :: r => if str_eqb s sg then Some c else find_child r sg end.
Definition del_child (cs : list (str * node)) (sg : str) := filter (fun sc => negb (str_eqb (fst sc) sg)) cs.
Definition set_child (cs : list (str * node)) (sg : str) (c : node) := del_child cs sg ++ [(sg, c)].

(* normalizePath: non-empty segments between '/' *)
Definition normalize (path : str) : list str :=
  filter (fun sg => match sg with [] => false | _ => true end) (split_on 47 path []).

Fixpoint add_key (n : node) (segs : list str) (k i : Z) : node :=
  match segs with
  | [] => Node (set_key (nkeys n) k i) (nkids n)
  | sg :: rest =>
    let c := match find_child (nkids n) sg with Some c => c | None => empty_node end in
    Node (nkeys n) (set_child (nkids n) sg (add_key c rest k i))
  end.

(* removeKeyByIdentity with pruning of branches left empty *)
Fixpoint remove_key (n : node) (segs : list str) (k i : Z) : node * bool :=
  match segs with
  | [] => match get_key (nkeys n) k with
          | Some j => if j =? i then (Node (del_key (nkeys n) k) (nkids n), true) else (n, false)
          | None => (n, false)
          end
  | sg :: rest =>
    match find_child (nkids n) sg with
    | None => (n, false)
    | Some c =>
      let '(c', ok) := remove_key c rest k i in
      if ok then
        (if is_empty c' then Node (nkeys n) (del_child (nkids n) sg)
         else Node (nkeys n) (set_child (nkids n) sg c'), true)
      else (n, false)
    end
  end.

Fixpoint subtree_keys (n : node) : list Z :=
  match n with
  | Node ks cs => map fst ks ++
      (fix go (l : list (str * node)) : list Z :=
         match l with [] => [] | (_, c) :: r => subtree_keys c ++ go r end) cs
  end.

Fixpoint descend (n : node) (segs : list str) : option node :=
  match segs with
  | [] => Some n
  | sg :: rest => match find_child (nkids n) sg with Some c => descend c rest | None => None end
  end.

Definition get_matching (root : node) (pattern : str) : list Z :=
  let pat := match pattern with [] => [47] | _ => pattern end in
  let wildcard := match rev pat with 42 :: _ => true | _ => false end in
  let base := if wildcard then rev (tl (rev pat)) else pat in
  match descend root (normalize base) with
  | None => []
  | Some n => if wildcard then subtree_keys n else map fst (nkeys n)
  end.

Fixpoint count_nodes (n : node) : Z :=
  match n with
  | Node _ cs => 1 + (fix go (l : list (str * node)) : Z :=
                        match l with [] => 0 | (_, c) :: r => count_nodes c + go r end) cs
  end.

(* stream "trie": 1 key id path = addKey, 2 key id path = removeKeyByIdentity, 3 pattern = getMatchingKeys (sorted), 4 = clear,
   5 = number of nodes; anything else answers [-1] *)
Definition trie_step (t : node) (op : list Z) : node * list Z :=
  match op with
  | 1 :: k :: i :: rest => let '(p, _) := read_str rest in (add_key t (normalize p) k i, [])
  | 2 :: k :: i :: rest => let '(p, _) := read_str rest in
                           let '(t', ok) := remove_key t (normalize p) k i in (t', [])
  | 3 :: rest => let '(p, _) := read_str rest in (t, sort_z (get_matching t p))
  | [4] => (empty_node, [])
  | [5] => (t, [count_nodes t])
  | _ => (t, [-1])
  end.
