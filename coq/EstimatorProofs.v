(* EstimatorProofs.v — theorems about the doorkeeper + count-min sketch model (C19). *)
Require Import KV.Base KV.Gen.Consts KV.Nibble KV.EstimatorModel.
Open Scope N_scope.
(* from here on, and in every file that imports this one, lia also handles / and mod *)
Ltac Zify.zify_post_hook ::= Z.div_mod_to_equations.

Definition W : N := 18446744073709551616.

(* the model carries its own copy of nib; the word-level facts are proved about Nibble's *)
Lemma nib_same w sh : EstimatorModel.nib w sh = Nibble.nib w sh.
Proof. reflexivity. Qed.

(* word arrays: setw_nat is the same function as Nibble.upd *)

Lemma setw_nat_length l i v : length (setw_nat l i v) = length l.
Proof. exact (upd_length l i v). Qed.

Lemma setw_length l i v : length (setw l i v) = length l.
Proof. apply setw_nat_length. Qed.

Lemma nth_setw_nat_same l i v : (i < length l)%nat -> nth i (setw_nat l i v) 0 = v.
Proof. exact (nth_upd_same l i v). Qed.

Lemma nth_setw_nat_other l i j v : i <> j -> nth j (setw_nat l i v) 0 = nth j l 0.
Proof. exact (nth_upd_other l i j v). Qed.

Lemma getw_setw_same l i v : i < N.of_nat (length l) -> getw (setw l i v) i = v.
Proof. intros H. unfold getw, setw. apply nth_setw_nat_same. lia. Qed.

Lemma getw_setw_other l i j v : i <> j -> getw (setw l i v) j = getw l j.
Proof. intros H. unfold getw, setw. apply nth_setw_nat_other. lia. Qed.

Definition words_ok (l : list N) : Prop := Forall (fun w => w < W) l.

Lemma words_ok_getw l i : words_ok l -> getw l i < W.
Proof.
  intros H. unfold getw. destruct (Nat.lt_ge_cases (N.to_nat i) (length l)) as [Hlt|Hge].
  - eapply Forall_forall in H; [exact H|]. apply nth_In. exact Hlt.
  - rewrite nth_overflow by lia. unfold W. lia.
Qed.

Lemma words_ok_setw_nat l i v : words_ok l -> v < W -> words_ok (setw_nat l i v).
Proof.
  intros H Hv. revert i; induction H as [|x r Hx Hr IH]; intros i; destruct i; cbn [setw_nat];
    try constructor; try assumption. apply IH.
Qed.

Lemma words_ok_setw l i v : words_ok l -> v < W -> words_ok (setw l i v).
Proof. apply words_ok_setw_nat. Qed.

Lemma sk_counter_le15 cs i : sk_counter cs i <= 15.
Proof. unfold sk_counter. rewrite nib_same. apply nib_le15. Qed.

Lemma shift_of_pos i : (i mod 16) * 4 = 4 * N.of_nat (N.to_nat (i mod 16)).
Proof. rewrite N2Nat.id. lia. Qed.

Lemma pos_lt16 i : (N.to_nat (i mod 16) < 16)%nat.
Proof. pose proof (N.mod_lt i 16 ltac:(discriminate)). lia. Qed.

Lemma split_index d i i' : d <> 0 -> i / d = i' / d -> i mod d = i' mod d -> i = i'.
Proof. intros Hd Hq Hr. rewrite (N.div_mod i d Hd), (N.div_mod i' d Hd). congruence. Qed.

Lemma incr_spec cs i : words_ok cs -> i < 16 * N.of_nat (length cs) ->
  words_ok (sk_incr cs i) /\ length (sk_incr cs i) = length cs /\
  sk_counter (sk_incr cs i) i = (if sk_counter cs i <? 15 then sk_counter cs i + 1 else sk_counter cs i) /\
  (forall i', i' <> i -> sk_counter (sk_incr cs i) i' = sk_counter cs i').
Proof.
  intros Hok Hi. unfold sk_incr, sk_counter. rewrite !nib_same.
  set (wi := i / 16). set (w := getw cs wi).
  assert (Hw : w < W) by (apply words_ok_getw; assumption).
  assert (Hwi : wi < N.of_nat (length cs)) by (apply N.div_lt_upper_bound; [discriminate|exact Hi]).
  rewrite shift_of_pos.
  set (j := N.to_nat (i mod 16)).
  assert (Hj : (j < 16)%nat) by apply pos_lt16.
  destruct (Nibble.nib w (4 * N.of_nat j) <? 15) eqn:E.
  - destruct (nib_bump w j Hw Hj ltac:(lia)) as [Hb [Hsame Hoth]].
    assert (Hw64 : w64 (w + N.shiftl 1 (4 * N.of_nat j)) = w + N.shiftl 1 (4 * N.of_nat j)).
    { unfold w64. apply N.mod_small. exact Hb. }
    rewrite Hw64. split; [apply words_ok_setw; assumption|]. split; [apply setw_length|]. split.
    + fold wi. rewrite getw_setw_same by assumption. exact Hsame.
    + intros i' Hne. destruct (N.eq_dec (i' / 16) wi) as [Heq|Hneq].
      * rewrite Heq, getw_setw_same by assumption. fold w.
        rewrite (shift_of_pos i'). apply Hoth; [apply pos_lt16|].
        intros Hc. apply Hne, (split_index 16); [discriminate|exact Heq|]. apply N2Nat.inj, Hc.
      * rewrite getw_setw_other by congruence. reflexivity.
  - split; [assumption|]. split; [reflexivity|]. split; [reflexivity|]. intros; reflexivity.
Qed.

Lemma fold_incr_spec idx : forall cs, words_ok cs ->
  (forall i, In i idx -> i < 16 * N.of_nat (length cs)) ->
  let cs' := fold_left sk_incr idx cs in
  words_ok cs' /\ length cs' = length cs /\
  (forall i', sk_counter cs i' <= sk_counter cs' i') /\
  (forall i, In i idx -> N.min (sk_counter cs i + 1) 15 <= sk_counter cs' i).
Proof.
  induction idx as [|i r IH]; intros cs Hok Hr; cbn [fold_left].
  - repeat split; try assumption; [intros; lia|intros i []].
  - destruct (incr_spec cs i Hok (Hr i (or_introl eq_refl))) as [Hok1 [Hl1 [Hs1 Ho1]]].
    destruct (IH (sk_incr cs i) Hok1) as [Hok2 [Hl2 [Hm2 Hb2]]].
    { intros x Hx. rewrite Hl1. apply Hr. right; exact Hx. }
    assert (Hmono1 : forall i', sk_counter cs i' <= sk_counter (sk_incr cs i) i').
    { intros i'. destruct (N.eq_dec i' i) as [->|Hne]; [rewrite Hs1; destruct (sk_counter cs i <? 15); lia|rewrite Ho1 by assumption; lia]. }
    repeat split; try assumption; [congruence| |].
    + intros i'. specialize (Hmono1 i'). specialize (Hm2 i'). lia.
    + intros x [<-|Hx].
      * specialize (Hm2 i). rewrite Hs1 in Hm2. pose proof (sk_counter_le15 cs i).
        destruct (sk_counter cs i <? 15) eqn:E; lia.
      * specialize (Hb2 x Hx). specialize (Hmono1 x). lia.
Qed.

(* the empty minimum is the cap, so the one-element case of min_counter is not special *)
Lemma min_counter_cons cs a r : min_counter cs (a :: r) = N.min (sk_counter cs a) (min_counter cs r).
Proof. pose proof (sk_counter_le15 cs a). destruct r; cbn [min_counter]; lia. Qed.

Lemma min_counter_le cs idx i : In i idx -> min_counter cs idx <= sk_counter cs i.
Proof.
  induction idx as [|a r IH]; intros Hin; [destruct Hin|]. rewrite min_counter_cons.
  destruct Hin as [<-|Hin]; [|specialize (IH Hin)]; lia.
Qed.

Lemma min_counter_ge cs idx x : x <= 15 -> (forall i, In i idx -> x <= sk_counter cs i) -> x <= min_counter cs idx.
Proof.
  intros Hx. induction idx as [|a r IH]; intros H; [assumption|]. rewrite min_counter_cons.
  pose proof (H a (or_introl eq_refl)). pose proof (IH (fun i Hi => H i (or_intror Hi))). lia.
Qed.

Lemma min_counter_le15 cs idx : min_counter cs idx <= 15.
Proof. destruct idx; [cbn; lia|]. rewrite min_counter_cons. pose proof (sk_counter_le15 cs n). lia. Qed.

Definition sk_wf (s : sketch) : Prop :=
  words_ok (counters s) /\
  exists k, N.of_nat (length (counters s)) = 8 * 2 ^ k /\ blockMask s = N.ones k.

Lemma land_ones_lt a k : N.land a (N.ones k) < 2 ^ k.
Proof. rewrite N.land_ones. apply N.mod_lt. apply N.pow_nonzero. lia. Qed.

Lemma land127 a : N.land a 127 < 128.
Proof. change 127 with (N.ones 7). change 128 with (2 ^ 7). apply land_ones_lt. Qed.

Theorem indexes_in_range s av : sk_wf s ->
  forall i, In i (sk_indexes s av) -> i < 16 * N.of_nat (length (counters s)).
Proof.
  intros [_ [k [Hl Hm]]] i Hin. unfold sk_indexes in Hin. rewrite Hm in Hin. rewrite Hl.
  pose proof (land_ones_lt av k) as Hb.
  pose proof (land127 (N.shiftr av 21)). pose proof (land127 (N.shiftr av 28)).
  pose proof (land127 (N.shiftr av 35)). pose proof (land127 (N.shiftr av 42)).
  cbn [In] in Hin. nia.
Qed.

Lemma sk_wf_nonempty s : sk_wf s -> counters s <> [].
Proof.
  intros [_ [k [Hl _]]] He. rewrite He in Hl. cbn [length N.of_nat] in Hl.
  pose proof (N.pow_nonzero 2 k ltac:(lia)). lia.
Qed.

Lemma sk_estimate_eq s av : sk_wf s -> sk_estimate s av = min_counter (counters s) (sk_indexes s av).
Proof. intros H. unfold sk_estimate. destruct (counters s) eqn:E; [exfalso; eapply sk_wf_nonempty; eauto|reflexivity]. Qed.

Lemma sk_estimate_le15 s av : sk_estimate s av <= 15.
Proof. unfold sk_estimate. destruct (counters s); [lia|apply min_counter_le15]. Qed.

Lemma sk_indexes_indep s s' av : blockMask s = blockMask s' -> sk_indexes s av = sk_indexes s' av.
Proof. intros H. unfold sk_indexes. rewrite H. reflexivity. Qed.

Theorem sk_add_spec s av : sk_wf s ->
  let s' := sk_add s av in
  sk_wf s' /\ samples s' = samples s /\ resetAt s' = resetAt s /\
  (forall av', sk_estimate s av' <= sk_estimate s' av') /\
  N.min (sk_estimate s av + 1) 15 <= sk_estimate s' av.
Proof.
  intros Hwf. pose proof Hwf as [Hok [k [Hl Hm]]].
  cbv zeta. unfold sk_add. destruct (counters s) eqn:Ecs; [exfalso; eapply sk_wf_nonempty; eauto|].
  rewrite <- Ecs in *.
  destruct (min_counter (counters s) (sk_indexes s av) <? 15) eqn:E.
  - destruct (fold_incr_spec (sk_indexes s av) (counters s) Hok (indexes_in_range s av Hwf)) as [Hok' [Hl' [Hmono Hbump]]].
    set (s' := {| counters := fold_left sk_incr (sk_indexes s av) (counters s); blockMask := blockMask s;
                  samples := samples s; resetAt := resetAt s |}).
    assert (Hwf' : sk_wf s').
    { split; [exact Hok'|]. exists k. cbn [counters blockMask s']. rewrite Hl'. split; assumption. }
    split; [exact Hwf'|]. split; [reflexivity|]. split; [reflexivity|]. split.
    + intros av'. rewrite !sk_estimate_eq by assumption.
      rewrite (sk_indexes_indep s' s av') by reflexivity.
      apply min_counter_ge; [apply min_counter_le15|].
      intros i Hi. pose proof (min_counter_le (counters s) _ i Hi). specialize (Hmono i).
      cbn [counters s']. lia.
    + rewrite !sk_estimate_eq by assumption.
      rewrite (sk_indexes_indep s' s av) by reflexivity.
      apply min_counter_ge; [lia|].
      intros i Hi. pose proof (min_counter_le (counters s) _ i Hi). specialize (Hbump i Hi).
      cbn [counters s']. lia.
  - split; [assumption|]. split; [reflexivity|]. split; [reflexivity|]. split; [intros; lia|].
    rewrite sk_estimate_eq by assumption. pose proof (min_counter_le15 (counters s) (sk_indexes s av)). lia.
Qed.

Lemma getw_map f l i : f 0 = 0 -> getw (map f l) i = f (getw l i).
Proof.
  intros Hf. unfold getw. revert l; induction (N.to_nat i) as [|n IH]; intros l; destruct l; cbn; auto.
Qed.

Lemma sk_counter_age cs i : words_ok cs ->
  sk_counter (map (fun w => N.land (N.shiftr w 1) agingMask) cs) i = sk_counter cs i / 2.
Proof.
  intros Hok. unfold sk_counter. rewrite !nib_same.
  rewrite (getw_map (fun w => N.land (N.shiftr w 1) agingMask)) by reflexivity.
  rewrite shift_of_pos.
  apply (nib_age (getw cs (i / 16)) _ (words_ok_getw cs (i / 16) Hok) (pos_lt16 i)).
Qed.

Lemma words_ok_age cs : words_ok cs -> words_ok (map (fun w => N.land (N.shiftr w 1) agingMask) cs).
Proof.
  induction 1 as [|w r Hw Hr IH]; cbn [map]; constructor; [|assumption].
  destruct (nib_age w 0 Hw ltac:(lia)) as [H _]. exact H.
Qed.

Lemma min_counter_half cs cs' idx : idx <> [] ->
  (forall i, sk_counter cs' i = sk_counter cs i / 2) -> min_counter cs' idx = min_counter cs idx / 2.
Proof.
  intros Hne H. destruct idx as [|a r]; [congruence|]. clear Hne. revert a.
  induction r as [|b r IH]; intros a; [apply H|].
  rewrite (min_counter_cons cs' a), (min_counter_cons cs a), IH, H.
  destruct (N.le_ge_cases (sk_counter cs a) (min_counter cs (b :: r))) as [Hle|Hle].
  - rewrite (N.min_l (sk_counter cs a)) by assumption. apply N.min_l. apply N.div_le_mono; [lia|assumption].
  - rewrite (N.min_r (sk_counter cs a)) by assumption. apply N.min_r. apply N.div_le_mono; [lia|assumption].
Qed.

Theorem sk_age_spec s : sk_wf s ->
  sk_wf (sk_age s) /\ forall av, sk_estimate (sk_age s) av = sk_estimate s av / 2.
Proof.
  intros Hwf. pose proof Hwf as [Hok [k [Hl Hm]]].
  assert (Hwf' : sk_wf (sk_age s)).
  { split; [apply words_ok_age; assumption|]. exists k. cbn [counters blockMask sk_age]. rewrite map_length. split; assumption. }
  split; [exact Hwf'|]. intros av. rewrite !sk_estimate_eq by assumption.
  rewrite (sk_indexes_indep (sk_age s) s av) by reflexivity.
  apply min_counter_half; [unfold sk_indexes; discriminate|].
  intros i. apply sk_counter_age. assumption.
Qed.

Definition door_wf (d : door) : Prop :=
  exists k, N.of_nat (length (dbits d)) * 64 = 2 ^ k /\ dmask d = N.ones k /\ dbits d <> [].

Lemma door_has_set d i i' : i / 64 < N.of_nat (length (dbits d)) ->
  door_has (door_set d i) i' = door_has d i' || (i' =? i).
Proof.
  intros Hr. unfold door_has, door_set. cbn [dbits].
  destruct (N.eq_dec (i' / 64) (i / 64)) as [Heq|Hne].
  - rewrite Heq, getw_setw_same by assumption.
    rewrite N.lor_spec. f_equal.
    rewrite N.shiftl_1_l, N.pow2_bits_eqb.
    destruct (i' =? i) eqn:E.
    + apply N.eqb_eq in E. subst. apply N.eqb_refl.
    + apply N.eqb_neq. apply N.eqb_neq in E. intros Hc. apply E, (split_index 64); [discriminate|exact Heq|symmetry; exact Hc].
  - rewrite getw_setw_other by congruence.
    replace (i' =? i) with false; [rewrite orb_false_r; reflexivity|].
    symmetry. apply N.eqb_neq. intros ->. congruence.
Qed.

Lemma door_idx_range d av : door_wf d ->
  fst (door_idx d av) / 64 < N.of_nat (length (dbits d)) /\
  snd (door_idx d av) / 64 < N.of_nat (length (dbits d)).
Proof.
  intros [k [Hl [Hm _]]]. unfold door_idx. cbn [fst snd]. rewrite Hm.
  pose proof (land_ones_lt av k). pose proof (land_ones_lt (N.shiftr av 32) k).
  split; apply N.div_lt_upper_bound; lia.
Qed.

Lemma door_set_wf d i : door_wf d -> door_wf (door_set d i).
Proof.
  intros [k [Hl [Hm Hne]]]. exists k. unfold door_set. cbn [dbits dmask]. rewrite setw_length.
  repeat split; try assumption. intros He. apply Hne.
  apply (f_equal (@length N)) in He. rewrite setw_length in He. destruct (dbits d); [reflexivity|discriminate].
Qed.

Theorem door_add_spec d av : door_wf d ->
  let '(seen, d') := door_add d av in
  door_wf d' /\ seen = door_contains d av /\ door_contains d' av = true /\
  (forall av', door_contains d av' = true -> door_contains d' av' = true).
Proof.
  intros Hwf. pose proof Hwf as [k [Hl [Hm Hne]]].
  unfold door_add, door_contains. destruct (dbits d) eqn:Eb; [congruence|]. rewrite <- Eb in *.
  destruct (door_idx d av) as [i j] eqn:Eij.
  pose proof (door_idx_range d av Hwf) as [Hri Hrj]. rewrite Eij in Hri, Hrj. cbn [fst snd] in Hri, Hrj.
  set (d1 := door_set d i). set (d2 := door_set d1 j).
  assert (Hwf2 : door_wf d2) by (apply door_set_wf, door_set_wf; assumption).
  assert (Hlen1 : length (dbits d1) = length (dbits d)) by (subst d1; unfold door_set; cbn; apply setw_length).
  assert (Hhas : forall x, door_has d2 x = door_has d x || (x =? i) || (x =? j)).
  { intros x. subst d2. rewrite door_has_set by (rewrite Hlen1; assumption).
    subst d1. rewrite door_has_set by assumption. reflexivity. }
  assert (Hidx : forall a, door_idx d2 a = door_idx d a) by reflexivity.
  destruct (dbits d2) eqn:Eb2; [destruct Hwf2 as [? [? [? Hc]]]; congruence|]. try rewrite <- Eb2 in *.
  split; [exact Hwf2|]. split; [reflexivity|]. split.
  - rewrite Hidx, Eij, !Hhas, !N.eqb_refl. rewrite !orb_true_r. reflexivity.
  - intros av'. rewrite Hidx. destruct (door_idx d av') as [a b]. rewrite !Hhas.
    intros H. apply andb_true_iff in H as [Ha Hb]. rewrite Ha, Hb. reflexivity.
Qed.

Lemma door_clear_spec d : door_wf d -> door_wf (door_clear d) /\ forall av, door_contains (door_clear d) av = false.
Proof.
  intros [k [Hl [Hm Hne]]]. split.
  - exists k. unfold door_clear. cbn [dbits dmask]. rewrite map_length. repeat split; try assumption.
    destruct (dbits d); [congruence|discriminate].
  - intros av. unfold door_contains, door_clear. cbn [dbits].
    destruct (map (fun _ : N => 0) (dbits d)) eqn:E; [reflexivity|]. rewrite <- E.
    unfold door_idx. cbn [dmask dbits]. unfold door_has. cbn [dbits].
    rewrite (getw_map (fun _ => 0)) by reflexivity. rewrite N.bits_0. reflexivity.
Qed.

Definition est_wf (e : estimator) : Prop := sk_wf (sk e) /\ door_wf (dr e).

Lemma estimate_av_eq e av :
  estimate_av e av = N.min 15 (sk_estimate (sk e) av + if door_contains (dr e) av then 1 else 0).
Proof.
  unfold estimate_av. pose proof (sk_estimate_le15 (sk e) av).
  destruct (door_contains (dr e) av), (sk_estimate (sk e) av <? 15) eqn:E; cbn [andb]; lia.
Qed.

Lemma estimate_av_le15 e av : estimate_av e av <= 15.
Proof. rewrite estimate_av_eq. lia. Qed.

Theorem record_no_aging e av e' : est_wf e -> record_av e av = (e', false) ->
  est_wf e' /\
  (forall av', estimate_av e av' <= estimate_av e' av') /\
  N.min (estimate_av e av + 1) 15 <= estimate_av e' av.
Proof.
  intros [Hs Hd] Hrec. unfold record_av in Hrec.
  pose proof (door_add_spec (dr e) av Hd) as Hda.
  destruct (door_add (dr e) av) as [seen d1]. destruct Hda as [Hd1 [Hseen [Hc1 Hmono]]].
  set (s1 := if seen then sk_add (sk e) av else sk e) in *.
  assert (Hs1 : sk_wf s1 /\ (forall av', sk_estimate (sk e) av' <= sk_estimate s1 av') /\
                (seen = true -> N.min (sk_estimate (sk e) av + 1) 15 <= sk_estimate s1 av)).
  { subst s1. destruct seen.
    - destruct (sk_add_spec (sk e) av Hs) as [A [_ [_ [B C]]]].
      split; [exact A|split; [exact B|intros _; exact C]].
    - split; [exact Hs|split; [intros; lia|discriminate]]. }
  destruct Hs1 as [Hwf1 [Hm1 Hb1]].
  unfold tick_obs in Hrec. cbn [sk dr counters blockMask samples resetAt] in Hrec.
  match type of Hrec with (if ?c then _ else _) = _ => destruct c eqn:Ec end; [discriminate|].
  inversion Hrec; subst e'; clear Hrec.
  assert (Hest : forall a, sk_estimate {| counters := counters s1; blockMask := blockMask s1;
                    samples := w64 (samples s1 + 1); resetAt := resetAt s1 |} a = sk_estimate s1 a) by reflexivity.
  split; [split; [|exact Hd1]|].
  { destruct Hwf1 as [A B]. split; assumption. }
  split.
  - intros av'. rewrite !estimate_av_eq. cbn [sk dr]. rewrite Hest. specialize (Hm1 av').
    destruct (door_contains (dr e) av') eqn:Ed; [rewrite (Hmono av' Ed)|destruct (door_contains d1 av')]; lia.
  - rewrite !estimate_av_eq. cbn [sk dr]. rewrite Hest, Hc1, <- Hseen. specialize (Hm1 av).
    destruct seen; [specialize (Hb1 eq_refl)|]; lia.
Qed.

Theorem tick_aging e e' : est_wf e -> tick_obs e = (e', true) ->
  est_wf e' /\ samples (sk e') = 0 /\
  forall av, estimate_av e' av = sk_estimate (sk e) av / 2 /\ door_contains (dr e') av = false.
Proof.
  intros [Hs Hd] Ht. unfold tick_obs in Ht.
  match type of Ht with (if ?c then _ else _) = _ => destruct c eqn:Ec end; [|discriminate].
  inversion Ht; subst e'; clear Ht.
  set (s1 := {| counters := counters (sk e); blockMask := blockMask (sk e);
                samples := w64 (samples (sk e) + 1); resetAt := resetAt (sk e) |}).
  assert (Hwf1 : sk_wf s1) by (destruct Hs as [A B]; split; assumption).
  destruct (sk_age_spec s1 Hwf1) as [Hwa Hha].
  destruct (door_clear_spec (dr e) Hd) as [Hdc Hnone].
  split; [split; assumption|]. split; [reflexivity|].
  intros av. unfold estimate_av. cbn [sk dr]. rewrite Hnone. cbn [andb]. split; [|reflexivity].
  rewrite Hha. reflexivity.
Qed.

Lemma record_aging e av e' : est_wf e -> record_av e av = (e', true) ->
  est_wf e' /\ forall av', door_contains (dr e') av' = false.
Proof.
  intros [Hs Hd] Hrec. unfold record_av in Hrec.
  pose proof (door_add_spec (dr e) av Hd) as Hda.
  destruct (door_add (dr e) av) as [seen d1]. destruct Hda as [Hd1 _].
  set (s1 := if seen then sk_add (sk e) av else sk e) in *.
  assert (Hwf1 : sk_wf s1).
  { subst s1. destruct seen; [destruct (sk_add_spec (sk e) av Hs) as [A _]; exact A|exact Hs]. }
  destruct (tick_aging {| sk := s1; dr := d1 |} e' (conj Hwf1 Hd1) Hrec) as [A [_ B]].
  split; [exact A|]. intros av'. apply B.
Qed.

(* runs the recordings hs; cnt counts them per fingerprint and restarts at 0 on aging, so the bound
   below is per aging period *)
Fixpoint replay (e : estimator) (cnt : N -> N) (hs : list N) : estimator * (N -> N) :=
  match hs with
  | [] => (e, cnt)
  | h :: r =>
    let '(e1, aged) := increment_frequency e h in
    replay e1 (if aged then (fun _ => 0) else (fun x => if x =? h then cnt x + 1 else cnt x)) r
  end.

Definition lower_ok (e : estimator) (cnt : N -> N) : Prop :=
  forall h, N.min (cnt h) 15 <= estimate e h <= 15.

Theorem lower_bound hs : forall e cnt, est_wf e -> lower_ok e cnt ->
  let '(e', cnt') := replay e cnt hs in est_wf e' /\ lower_ok e' cnt'.
Proof.
  induction hs as [|h r IH]; intros e cnt Hwf Hlow; cbn [replay]; [split; assumption|].
  unfold increment_frequency. destruct (record_av e (avalanche h)) as [e1 aged] eqn:Erec.
  destruct aged.
  - destruct (record_aging e _ e1 Hwf Erec) as [Hwf1 _].
    apply IH; [assumption|]. intros x. cbn. split; [lia|apply estimate_av_le15].
  - destruct (record_no_aging e _ e1 Hwf Erec) as [Hwf1 [Hmono Hbump]].
    apply IH; [assumption|]. intros x. unfold estimate. split; [|apply estimate_av_le15].
    destruct (x =? h) eqn:E.
    + apply N.eqb_eq in E. subst x. destruct (Hlow h) as [Hl _]. unfold estimate in Hl. lia.
    + destruct (Hlow x) as [Hl _]. unfold estimate in Hl. specialize (Hmono (avalanche x)). lia.
Qed.

Theorem monotone_between_agings e h e' : est_wf e -> increment_frequency e h = (e', false) ->
  forall h', estimate e h' <= estimate e' h'.
Proof.
  intros Hwf H h'. destruct (record_no_aging e _ e' Hwf H) as [_ [Hm _]]. apply Hm.
Qed.

Lemma new_estimator_wf k k' : 6 <= k' ->
  est_wf (new_estimator (8 * 2 ^ k) (2 ^ (k' - 6))).
Proof.
  intros Hk'. unfold new_estimator, est_wf. cbn [sk dr]. split.
  - split; cbn [counters blockMask].
    + apply Forall_forall. intros x Hx. apply repeat_spec in Hx. subst. unfold W. lia.
    + exists k. rewrite repeat_length, N2Nat.id. split; [reflexivity|].
      replace (8 * 2 ^ k / 8) with (2 ^ k) by (rewrite N.mul_comm, N.div_mul; lia).
      rewrite N.ones_equiv, N.pred_sub. reflexivity.
  - exists k'. cbn [dbits dmask]. rewrite repeat_length, N2Nat.id.
    assert (H64 : 2 ^ (k' - 6) * 64 = 2 ^ k').
    { change 64 with (2 ^ 6). rewrite <- N.pow_add_r. f_equal. lia. }
    rewrite H64. split; [reflexivity|]. split; [rewrite N.ones_equiv, N.pred_sub; reflexivity|].
    intros He. apply (f_equal (@length N)) in He. rewrite repeat_length in He. cbn in He.
    pose proof (N.pow_nonzero 2 (k' - 6) ltac:(lia)). lia.
Qed.

(* non-vacuity: a 64-word sketch with one cell saturated next to an empty one *)
Example saturated_neighbour :
  let e0 := new_estimator 64 16 in
  let e := fst (replay e0 (fun _ => 0) (repeat 7 20)) in
  estimate e 7 = 15 /\ estimate e 8 = 0.
Proof. vm_compute. split; reflexivity. Qed.

(* T-gen side conditions: the literals written into EstimatorModel are the constants compiled
   into /repo (coq/Gen/Consts.v is regenerated from the working tree on every run). *)
Lemma consts_as_modelled :
  (Z.of_N agingMask = sketchAgingMaskHi * 2 ^ 32 + sketchAgingMaskLo)%Z /\
  (sketchMaxCounter = 15)%Z /\ (sketchCounterBits = 4)%Z /\ (sketchCountersPerWord = 16)%Z /\
  (sketchBlockWords = 8)%Z /\ (sketchAgingMultiplier = 10)%Z /\ (sketchMinCounters = 1024)%Z.
Proof. vm_compute. repeat split; reflexivity. Qed.
