(* HttpModel.v — httpcache/middleware.go: Cache-Control parsing (hasCacheControlDirective,
   extractMaxAge with strconv.Atoi and the int64 clamp, headerFieldValues), the default cache
   policy, the capturing response writer as a state machine over handler actions composed with
   a reference model of net/http's server-side ResponseWriter, Wrap's decision, and replay.
   Strings are lists of byte values (Z in 0..255); theorems are about ASCII (< 128) input. *)
Require Import KV.Base.
Open Scope Z_scope.

Definition str := list Z.

(* ------------------------------------------------------------------ ASCII helpers *)
Definition is_space (c : Z) : bool := ((9 <=? c) && (c <=? 13)) || (c =? 32).
Definition lower (c : Z) : Z := if (65 <=? c) && (c <=? 90) then c + 32 else c.
Fixpoint str_eqb (a b : str) : bool :=
  match a, b with
  | [], [] => true
  | x :: a', y :: b' => (x =? y) && str_eqb a' b'
  | _, _ => false
  end.
Definition equal_fold (a b : str) : bool := str_eqb (map lower a) (map lower b).

Fixpoint drop_space (s : str) : str :=
  match s with c :: r => if is_space c then drop_space r else s | [] => [] end.
Definition trim_space (s : str) : str := rev (drop_space (rev (drop_space s))).

(* strings.Split(s, ",") *)
Fixpoint split_on (sep : Z) (s : str) (cur : str) : list str :=
  match s with
  | [] => [rev cur]
  | c :: r => if c =? sep then rev cur :: split_on sep r [] else split_on sep r (c :: cur)
  end.
Definition split_comma (s : str) : list str := split_on 44 s [].

(* strings.Cut(s, "=") : (before, after, found) *)
Fixpoint cut_on (sep : Z) (s : str) (acc : str) : str * str * bool :=
  match s with
  | [] => (rev acc, [], false)
  | c :: r => if c =? sep then (rev acc, r, true) else cut_on sep r (c :: acc)
  end.
Definition cut_eq (s : str) : str * str * bool := cut_on 61 s [].

(* ------------------------------------------------------------------ hasCacheControlDirective *)
Definition directive_name (part : str) : str :=
  let '(name, _, _) := cut_eq (trim_space part) in trim_space name.

Definition has_directive (cc : str) (ds : list str) : bool :=
  match cc with
  | [] => false
  | _ => existsb (fun part => existsb (fun d => equal_fold (directive_name part) d) ds) (split_comma cc)
  end.

(* ------------------------------------------------------------------ strconv.Atoi (base 10, 64-bit) *)
Definition is_digit (c : Z) : bool := (48 <=? c) && (c <=? 57).
Fixpoint digits_val (s : str) (acc : Z) : option Z :=
  match s with
  | [] => Some acc
  | c :: r => if is_digit c then digits_val r (acc * 10 + (c - 48)) else None
  end.
Definition atoi (s : str) : option Z :=
  let '(neg, ds) := match s with
                    | 43 :: r => (false, r)       (* '+' *)
                    | 45 :: r => (true, r)        (* '-' *)
                    | _ => (false, s)
                    end in
  match ds with
  | [] => None
  | _ => match digits_val ds 0 with
         | Some v => let x := if neg then - v else v in
                     if (- two63 <=? x) && (x <? two63) then Some x else None
         | None => None
         end
  end.

Definition second_ns : Z := 1000000000.

(* extractMaxAge: first max-age with a positive integer value; clamped instead of wrapping *)
Fixpoint max_age_parts (parts : list str) : Z :=
  match parts with
  | [] => 0
  | p :: r =>
    let '(name, value, ok) := cut_eq (trim_space p) in
    if ok && equal_fold (trim_space name) [109; 97; 120; 45; 97; 103; 101] then
      match atoi (trim_space value) with
      | Some secs => if 0 <? secs
                     then (if max_int64 / second_ns <? secs then max_int64 else secs * second_ns)
                     else max_age_parts r
      | None => max_age_parts r
      end
    else max_age_parts r
  end.
Definition extract_max_age (cc : str) : Z :=
  match cc with [] => 0 | _ => max_age_parts (split_comma cc) end.

(* ------------------------------------------------------------------ headers *)
Definition header := list (str * list str).   (* map key -> values; keys distinct *)

Fixpoint str_leb (a b : str) : bool :=
  match a, b with
  | [], _ => true
  | _ :: _, [] => false
  | x :: a', y :: b' => if x <? y then true else if y <? x then false else str_leb a' b'
  end.
Fixpoint insert_key (k : str * list str) (l : header) : header :=
  match l with
  | [] => [k]
  | h :: r => if str_leb (fst k) (fst h) then k :: l else h :: insert_key k r
  end.
Definition sort_header (h : header) : header := fold_right insert_key [] h.

Fixpoint join_comma (vs : list str) : str :=
  match vs with [] => [] | [v] => v | v :: r => v ++ [44] ++ join_comma r end.

(* headerFieldValues: every value of every spelling of name, keys in sorted order, joined by "," *)
Definition header_field_values (h : header) (name : str) : str :=
  join_comma (flat_map snd (filter (fun kv => equal_fold (fst kv) name) (sort_header h))).

Definition s_no_cache : str := [110; 111; 45; 99; 97; 99; 104; 101].
Definition s_no_store : str := [110; 111; 45; 115; 116; 111; 114; 101].
Definition s_private : str := [112; 114; 105; 118; 97; 116; 101].
Definition s_cache_control : str := [67; 97; 99; 104; 101; 45; 67; 111; 110; 116; 114; 111; 108].

(* ------------------------------------------------------------------ default policy *)
Record pconf := {
  p_methods : list Z;      (* cacheable method ids *)
  p_status : list Z;       (* cacheable status codes *)
  p_limit : bool; p_maxbody : Z;
  p_defttl : Z
}.
Fixpoint memZ (l : list Z) (x : Z) : bool := match l with [] => false | y :: r => (y =? x) || memZ r x end.

(* expires: oracle = result of parsing the Expires header relative to now: Some ttl when it parses *)
(* result: (store?, kind, ttl) with kind 1 = max-age, 2 = Expires, 3 = default TTL, 0 = not stored *)
Definition default_policy (p : pconf) (method status bodylen : Z) (h : header) (expires : option Z) : bool * Z * Z :=
  if negb (memZ (p_methods p) method) then (false, 0, 0)
  else if negb (memZ (p_status p) status) then (false, 0, 0)
  else if p_limit p && (p_maxbody p <? bodylen) then (false, 0, 0)
  else
    let cc := header_field_values h s_cache_control in
    if has_directive cc [s_no_cache; s_no_store; s_private] then (false, 0, 0)
    else
      let ma := extract_max_age cc in
      if 0 <? ma then (true, 1, ma)
      else match expires with
           | Some ttl => if 0 <? ttl then (true, 2, ttl) else (true, 3, p_defttl p)
           | None => (true, 3, p_defttl p)
           end.

(* ------------------------------------------------------------------ handler actions and the two writers *)
Inductive action :=
| HSet (k : str) (v : str)        (* w.Header()[k] = [v]  (raw map write, key as spelled) *)
| HAdd (k : str) (v : str)        (* append to w.Header()[k] *)
| HDel (k : str)
| AWriteHeader (code : Z)
| AWrite (n : Z) (tag : Z)        (* n bytes, contents identified by tag *)
| AFlush
| AHijack.

Definition hget (h : header) (k : str) : list str :=
  match find (fun kv => str_eqb (fst kv) k) h with Some kv => snd kv | None => [] end.
Definition hdel (h : header) (k : str) : header := filter (fun kv => negb (str_eqb (fst kv) k)) h.
Definition hset (h : header) (k : str) (vs : list str) : header := hdel h k ++ [(k, vs)].

(* reference model of the server-side writer: the first non-1xx status commits a header snapshot *)
Record under := {
  u_hdr : header;                  (* the live map handed to the handler *)
  u_committed : bool; u_status : Z; u_sent_hdr : header;
  u_body : list (Z * Z);           (* chunks (n, tag) *)
  u_info : list (Z * header);      (* informational responses sent *)
  u_hijacked : bool
}.
Definition is_info (code : Z) : bool := (100 <=? code) && (code <=? 199) && negb (code =? 101).

Definition u_write_header (u : under) (code : Z) : under :=
  if u_hijacked u then u
  else if is_info code then
    {| u_hdr := u_hdr u; u_committed := u_committed u; u_status := u_status u; u_sent_hdr := u_sent_hdr u;
       u_body := u_body u; u_info := if u_committed u then u_info u else u_info u ++ [(code, u_hdr u)];
       u_hijacked := false |}
  else if u_committed u then u
  else {| u_hdr := u_hdr u; u_committed := true; u_status := code; u_sent_hdr := u_hdr u;
          u_body := u_body u; u_info := u_info u; u_hijacked := false |}.
(* bodyAllowedForStatus *)
Definition body_allowed (status : Z) : bool :=
  negb (((100 <=? status) && (status <=? 199)) || (status =? 204) || (status =? 304)).
Definition u_write (u : under) (n tag : Z) : under :=
  if u_hijacked u then u else
  let u1 := if u_committed u then u else u_write_header u 200 in
  {| u_hdr := u_hdr u1; u_committed := u_committed u1; u_status := u_status u1; u_sent_hdr := u_sent_hdr u1;
     u_body := if (n =? 0) || negb (body_allowed (u_status u1)) then u_body u1 else u_body u1 ++ [(n, tag)];
     u_info := u_info u1; u_hijacked := false |}.
Definition u_set_hdr (u : under) (h : header) : under :=
  {| u_hdr := h; u_committed := u_committed u; u_status := u_status u; u_sent_hdr := u_sent_hdr u;
     u_body := u_body u; u_info := u_info u; u_hijacked := u_hijacked u |}.
Definition u_hijack (u : under) : under :=
  {| u_hdr := u_hdr u; u_committed := u_committed u; u_status := u_status u; u_sent_hdr := u_sent_hdr u;
     u_body := u_body u; u_info := u_info u; u_hijacked := true |}.

(* the capturing writer of the middleware *)
Record capw := {
  c_status : Z; c_buf : list (Z * Z); c_buflen : Z; c_headers : header;
  c_wrote : bool; c_toolarge : bool; c_streamed : bool;
  c_miss : str;            (* miss marker header name, [] = none *)
  c_maxbody : Z; c_limit : bool
}.
Definition cw_set (c : capw) st buf bl hd wr tl sm : capw :=
  {| c_status := st; c_buf := buf; c_buflen := bl; c_headers := hd; c_wrote := wr; c_toolarge := tl; c_streamed := sm;
     c_miss := c_miss c; c_maxbody := c_maxbody c; c_limit := c_limit c |}.

Definition s_MISS : str := [77; 73; 83; 83].
Definition s_HIT : str := [72; 73; 84].

(* http.Header.Set canonicalises the key; the harness only uses canonical marker names *)
Definition cap_write_header (c : capw) (u : under) (code : Z) : capw * under :=
  if is_info code then (c, u_write_header u code)
  else if c_wrote c then (c, u)
  else
    let hd := u_hdr u in
    let u1 := match c_miss c with [] => u | mk => u_set_hdr u (hset (u_hdr u) mk [s_MISS]) end in
    (cw_set c code (c_buf c) (c_buflen c) hd true (c_toolarge c) (c_streamed c || (code =? 101)),
     u_write_header u1 code).

Definition cap_capture (c : capw) (n tag : Z) : capw :=
  if c_streamed c || c_toolarge c || (n =? 0) then c
  else if negb (c_limit c) then cw_set c (c_status c) (c_buf c ++ [(n, tag)]) (c_buflen c + n) (c_headers c) (c_wrote c) false (c_streamed c)
  else
    let remaining := c_maxbody c - c_buflen c in
    if remaining <=? 0 then cw_set c (c_status c) (c_buf c) (c_buflen c) (c_headers c) (c_wrote c) true (c_streamed c)
    else if remaining <? n
    then cw_set c (c_status c) (c_buf c ++ [(remaining, tag)]) (c_buflen c + remaining) (c_headers c) (c_wrote c) true (c_streamed c)
    else cw_set c (c_status c) (c_buf c ++ [(n, tag)]) (c_buflen c + n) (c_headers c) (c_wrote c) false (c_streamed c).

Definition cap_write (c : capw) (u : under) (n tag : Z) : capw * under :=
  let '(c1, u1) := if c_wrote c then (c, u) else cap_write_header c u 200 in
  (cap_capture c1 n tag, u_write u1 n tag).

Definition cap_flush (c : capw) (u : under) : capw * under :=
  let c0 := cw_set c (c_status c) (c_buf c) (c_buflen c) (c_headers c) (c_wrote c) (c_toolarge c) true in
  if c_wrote c0 then (c0, if u_committed u then u else u_write_header u 200)
  else let '(c1, u1) := cap_write_header c0 u 200 in (c1, u1).

Definition cap_hijack (c : capw) (u : under) : capw * under :=
  (cw_set c (c_status c) (c_buf c) (c_buflen c) (c_headers c) true (c_toolarge c) true, u_hijack u).

Definition act (cu : capw * under) (a : action) : capw * under :=
  let '(c, u) := cu in
  match a with
  | HSet k v => (c, u_set_hdr u (hset (u_hdr u) k [v]))
  | HAdd k v => (c, u_set_hdr u (hset (u_hdr u) k (hget (u_hdr u) k ++ [v])))
  | HDel k => (c, u_set_hdr u (hdel (u_hdr u) k))
  | AWriteHeader code => cap_write_header c u code
  | AWrite n tag => cap_write c u n tag
  | AFlush => cap_flush c u
  | AHijack => cap_hijack c u
  end.

Definition cap_finish (cu : capw * under) : capw * under :=
  let '(c, u) := cu in if c_wrote c then cu else cap_write_header c u 200.

Definition new_capw (miss : str) (maxbody : Z) (limit : bool) : capw :=
  {| c_status := 200; c_buf := []; c_buflen := 0; c_headers := []; c_wrote := false; c_toolarge := false;
     c_streamed := false; c_miss := miss; c_maxbody := maxbody; c_limit := limit |}.
Definition new_under : under :=
  {| u_hdr := []; u_committed := false; u_status := 0; u_sent_hdr := []; u_body := []; u_info := []; u_hijacked := false |}.

Definition run_handler (miss : str) (maxbody : Z) (limit : bool) (acts : list action) : capw * under :=
  cap_finish (fold_left act acts (new_capw miss maxbody limit, new_under)).

Definition cacheable (c : capw) : bool := negb (c_streamed c) && negb (c_toolarge c).

(* cachedHeaders: drop ignored names (compared after canonicalisation = case-insensitively for ASCII) *)
Definition cached_headers (ignore : list str) (h : header) : header :=
  filter (fun kv => negb (existsb (fun ig => equal_fold (fst kv) ig) ignore)) h.

(* what Wrap stores for a cacheable method: None = nothing stored *)
Record stored := { st_status : Z; st_hdr : header; st_body : list (Z * Z); st_kind : Z; st_ttl : Z }.

(* a request whose method is not cacheable goes straight to the handler: no capture, no marker *)
Definition act_raw (u : under) (a : action) : under :=
  match a with
  | HSet k v => u_set_hdr u (hset (u_hdr u) k [v])
  | HAdd k v => u_set_hdr u (hset (u_hdr u) k (hget (u_hdr u) k ++ [v]))
  | HDel k => u_set_hdr u (hdel (u_hdr u) k)
  | AWriteHeader code => u_write_header u code
  | AWrite n tag => u_write u n tag
  | AFlush => if u_committed u then u else u_write_header u 200
  | AHijack => u_hijack u
  end.
Definition run_raw (acts : list action) : under :=
  let u := fold_left act_raw acts new_under in
  if u_committed u || u_hijacked u then u else u_write_header u 200.

Definition wrap_miss (p : pconf) (ignore : list str) (miss : str) (method : Z) (acts : list action) (expires : option Z)
  : option stored * under :=
  if negb (memZ (p_methods p) method) then (None, run_raw acts) else
  let '(c, u) := run_handler miss (p_maxbody p) (p_limit p) acts in
  if negb (cacheable c) then (None, u)
  else
    let '(ok, kind, ttl) := default_policy p method (c_status c) (c_buflen c) (c_headers c) expires in
    if ok then (Some {| st_status := c_status c; st_hdr := cached_headers ignore (c_headers c);
                        st_body := c_buf c; st_kind := kind; st_ttl := ttl |}, u)
    else (None, u).

(* serveCached: stored headers overwrite the response map, then the hit markers *)
Definition replay (s : stored) (hit : str) : Z * header * list (Z * Z) :=
  (st_status s, st_hdr s ++ [(hit, [s_HIT])], st_body s).

(* what an HTTP client reads: keys canonicalised (textproto.CanonicalMIMEHeaderKey for token bytes),
   spellings merged in the order the server writes them (keys sorted bytewise) *)
Definition is_upper (c : Z) : bool := (65 <=? c) && (c <=? 90).
Definition is_lower (c : Z) : bool := (97 <=? c) && (c <=? 122).
Fixpoint canon_from (s : str) (up : bool) : str :=
  match s with
  | [] => []
  | c :: r =>
    let c' := if up then (if is_lower c then c - 32 else c) else (if is_upper c then c + 32 else c) in
    c' :: canon_from r (c =? 45)
  end.
Definition canon (s : str) : str := canon_from s true.
(* a field value on the wire: CR/LF become spaces, surrounding blanks are trimmed *)
Definition is_blank (c : Z) : bool := (c =? 32) || (c =? 9) || (c =? 10) || (c =? 13).
Fixpoint drop_blank (s : str) : str :=
  match s with c :: r => if is_blank c then drop_blank r else s | [] => [] end.
Definition wire_value (v : str) : str :=
  let v1 := map (fun c => if (c =? 10) || (c =? 13) then 32 else c) v in
  rev (drop_blank (rev (drop_blank v1))).
Fixpoint merge_canon (h : header) (acc : header) : header :=
  match h with
  | [] => acc
  | (k, vs) :: r => let ck := canon k in merge_canon r (hset acc ck (hget acc ck ++ map wire_value vs))
  end.
Definition client_header (h : header) : header := merge_canon (sort_header h) [].

(* ------------------------------------------------------------------ stream "http" *)
(* strings are encoded as length-prefixed byte lists *)
Fixpoint take_str (n : nat) (l : list Z) : str * list Z :=
  match n, l with
  | O, _ => ([], l)
  | S n', c :: r => let '(s, rest) := take_str n' r in (c :: s, rest)
  | S _, [] => ([], [])
  end.
Definition read_str (l : list Z) : str * list Z :=
  match l with n :: r => take_str (Z.to_nat n) r | [] => ([], []) end.
Definition write_str (s : str) : list Z := Z.of_nat (length s) :: s.

Fixpoint read_actions (fuel : nat) (l : list Z) : list action :=
  match fuel with
  | O => []
  | S f =>
    match l with
    | 1 :: r => let '(k, r1) := read_str r in let '(v, r2) := read_str r1 in HSet k v :: read_actions f r2
    | 2 :: r => let '(k, r1) := read_str r in let '(v, r2) := read_str r1 in HAdd k v :: read_actions f r2
    | 3 :: r => let '(k, r1) := read_str r in HDel k :: read_actions f r1
    | 4 :: code :: r => AWriteHeader code :: read_actions f r
    | 5 :: n :: tag :: r => AWrite n tag :: read_actions f r
    | 6 :: r => AFlush :: read_actions f r
    | 7 :: r => AHijack :: read_actions f r
    | _ => []
    end
  end.

Definition enc_header (h : header) : list Z :=
  let sh := sort_header h in
  Z.of_nat (length sh) :: flat_map (fun kv => write_str (fst kv) ++ Z.of_nat (length (snd kv)) :: flat_map write_str (snd kv)) sh.
Definition enc_body (b : list (Z * Z)) : list Z := Z.of_nat (length b) :: flat_map (fun nt => [fst nt; snd nt]) b.

Fixpoint read_strs (n : nat) (l : list Z) : list str * list Z :=
  match n with
  | O => ([], l)
  | S n' => let '(s, r) := read_str l in let '(ss, r') := read_strs n' r in (s :: ss, r')
  end.
Fixpoint read_zs (n : nat) (l : list Z) : list Z * list Z :=
  match n, l with
  | O, _ => ([], l)
  | S n', x :: r => let '(xs, r') := read_zs n' r in (x :: xs, r')
  | S _, [] => ([], [])
  end.

Record hcfg := { h_p : pconf; h_ignore : list str; h_miss : str; h_hit : str }.

(* cfg: nmethods, methods..., nstatus, status..., limit, maxbody, defttl, nignore, ignore strs..., miss, hit *)
Definition http_init (l : list Z) : hcfg :=
  match l with
  | nm :: r0 =>
    let '(ms, r1) := read_zs (Z.to_nat nm) r0 in
    match r1 with
    | ns :: r2 =>
      let '(sts, r3) := read_zs (Z.to_nat ns) r2 in
      match r3 with
      | lim :: mb :: dt :: ni :: r4 =>
        let '(igs, r5) := read_strs (Z.to_nat ni) r4 in
        let '(miss, r6) := read_str r5 in
        let '(hit, _) := read_str r6 in
        {| h_p := {| p_methods := ms; p_status := sts; p_limit := z2b lim; p_maxbody := mb; p_defttl := dt |};
           h_ignore := igs; h_miss := miss; h_hit := hit |}
      | _ => {| h_p := {| p_methods := []; p_status := []; p_limit := false; p_maxbody := 0; p_defttl := 0 |}; h_ignore := []; h_miss := []; h_hit := [] |}
      end
    | _ => {| h_p := {| p_methods := []; p_status := []; p_limit := false; p_maxbody := 0; p_defttl := 0 |}; h_ignore := []; h_miss := []; h_hit := [] |}
    end
  | _ => {| h_p := {| p_methods := []; p_status := []; p_limit := false; p_maxbody := 0; p_defttl := 0 |}; h_ignore := []; h_miss := []; h_hit := [] |}
  end.

(* ops:
   1 method expkind expttl acts...  : one miss through Wrap; output: stored?(kind,ttl*,status,hdr,body) ++ client view of the miss,
                                      and, when something was stored, ++ the client view of a hit replayed from it
                                      (ttl* = 0 for kind 2: the Expires lifetime depends on the clock)
   2 cc-bytes...                    : has_directive / extract_max_age on a raw Cache-Control value *)
Definition http_step (c : hcfg) (op : list Z) : hcfg * list Z :=
  match op with
  | 1 :: method :: ek :: et :: rest =>
    let acts := read_actions (length rest) rest in
    let expires := if ek =? 0 then None else Some et in
    let '(st, u) := wrap_miss (h_p c) (h_ignore c) (h_miss c) method acts expires in
    let client := if u_hijacked u then [1]
                  else [0; u_status u] ++ enc_header (client_header (u_sent_hdr u)) ++ enc_body (u_body u)
                       ++ [Z.of_nat (length (u_info u))] in
    (c, match st with
        | None => [0] ++ client
        | Some s => let '(hs, hh, hb) := replay s (h_hit c) in
                    [1; st_kind s; if st_kind s =? 2 then 0 else st_ttl s; st_status s] ++ enc_header (st_hdr s)
                    ++ enc_body (st_body s) ++ client
                    ++ [hs] ++ enc_header (client_header hh) ++ enc_body (if body_allowed hs then hb else [])
        end)
  | 2 :: rest =>
    let '(cc, _) := read_str rest in
    let hd := has_directive cc [s_no_cache; s_no_store; s_private] in
    (c, [b2z hd; if hd then 0 else extract_max_age cc])
  | _ => (c, [-1])
  end.
